(* LambertProofs.v — lemmas about LambertModel.v at the real-number instance (C03). *)
From Coq Require Import Reals ZArith List Bool Lra Lia.
From Coquelicot Require Import Coquelicot.
From Romea Require Import Num NumR GeodesyModel GeodesyProofs LambertModel.
From Romea.gen Require Import RepoConstants.
Local Open Scope R_scope.

Lemma es_bounds e x : 0 <= e < 1 -> 0 < 1 - e * sin x /\ 0 < 1 + e * sin x.
Proof. intros He. pose proof (SIN_bound x) as [A B]. split; nra. Qed.

Lemma one_minus_e2s2_pos e x : 0 <= e < 1 -> 0 < 1 - e * e * (sin x * sin x).
Proof. intros He. pose proof (sin_sq_le_1 x). assert (0 <= sin x * sin x) by nra. assert (e * e < 1) by nra. nra. Qed.

Lemma quarter_plus_half lat : - PI / 2 < lat < PI / 2 -> 0 < PI / 4 + lat / 2 < PI / 2.
Proof. intros H. lra. Qed.

Lemma tan_quarter_pos lat : - PI / 2 < lat < PI / 2 ->
  0 < sin (PI / 4 + lat / 2) /\ 0 < cos (PI / 4 + lat / 2).
Proof.
  intros H. pose proof (quarter_plus_half lat H) as [A B]. split.
  - apply sin_gt_0; lra.
  - apply cos_gt_0; lra.
Qed.

(* 2 sin u cos u = cos lat for u = PI/4 + lat/2 *)
Lemma double_quarter lat : 2 * sin (PI / 4 + lat / 2) * cos (PI / 4 + lat / 2) = cos lat.
Proof.
  rewrite <- sin_2a. replace (2 * (PI / 4 + lat / 2)) with (PI / 2 + lat) by field.
  rewrite sin_plus, sin_PI2, cos_PI2. ring.
Qed.

Lemma Rpower_inv_pair x k : 0 < x -> Rpower x k * Rpower (/ x) k = 1.
Proof.
  intros Hx. unfold Rpower. rewrite <- exp_plus, ln_Rinv by exact Hx.
  replace (k * ln x + k * - ln x) with 0 by ring. apply exp_0.
Qed.

Lemma exp_mul_opp n L : exp (n * L) * exp (- n * L) = 1.
Proof. rewrite <- exp_plus. replace (n * L + - n * L) with 0 by ring. apply exp_0. Qed.

Definition isolat (e lat : R) : R := isometricLatitude ROps lat e.

Lemma isolat_eq e lat :
  isolat e lat = ln (sin (PI / 4 + lat / 2) / cos (PI / 4 + lat / 2) *
                     Rpower ((1 - e * sin lat) / (1 + e * sin lat)) (e / 2)).
Proof. unfold isolat, isometricLatitude, ntwo. cbn. replace (1 + 1) with 2 by ring. reflexivity. Qed.

Lemma exp_isolat e lat : - PI / 2 < lat < PI / 2 ->
  exp (isolat e lat) = sin (PI / 4 + lat / 2) / cos (PI / 4 + lat / 2) *
                       Rpower ((1 - e * sin lat) / (1 + e * sin lat)) (e / 2).
Proof.
  intros Hl. destruct (tan_quarter_pos lat Hl) as [S C]. rewrite isolat_eq. apply exp_ln.
  apply Rmult_lt_0_compat; [apply Rdiv_lt_0_compat; assumption|apply exp_pos].
Qed.

(* dL/dlat = (1 - e^2) / ((1 - e^2 sin^2 lat) cos lat) *)
Lemma isolat_derivative e lat : 0 <= e < 1 -> - PI / 2 < lat < PI / 2 ->
  is_derive (isolat e) lat ((1 - e * e) / ((1 - e * e * (sin lat * sin lat)) * cos lat)).
Proof.
  intros He Hl.
  destruct (es_bounds e lat He) as [Em Ep]. pose proof (one_minus_e2s2_pos e lat He) as E2.
  pose proof (cos_pos_lat lat Hl) as Cp. rewrite <- (double_quarter lat) in Cp.
  destruct (tan_quarter_pos lat Hl) as [Su Cu].
  apply (is_derive_ext (fun x => ln (sin (PI / 4 + x / 2) / cos (PI / 4 + x / 2) *
                                     exp (e / 2 * ln ((1 - e * sin x) / (1 + e * sin x)))))).
  { intros t. symmetry. apply isolat_eq. }
  auto_derive; change (lat * / 2) with (lat / 2).
  - replace (1 + - (e * sin lat)) with (1 - e * sin lat) by ring. repeat split; try lra.
    + apply Rdiv_lt_0_compat; lra.
    + apply Rmult_lt_0_compat; [apply Rdiv_lt_0_compat; lra|apply exp_pos].
  - (* 1 / (2 su cu) - e^2 c / (1 - e^2 s^2) with c = 2 su cu: once su^2 and s^2 are eliminated,
       a polynomial identity in cu and e *)
    rewrite <- (double_quarter lat).
    set (su := sin (PI / 4 + lat / 2)) in *. set (cu := cos (PI / 4 + lat / 2)) in *. set (s := sin lat) in *.
    set (P := exp _). assert (Pp : 0 < P) by apply exp_pos.
    assert (Tr : su * su = 1 - cu * cu).
    { pose proof (sin2_cos2 (PI / 4 + lat / 2)) as H. unfold Rsqr in H. unfold su, cu. lra. }
    assert (Cs : s * s = 1 - 4 * (cu * cu) * (1 - cu * cu)).
    { pose proof (cos_sq_eq lat) as H. rewrite <- (double_quarter lat) in H. fold su cu s in H. rewrite <- Tr. lra. }
    clearbody su cu s P.
    field_simplify_eq; [ring [Tr Cs]|repeat split; try lra; nra].
Qed.

(* the loop body of computeLatitude: 2 atan (u lat) - pi/2 *)
Definition step_u (L e x : R) : R := Rpower ((1 + e * sin x) / (1 - e * sin x)) (e / 2) * exp L.

Lemma step_u_pos L e x : 0 < step_u L e x.
Proof. apply Rmult_lt_0_compat; apply exp_pos. Qed.

Lemma latitude_step_eq L e x : latitude_step ROps L e x = 2 * atan (step_u L e x) - PI / 2.
Proof. unfold latitude_step, half_pi, ntwo. cbn. replace (1 + 1) with 2 by ring. reflexivity. Qed.

(* the true latitude is a fixed point of the loop body at its isometric latitude *)
Lemma latitude_step_fixed_point e lat : 0 <= e < 1 -> - PI / 2 < lat < PI / 2 ->
  latitude_step ROps (isolat e lat) e lat = lat.
Proof.
  intros He Hl. destruct (es_bounds e lat He) as [Em Ep].
  rewrite latitude_step_eq. unfold step_u. rewrite exp_isolat by exact Hl.
  set (q := (1 + e * sin lat) / (1 - e * sin lat)).
  assert (Hq : 0 < q) by (apply Rdiv_lt_0_compat; lra).
  replace ((1 - e * sin lat) / (1 + e * sin lat)) with (/ q) by (unfold q; field; lra).
  rewrite (Rmult_comm (sin _ / cos _)), <- Rmult_assoc, Rpower_inv_pair, Rmult_1_l by exact Hq.
  rewrite atan_tan_quot by (pose proof (quarter_plus_half lat Hl); lra). field.
Qed.

Lemma lambert_eps_eq : lambert_eps ROps = / 1000000000000.
Proof. unfold lambert_eps, lambert_epsilon_m, lambert_epsilon_e. eval_dec. lra. Qed.

(* for (;;) { ...; if (|d| < EPSILON) break; }: one pass *)
Lemma latitude_iter_done fuel L e x : Rabs (latitude_step ROps L e x - x) < lambert_eps ROps ->
  latitude_iter ROps (S fuel) L e x = Some (latitude_step ROps L e x).
Proof. intros H. cbn [latitude_iter nltb nabs nsub ROps]. rewrite (proj2 (Rltb_true _ _) H). reflexivity. Qed.

Lemma latitude_iter_step fuel L e x : lambert_eps ROps <= Rabs (latitude_step ROps L e x - x) ->
  latitude_iter ROps (S fuel) L e x = latitude_iter ROps fuel L e (latitude_step ROps L e x).
Proof. intros H. cbn [latitude_iter nltb nabs nsub ROps]. rewrite (proj2 (Rltb_false _ _) H). reflexivity. Qed.

(* on exit the last pass moved the latitude by less than EPSILON *)
Lemma latitude_iter_exit fuel L e lat r :
  latitude_iter ROps fuel L e lat = Some r ->
  exists prev, r = latitude_step ROps L e prev /\ Rabs (r - prev) < lambert_eps ROps.
Proof.
  revert lat. induction fuel as [|f IH]; intros lat; [discriminate|].
  destruct (Rlt_or_le (Rabs (latitude_step ROps L e lat - lat)) (lambert_eps ROps)) as [H|H].
  - rewrite latitude_iter_done by exact H. intros E. inversion E; subst. exists lat. split; [reflexivity|exact H].
  - rewrite latitude_iter_step by exact H. apply IH.
Qed.

Section Projection.
Variable pr : projection (T:=R).
Variable e : R.
Local Notation n := (p_n pr).
Local Notation c := (p_c pr).
Local Notation lon0 := (p_lon0 pr).

Definition rho (lat : R) : R := c * exp (- n * isolat e lat).

Lemma toLambert_polar lat lon :
  toLambert ROps pr e (mkWgs lat lon) =
  mkV2 (p_xs pr + rho lat * sin (n * (lon - lon0))) (p_ys pr - rho lat * cos (n * (lon - lon0))).
Proof. reflexivity. Qed.

Lemma polar_radius_rho lat : polar_radius ROps pr e lat = rho lat.
Proof. reflexivity. Qed.

(* the central meridian maps onto the line x = xs, the parallel lat crossing it rho lat below ys *)
Lemma toLambert_central_meridian lat : toLambert ROps pr e (mkWgs lat lon0) = mkV2 (p_xs pr) (p_ys pr - rho lat).
Proof.
  rewrite toLambert_polar. replace (n * (lon0 - lon0)) with 0 by ring. rewrite sin_0, cos_0. f_equal; ring.
Qed.

Lemma rho_derivative lat : 0 <= e < 1 -> - PI / 2 < lat < PI / 2 ->
  is_derive rho lat (- n * ((1 - e * e) / ((1 - e * e * (sin lat * sin lat)) * cos lat)) * rho lat).
Proof.
  intros He Hl. pose proof (isolat_derivative e lat He Hl) as D.
  unfold rho. auto_derive.
  - exists ((1 - e * e) / ((1 - e * e * (sin lat * sin lat)) * cos lat)). exact D.
  - rewrite (is_derive_unique (fun x : R => isolat e x) lat _ D). ring.
Qed.

Lemma toLambert_dlat lat lon : 0 <= e < 1 -> - PI / 2 < lat < PI / 2 ->
  let dr := - n * ((1 - e * e) / ((1 - e * e * (sin lat * sin lat)) * cos lat)) * rho lat in
  is_derive (fun x => v2x (toLambert ROps pr e (mkWgs x lon))) lat (dr * sin (n * (lon - lon0))) /\
  is_derive (fun x => v2y (toLambert ROps pr e (mkWgs x lon))) lat (- dr * cos (n * (lon - lon0))).
Proof.
  intros He Hl dr. pose proof (rho_derivative lat He Hl) as D. fold dr in D.
  split.
  - apply (is_derive_ext (fun x => p_xs pr + rho x * sin (n * (lon - lon0)))); [intros t; reflexivity|].
    auto_derive; [exists dr; exact D|]. rewrite (is_derive_unique (fun x : R => rho x) lat _ D). ring.
  - apply (is_derive_ext (fun x => p_ys pr - rho x * cos (n * (lon - lon0)))); [intros t; reflexivity|].
    auto_derive; [exists dr; exact D|]. rewrite (is_derive_unique (fun x : R => rho x) lat _ D). ring.
Qed.

Lemma toLambert_dlon lat lon :
  is_derive (fun l => v2x (toLambert ROps pr e (mkWgs lat l))) lon (n * rho lat * cos (n * (lon - lon0))) /\
  is_derive (fun l => v2y (toLambert ROps pr e (mkWgs lat l))) lon (n * rho lat * sin (n * (lon - lon0))).
Proof.
  split.
  - apply (is_derive_ext (fun l => p_xs pr + rho lat * sin (n * (l - lon0)))); [intros t; reflexivity|].
    auto_derive; [exact I|unfold Rminus; ring].
  - apply (is_derive_ext (fun l => p_ys pr - rho lat * cos (n * (l - lon0)))); [intros t; reflexivity|].
    auto_derive; [exact I|unfold Rminus; ring].
Qed.

Lemma rho_of_toLambert lat lon : rho_of ROps pr (toLambert ROps pr e (mkWgs lat lon)) = Rabs (rho lat).
Proof.
  rewrite toLambert_polar, <- sqrt_Rsqr_abs. unfold rho_of, pow2, Rsqr. cbn. f_equal.
  ring [(cos_sq_eq (n * (lon - lon0)))].
Qed.

Lemma theta_of_toLambert lat lon : c <> 0 -> - PI / 2 < n * (lon - lon0) < PI / 2 ->
  theta_of ROps pr (toLambert ROps pr e (mkWgs lat lon)) = n * (lon - lon0).
Proof.
  intros Hc Hg. rewrite toLambert_polar. unfold theta_of. cbn.
  set (g := n * (lon - lon0)) in *.
  assert (Hr : rho lat <> 0).
  { unfold rho. apply Rmult_integral_contrapositive_currified; [exact Hc|]. pose proof (exp_pos (- n * isolat e lat)). lra. }
  pose proof (cos_pos_lat g Hg) as Cg.
  match goal with |- atan ?x = _ => replace x with (sin g / cos g) end.
  - apply atan_tan_quot. exact Hg.
  - field. split; [|lra].
    replace (p_ys pr - (p_ys pr - rho lat * cos g)) with (rho lat * cos g) by ring.
    apply Rmult_integral_contrapositive_currified; lra.
Qed.

Lemma isolat_recovered lat lon : c <> 0 -> n <> 0 ->
  - ln (rho_of ROps pr (toLambert ROps pr e (mkWgs lat lon)) / Rabs c) / n = isolat e lat.
Proof.
  intros Hc Hn. rewrite rho_of_toLambert. unfold rho. rewrite Rabs_mult.
  rewrite (Rabs_pos_eq (exp _)) by (left; apply exp_pos).
  replace (Rabs c * exp (- n * isolat e lat) / Rabs c) with (exp (- n * isolat e lat)).
  - rewrite ln_exp. field. exact Hn.
  - field. apply Rabs_no_R0. exact Hc.
Qed.

(* toWGS84 after toLambert: isometric latitude and longitude are recovered exactly, on cones of either
   hemisphere (c, n of any sign); what remains is the latitude iteration on the exact isometric latitude *)
Lemma toWGS84_of_toLambert fuel lat lon : c <> 0 -> n <> 0 -> - PI / 2 < n * (lon - lon0) < PI / 2 ->
  toWGS84 ROps fuel pr e (toLambert ROps pr e (mkWgs lat lon)) =
  match computeLatitude ROps fuel (isolat e lat) e with
  | Some l => Some (mkWgs l lon) | None => None end.
Proof.
  intros Hc Hn Hg. unfold toWGS84. cbn [nneg nln ndiv nabs nadd ROps].
  rewrite (isolat_recovered lat lon Hc Hn), (theta_of_toLambert lat lon Hc Hg).
  destruct (computeLatitude ROps fuel (isolat e lat) e) as [l|]; [|reflexivity].
  f_equal. f_equal. field. exact Hn.
Qed.

End Projection.

(* radii of curvature of EarthEllipsoid; the exponent 1.5 of meridionalRadius is read from the source *)
Lemma Rpower_three_halves x : 0 < x -> Rpower x (15 * / 10) = x * sqrt x.
Proof.
  intros Hx. replace (15 * / 10) with (1 + / 2) by field.
  rewrite Rpower_plus, Rpower_1, Rpower_sqrt by exact Hx. reflexivity.
Qed.

Section Radii.
Variable el : ellipsoid (T:=R).
Hypothesis Ha : 0 < el_a el.
Hypothesis He : 0 <= el_e el < 1.
Hypothesis Hee : el_e el * el_e el = el_e2 el.
Local Notation a := (el_a el).
Local Notation e := (el_e el).

Definition w2 (lat : R) : R := 1 - e * e * (sin lat * sin lat).

Lemma w2_positive lat : 0 < w2 lat.
Proof. apply one_minus_e2s2_pos. exact He. Qed.

Lemma w2_eq lat : 1 - e * sin lat * (e * sin lat) = w2 lat.
Proof. unfold w2. ring. Qed.

Lemma meridionalRadius_eq lat : meridionalRadius ROps el lat = a * (1 - e * e) / (w2 lat * sqrt (w2 lat)).
Proof.
  unfold meridionalRadius, pow2, meridional_radius_exponent_m, meridional_radius_exponent_e.
  cbn [nmul nsub ndiv npow nsin n_one nofDec ROps]. rewrite <- Hee, w2_eq.
  replace (IZR 15 * powerRZ 10 (-1)) with (15 * / 10) by (eval_dec; lra).
  rewrite Rpower_three_halves by apply w2_positive. reflexivity.
Qed.

Lemma transversalRadius_eq lat : transversalRadius ROps el lat = a * cos lat / sqrt (w2 lat).
Proof.
  unfold transversalRadius, pow2. cbn [nmul nsub ndiv nsqrt nsin ncos n_one ROps]. rewrite w2_eq. reflexivity.
Qed.

Lemma grandeNormale_eq lat : grandeNormale ROps lat a e = a / sqrt (w2 lat).
Proof.
  unfold grandeNormale, pow2. cbn [nmul nsub ndiv nsqrt nsin n_one ROps]. rewrite w2_eq. reflexivity.
Qed.

(* conformality: the images of meridian and parallel are orthogonal and equally scaled *)
Lemma conformal_algebra (pr : projection (T:=R)) lat lon : - PI / 2 < lat < PI / 2 ->
  let g := p_n pr * (lon - p_lon0 pr) in
  let dr := - p_n pr * ((1 - e * e) / ((1 - e * e * (sin lat * sin lat)) * cos lat)) * rho pr e lat in
  let xlat := dr * sin g in let ylat := - dr * cos g in
  let xlon := p_n pr * rho pr e lat * cos g in let ylon := p_n pr * rho pr e lat * sin g in
  let M := meridionalRadius ROps el lat in let Nc := transversalRadius ROps el lat in
  xlat * xlon + ylat * ylon = 0 /\
  (xlat * xlat + ylat * ylat) / (M * M) = (xlon * xlon + ylon * ylon) / (Nc * Nc) /\
  (xlon * xlon + ylon * ylon) / (Nc * Nc) = Rsqr (p_n pr * rho pr e lat / Nc) /\
  0 <= xlon * ylat - ylon * xlat.
Proof.
  intros Hl g dr xlat ylat xlon ylon M Nc.
  pose proof (w2_positive lat) as W2. pose proof (cos_pos_lat lat Hl) as Cp.
  assert (Sg : sin g * sin g = 1 - cos g * cos g) by (pose proof (cos_sq_eq g); lra).
  assert (Swp : 0 < sqrt (w2 lat)) by (apply sqrt_lt_R0; exact W2).
  assert (W2e : w2 lat = sqrt (w2 lat) * sqrt (w2 lat)) by (symmetry; apply sqrt_sqrt; lra).
  assert (E1 : 0 < 1 - e * e) by nra.
  unfold M, Nc, xlat, ylat, xlon, ylon, dr. rewrite meridionalRadius_eq, transversalRadius_eq.
  fold (w2 lat). set (w := sqrt (w2 lat)) in *. set (r := rho pr e lat). set (nn := p_n pr).
  clearbody w r nn g. rewrite W2e.
  split; [ring|]. split; [|split].
  - field_simplify_eq; [ring [Sg]|repeat split; lra].
  - unfold Rsqr. field_simplify_eq; [ring [Sg]|repeat split; lra].
  - set (k := (1 - e * e) / (w * w * cos lat)).
    assert (Hk : 0 < k) by (apply Rdiv_lt_0_compat; [lra|apply Rmult_lt_0_compat; [nra|lra]]).
    match goal with |- 0 <= ?x => replace x with (nn * r * (nn * r) * k) by ring [Sg] end.
    apply Rmult_le_pos; [apply (Rle_0_sqr (nn * r))|lra].
Qed.

End Radii.

(* signed parallel scale: n * rho(lat) / (N(lat) cos(lat)); its square is the squared local scale (conformal_algebra) *)
Definition parallel_scale (pr : projection (T:=R)) (el : ellipsoid (T:=R)) (lat : R) : R :=
  p_n pr * rho pr (el_e el) lat / transversalRadius ROps el lat.

Section Constructors.
Variable el : ellipsoid (T:=R).
Hypothesis Ha : 0 < el_a el.
Hypothesis He : 0 <= el_e el < 1.
Local Notation a := (el_a el).
Local Notation e := (el_e el).

Lemma normale_cos_pos lat : - PI / 2 < lat < PI / 2 -> 0 < grandeNormale ROps lat a e * cos lat.
Proof.
  intros Hl. rewrite (grandeNormale_eq el). pose proof (w2_positive el He lat) as W.
  apply Rmult_lt_0_compat; [|apply cos_pos_lat; exact Hl].
  apply Rdiv_lt_0_compat; [exact Ha|apply sqrt_lt_R0; exact W].
Qed.

Lemma normale_cos_is_transversal lat :
  transversalRadius ROps el lat = grandeNormale ROps lat a e * cos lat.
Proof.
  rewrite (transversalRadius_eq el), (grandeNormale_eq el). unfold Rdiv. ring.
Qed.

(* a cone whose constant is c = k N cos lat / n * exp (n L(lat)) has scale k on the parallel lat *)
Lemma parallel_scale_at (pr : projection (T:=R)) lat k : - PI / 2 < lat < PI / 2 -> p_n pr <> 0 ->
  p_c pr = k * (grandeNormale ROps lat a e * cos lat) / p_n pr * exp (p_n pr * isolat e lat) ->
  parallel_scale pr el lat = k.
Proof.
  intros Hl Hn Hc. pose proof (normale_cos_pos lat Hl) as P.
  unfold parallel_scale, rho. rewrite normale_cos_is_transversal, Hc.
  set (A := grandeNormale ROps lat a e * cos lat) in *. set (n := p_n pr) in *. set (L := isolat e lat).
  replace (n * (k * A / n * exp (n * L) * exp (- n * L)) / A) with (k * (exp (n * L) * exp (- n * L)))
    by (field; split; lra).
  rewrite exp_mul_opp. ring.
Qed.

(* scale 1 on both standard parallels: c is built on the first one, and n is chosen so that
   N1 cos lat1 exp (n L1) = N2 cos lat2 exp (n L2) *)
Lemma secant_true_scale sp :
  - PI / 2 < sp_lat1 sp < PI / 2 -> - PI / 2 < sp_lat2 sp < PI / 2 ->
  isolat e (sp_lat1 sp) <> isolat e (sp_lat2 sp) ->
  p_n (secant_projection ROps sp el) <> 0 ->
  parallel_scale (secant_projection ROps sp el) el (sp_lat1 sp) = 1 /\
  parallel_scale (secant_projection ROps sp el) el (sp_lat2 sp) = 1.
Proof using Ha He.
  intros H1 H2 HL Hn.
  pose proof (normale_cos_pos _ H1) as P1. pose proof (normale_cos_pos _ H2) as P2.
  set (A1 := grandeNormale ROps (sp_lat1 sp) a e * cos (sp_lat1 sp)) in *.
  set (A2 := grandeNormale ROps (sp_lat2 sp) a e * cos (sp_lat2 sp)) in *.
  set (L1 := isolat e (sp_lat1 sp)) in *. set (L2 := isolat e (sp_lat2 sp)) in *.
  set (n := ln (A2 / A1) / (L1 - L2)).
  assert (En : p_n (secant_projection ROps sp el) = n) by reflexivity.
  assert (Ec : p_c (secant_projection ROps sp el) = A1 / n * exp (n * L1)) by reflexivity.
  split; apply parallel_scale_at; try assumption; rewrite Ec, En; fold A1 A2 L1 L2.
  - unfold Rdiv. ring.
  - replace (n * L1) with (ln (A2 / A1) + n * L2) by (unfold n; field; lra).
    rewrite exp_plus, exp_ln by (apply Rdiv_lt_0_compat; lra). rewrite En in Hn. field. split; lra.
Qed.

(* scale k0 on the tangent parallel *)
Lemma tangent_scale tp : - PI / 2 < tp_lat0 tp < PI / 2 -> sin (tp_lat0 tp) <> 0 ->
  parallel_scale (tangent_projection ROps tp el) el (tp_lat0 tp) = tp_k0 tp.
Proof using Ha He.
  intros H0 Hs. apply parallel_scale_at; [exact H0|exact Hs|].
  cbn [tangent_projection p_n p_c nsin ncos nmul ndiv nexp ROps]. fold (isolat e (tp_lat0 tp)).
  unfold Rdiv. ring.
Qed.

(* the projection origin maps to the false origin *)
Lemma secant_origin sp : pole_eps ROps < Rabs (sp_lat0 sp - PI / 2) ->
  toLambert ROps (secant_projection ROps sp el) e (mkWgs (sp_lat0 sp) (sp_lon0 sp)) = mkV2 (sp_x0 sp) (sp_y0 sp).
Proof.
  intros Hb. set (pr := secant_projection ROps sp el).
  assert (B : nltb ROps (pole_eps ROps) (nabs ROps (nsub ROps (sp_lat0 sp) (half_pi ROps))) = true).
  { cbn [nltb nabs nsub ROps]. apply Rltb_true. unfold half_pi, ntwo. cbn [ndiv npi nadd n_one ROps].
    replace (1 + 1) with 2 by ring. exact Hb. }
  assert (Ey : p_ys pr = sp_y0 sp + rho pr e (sp_lat0 sp)).
  { unfold pr, secant_projection. cbn [p_ys]. rewrite B. reflexivity. }
  change (sp_lon0 sp) with (p_lon0 pr). rewrite toLambert_central_meridian, Ey. f_equal. ring.
Qed.

Lemma tangent_origin tp :
  toLambert ROps (tangent_projection ROps tp el) e (mkWgs (tp_lat0 tp) (tp_lon0 tp)) = mkV2 (tp_x0 tp) (tp_y0 tp).
Proof.
  set (pr := tangent_projection ROps tp el).
  set (K := tp_k0 tp * grandeNormale ROps (tp_lat0 tp) a e * (cos (tp_lat0 tp) / sin (tp_lat0 tp))).
  assert (Er : rho pr e (tp_lat0 tp) = K * (exp (p_n pr * isolat e (tp_lat0 tp)) * exp (- p_n pr * isolat e (tp_lat0 tp))))
    by (unfold rho; change (p_c pr) with (K * exp (p_n pr * isolat e (tp_lat0 tp))); ring).
  rewrite exp_mul_opp in Er.
  change (tp_lon0 tp) with (p_lon0 pr). rewrite toLambert_central_meridian, Er. f_equal.
  change (p_ys pr) with (tp_y0 tp + K). ring.
Qed.

End Constructors.
