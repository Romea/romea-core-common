(* RateProofs.v — lemmas about RateModel.v (C17): after any event list the rate monitor and the rate check-up are
   given functions (mon_of, crate_of) of a summary of the history: the data stamps and a stale flag. *)
From Coq Require Import Reals ZArith List Bool Lra Lia.
From Flocq Require Import Core.Raux.
From Romea Require Import Num NumR DiagModel DiagProofs RateModel.
From Romea.gen Require Import RepoConstants.
Import ListNotations.
Local Open Scope Z_scope.

(* the data stamps of an event list, in order of arrival *)
Fixpoint data_stamps (evs : list event) : list Z :=
  match evs with
  | [] => []
  | Data d :: r => d :: data_stamps r
  | Heartbeat _ :: r => data_stamps r
  end.

(* inter-stamp periods of a chronological stamp list, the first one measured from [prev] (0 = Duration::zero()) *)
Fixpoint diffs (prev : Z) (ds : list Z) : list Z :=
  match ds with [] => [] | d :: r => (d - prev) :: diffs d r end.

Definition lastn {A} (n : nat) (l : list A) : list A := skipn (length l - n) l.
Definition zsum (l : list Z) : Z := fold_right Z.add 0 l.

(* strictly increasing stamps *)
Definition increasing (ds : list Z) : Prop :=
  forall i j, (i < j < length ds)%nat -> nth i ds 0 < nth j ds 0.

Lemma last_cons {A} (l : list A) : forall a p, last (a :: l) p = last l a.
Proof.
  induction l as [|b l IH]; intros a p; [reflexivity|].
  change (last (a :: b :: l) p) with (last (b :: l) p). rewrite !IH. reflexivity.
Qed.

Lemma diffs_length p l : length (diffs p l) = length l.
Proof. revert p; induction l; intros; simpl; auto. Qed.

Lemma diffs_app l : forall p d, diffs p (l ++ [d]) = diffs p l ++ [d - last l p].
Proof.
  induction l as [|a l IH]; intros p d; [reflexivity|].
  cbn [app diffs]. rewrite IH, last_cons. reflexivity.
Qed.

Lemma zsum_app l1 l2 : zsum (l1 ++ l2) = zsum l1 + zsum l2.
Proof. induction l1; simpl; lia. Qed.

(* the periods telescope *)
Lemma zsum_diffs l : forall p, zsum (diffs p l) = last l p - p.
Proof.
  induction l as [|a l IH]; intros p; [simpl; lia|].
  cbn [diffs zsum fold_right]. fold (zsum (diffs a l)). rewrite IH, last_cons. lia.
Qed.

Lemma firstn_diffs n : forall p l, firstn n (diffs p l) = diffs p (firstn n l).
Proof. induction n; intros p [|a l]; simpl; f_equal; auto. Qed.

Lemma last_firstn (l : list Z) : forall n p, (n < length l)%nat -> last (firstn (S n) l) p = nth n l p.
Proof.
  induction l as [|a l IH]; intros n p H; simpl in H; [lia|].
  cbn [firstn nth]. rewrite last_cons. destruct n; [reflexivity|]. rewrite IH by lia. apply nth_indep. lia.
Qed.

Lemma last_nth (l : list Z) p : l <> [] -> last l p = nth (length l - 1) l 0.
Proof.
  destruct l as [|a l]; [congruence|intros _].
  transitivity (last (firstn (length (a :: l)) (a :: l)) p); [rewrite firstn_all; reflexivity|].
  cbn [length]. rewrite last_firstn by (simpl; lia). replace (S (length l) - 1)%nat with (length l) by lia.
  apply nth_indep. simpl; lia.
Qed.

Lemma zsum_skipn n l : zsum (skipn n l) = zsum l - zsum (firstn n l).
Proof. rewrite <- (firstn_skipn n l) at 2. rewrite zsum_app. lia. Qed.

Lemma tl_skipn {A} n : forall l : list A, tl (skipn n l) = skipn (S n) l.
Proof. induction n; intros [|a l]; simpl; auto. apply IHn. Qed.

Lemma zsum_hd_tl l : zsum l = hd 0 l + zsum (tl l).
Proof. destruct l; simpl; lia. Qed.

Lemma lastn_length {A} n (l : list A) : length (lastn n l) = Nat.min n (length l).
Proof. unfold lastn. rewrite skipn_length. lia. Qed.

Lemma lastn_ge {A} n (l : list A) : (length l <= n)%nat -> lastn n l = l.
Proof. intros H. unfold lastn. replace (length l - n)%nat with 0%nat by lia. reflexivity. Qed.

Lemma lastn_snoc {A} n (l : list A) a : lastn (S n) (l ++ [a]) = lastn n l ++ [a].
Proof.
  unfold lastn. rewrite app_length, skipn_app. cbn [length].
  replace (length l + 1 - S n)%nat with (length l - n)%nat by lia.
  replace (length l - n - length l)%nat with 0%nat by lia. reflexivity.
Qed.

Lemma tl_lastn {A} n (l : list A) : (S n <= length l)%nat -> tl (lastn (S n) l) = lastn n l.
Proof. intros H. unfold lastn. rewrite tl_skipn. f_equal. lia. Qed.

(* the sum of the last W periods is the time spanned by them *)
Lemma window_sum ds (W : nat) : (W < length ds)%nat ->
  zsum (lastn W (diffs 0 ds)) = last ds 0 - nth (length ds - W - 1) ds 0.
Proof.
  intros H. unfold lastn. rewrite diffs_length, zsum_skipn, zsum_diffs, firstn_diffs, zsum_diffs.
  set (n := (length ds - W - 1)%nat). replace (length ds - W)%nat with (S n) by lia. rewrite last_firstn by lia. lia.
Qed.

Lemma data_stamps_app a b : data_stamps (a ++ b) = data_stamps a ++ data_stamps b.
Proof. induction a as [|[d|t] a IH]; simpl; rewrite ?IH; reflexivity. Qed.

(* a state that follows its history summary step by step follows it over a whole run *)
Lemma fold_left_sim {S H E} (g : H -> S) (f : S -> E -> S) (hs : H -> E -> H) :
  (forall h e, f (g h) e = g (hs h e)) -> forall evs h, fold_left f evs (g h) = g (fold_left hs evs h).
Proof. intros Hs evs. induction evs as [|e evs IH]; intros h; cbn [fold_left]; [reflexivity|]. rewrite Hs. apply IH. Qed.

Section History.
Context {T : Type} (N : NumOps T).

(* the model's own test "silence > 0.5 s" on an integer number of nanoseconds *)
Definition late (dt : Z) : bool :=
  nltb N (nofDec N rate_timeout_s_m rate_timeout_s_e) (duration_to_second N dt).

(* summary of a history: the data stamps so far, and whether a heartbeat has found the source silent
   (a stamp had been seen and the silence exceeded 0.5 s) since the last data stamp *)
Definition hstep (h : list Z * bool) (e : event) : list Z * bool :=
  match e with
  | Data d => (fst h ++ [d], false)
  | Heartbeat t => (fst h, snd h || (negb (is_nil (fst h)) && late (t - last (fst h) 0)))
  end.

Definition hist (evs : list event) : list Z * bool := fold_left hstep evs ([], false).

(* the rate the property prescribes: 0 while stale or until W+1 stamps, then 1e9 / (span / W) *)
Definition spec_rate (W : Z) (ds : list Z) (stale : bool) : T :=
  if stale then nzero N
  else if Z.of_nat (length ds) <=? W then nzero N
  else rate_of_sum N (last ds 0 - nth (length ds - Z.to_nat W - 1) ds 0) W.

(* the monitor is a function of its window size and the history summary ([lastn] of a shorter list is that list) *)
Definition mon_of (W : Z) (h : list Z * bool) : rmon :=
  let q := lastn (Z.to_nat W) (diffs 0 (fst h)) in
  {| rm_window := W; rm_last := last (fst h) 0; rm_periods := q; rm_sum := zsum q;
     rm_rate := spec_rate W (fst h) (snd h) |}.

Lemma is_nil_length {A} (l : list A) : is_nil l = true <-> length l = 0%nat.
Proof. destruct l; simpl; split; intros; try discriminate; auto. Qed.

Lemma fst_hist_step h e : fst (hstep h e) = match e with Data d => fst h ++ [d] | Heartbeat _ => fst h end.
Proof. destruct e; reflexivity. Qed.

Lemma mon_of_periods_nil W h : 1 <= W -> is_nil (rm_periods (mon_of W h)) = is_nil (fst h).
Proof.
  intros HW. apply eq_true_iff_eq. cbn [mon_of rm_periods].
  rewrite !is_nil_length, lastn_length, diffs_length. lia.
Qed.

Lemma rm_timeout_late (s : rmon) t :
  rm_timeout N s t =
  if negb (is_nil (rm_periods s)) && late (t - rm_last s)
  then ({| rm_window := rm_window s; rm_last := rm_last s; rm_periods := rm_periods s; rm_sum := rm_sum s;
           rm_rate := nzero N |}, true)
  else (s, false).
Proof. reflexivity. Qed.

Lemma mon_of_timeout W h t : 1 <= W ->
  rm_timeout N (mon_of W h) t =
  (mon_of W (hstep h (Heartbeat t)), negb (is_nil (fst h)) && late (t - last (fst h) 0)).
Proof.
  intros HW. rewrite rm_timeout_late, (mon_of_periods_nil W h HW). cbn [hstep mon_of rm_last fst snd].
  destruct (negb (is_nil (fst h)) && late _); [rewrite orb_true_r|rewrite orb_false_r; destruct h]; reflexivity.
Qed.

Lemma mon_of_update W h d : 1 <= W -> rm_update N (mon_of W h) d = mon_of W (hstep h (Data d)).
Proof.
  intros HW. destruct h as [ds stale]. unfold rm_update, mon_of.
  cbn [hstep fst snd rm_window rm_last rm_periods rm_sum rm_rate]. rewrite diffs_app, last_last.
  set (D := diffs 0 ds). set (p := d - last ds 0). set (Wn := Z.to_nat W).
  assert (HD : length (D ++ [p]) = S (length ds)) by (unfold D; rewrite app_length, diffs_length; simpl; lia).
  assert (Hk : length (ds ++ [d]) = S (length ds)) by (rewrite app_length; simpl; lia).
  (* the queue after the push is the last W+1 periods of the longer history *)
  rewrite <- (lastn_snoc Wn D p). set (q := lastn (S Wn) (D ++ [p])).
  assert (Hs : zsum (lastn Wn D) + p = zsum q) by (unfold q; rewrite lastn_snoc, zsum_app; simpl; lia).
  rewrite Hs. unfold q at 1. rewrite lastn_length, HD.
  destruct (Z.eqb_spec (Z.of_nat (Nat.min (S Wn) (S (length ds)))) (W + 1)) as [E|E].
  - (* window full (at least W stamps before this one): the oldest period leaves and the rate is published *)
    rewrite <- (tl_lastn Wn (D ++ [p])) by lia. fold q.
    replace (zsum q - hd 0 q) with (zsum (tl q)) by (rewrite (zsum_hd_tl q); lia).
    f_equal. unfold spec_rate. rewrite Hk. destruct (Z.leb_spec (Z.of_nat (S (length ds))) W); [lia|]. f_equal.
    unfold q. rewrite tl_lastn by lia. unfold D, p. rewrite <- diffs_app, window_sum, Hk by lia. reflexivity.
  - (* window still filling: nothing leaves *)
    unfold q. rewrite !lastn_ge by lia. f_equal.
    unfold spec_rate. rewrite Hk.
    destruct (Z.leb_spec (Z.of_nat (S (length ds))) W); [|lia].
    destruct (Z.leb_spec (Z.of_nat (length ds)) W); [|lia]. destruct stale; reflexivity.
Qed.

Lemma mon_of_step W h e : 1 <= W -> rm_step N (mon_of W h) e = mon_of W (hstep h e).
Proof.
  intros HW. destruct e as [d|t]; cbn [rm_step]; [apply mon_of_update, HW|]. rewrite mon_of_timeout by exact HW. reflexivity.
Qed.

Lemma window_size_range r : rate_min_window <= window_size N r <= rate_max_window.
Proof. unfold window_size, rate_min_window, rate_max_window. lia. Qed.

Lemma window_size_pos r : 1 <= window_size N r.
Proof. pose proof (window_size_range r). unfold rate_min_window in *. lia. Qed.

Lemma rm_run_hist r evs : rm_run N (rm_init N r) evs = mon_of (window_size N r) (hist evs).
Proof.
  pose proof (window_size_pos r) as HW.
  replace (rm_init N r) with (mon_of (window_size N r) ([], false)).
  - apply fold_left_sim. intros h e. apply mon_of_step, HW.
  - unfold mon_of, spec_rate, rm_init. cbn. destruct (Z.leb_spec 0 (window_size N r)); [reflexivity|lia].
Qed.

Lemma fst_hist_gen evs : forall h, fst (fold_left hstep evs h) = fst h ++ data_stamps evs.
Proof.
  induction evs as [|[d|t] evs IH]; intros h; cbn [fold_left data_stamps]; rewrite ?IH; cbn [hstep fst].
  - rewrite app_nil_r. reflexivity.
  - rewrite <- app_assoc. reflexivity.
  - reflexivity.
Qed.

Lemma fst_hist evs : fst (hist evs) = data_stamps evs.
Proof. unfold hist. rewrite fst_hist_gen. reflexivity. Qed.

Lemma hist_snoc evs e : hist (evs ++ [e]) = hstep (hist evs) e.
Proof. unfold hist. rewrite fold_left_app. reflexivity. Qed.

Lemma queue_is_last_periods r evs :
  let W := window_size N r in let ds := data_stamps evs in
  let s := rm_run N (rm_init N r) evs in
  rm_periods s = lastn (Nat.min (length ds) (Z.to_nat W)) (diffs 0 ds) /\
  rm_sum s = zsum (rm_periods s) /\ rm_last s = last ds 0 /\ rm_window s = W.
Proof.
  cbv zeta. rewrite rm_run_hist. cbn [mon_of rm_periods rm_sum rm_last rm_window]. rewrite fst_hist.
  repeat split. unfold lastn. rewrite diffs_length. f_equal. lia.
Qed.

Lemma sum_is_span r evs :
  let W := window_size N r in let ds := data_stamps evs in
  (Z.to_nat W < length ds)%nat ->
  rm_sum (rm_run N (rm_init N r) evs) = last ds 0 - nth (length ds - Z.to_nat W - 1) ds 0.
Proof.
  cbv zeta. intros H. rewrite rm_run_hist. cbn [mon_of rm_sum]. rewrite fst_hist. apply window_sum, H.
Qed.

Lemma rate_follows_history r evs :
  rm_rate (rm_run N (rm_init N r) evs) = spec_rate (window_size N r) (data_stamps evs) (snd (hist evs)).
Proof. rewrite rm_run_hist. cbn [mon_of rm_rate]. rewrite fst_hist. reflexivity. Qed.

Lemma rate_zero_until_full r evs :
  Z.of_nat (length (data_stamps evs)) <= window_size N r -> rm_rate (rm_run N (rm_init N r) evs) = nzero N.
Proof.
  intros H. rewrite rate_follows_history. unfold spec_rate.
  destruct (snd (hist evs)); [reflexivity|]. destruct (Z.leb_spec (Z.of_nat (length (data_stamps evs))) (window_size N r)); [reflexivity|lia].
Qed.

Lemma increasing_span ds (W : nat) : increasing ds -> (1 <= W)%nat -> (W < length ds)%nat ->
  0 < last ds 0 - nth (length ds - W - 1) ds 0.
Proof.
  intros Hinc HW Hk. rewrite (last_nth ds 0) by (destruct ds; simpl in *; [lia|congruence]).
  specialize (Hinc (length ds - W - 1)%nat (length ds - 1)%nat ltac:(lia)). lia.
Qed.

(* strictly increasing stamps, more than W of them, no time-out pending: the rate is the quotient the
   dictionary computes from the (positive) span of the window *)
Lemma rate_of_span r evs :
  let W := window_size N r in let ds := data_stamps evs in
  increasing ds -> W < Z.of_nat (length ds) -> snd (hist evs) = false ->
  let span := last ds 0 - nth (length ds - Z.to_nat W - 1) ds 0 in
  0 < span /\ 4 <= W <= 64 /\ rm_rate (rm_run N (rm_init N r) evs) = rate_of_sum N span W.
Proof.
  cbv zeta. intros Hinc Hk Hst. pose proof (window_size_range r) as HW.
  unfold rate_min_window, rate_max_window in HW. split; [apply increasing_span; [assumption|lia..]|].
  split; [exact HW|]. rewrite rate_follows_history, Hst. unfold spec_rate.
  destruct (Z.leb_spec (Z.of_nat (length (data_stamps evs))) (window_size N r)); [lia|reflexivity].
Qed.

Definition verdict_report (k : kind) (cmp eps v : T) : @creport T :=
  let c0 := checkup_init cmp eps no_data_diag in
  c_report (fst (match k with KGreater => eval_greater_than N c0 v | _ => eval_equal_to N c0 v end)).

Definition no_data_report : @creport T := {| r_diag := no_data_diag; r_info := None |}.
Definition stale_report : @creport T := {| r_diag := {| d_status := STALE; d_suffix := STimeout |}; r_info := None |}.

(* the report the property prescribes for a history summary [h] and the current rate *)
Definition spec_report (k : kind) (cmp eps : T) (h : list Z * bool) (rate : T) : @creport T :=
  if is_nil (fst h) then no_data_report
  else if snd h then stale_report
  else verdict_report k cmp eps rate.

(* the whole check-up is a function of its parameters and the history summary *)
Definition crate_of (k : kind) (cmp eps : T) (W : Z) (h : list Z * bool) : crate :=
  {| cr_mon := mon_of W h;
     cr_chk := {| c_cmp := cmp; c_eps := eps; c_report := spec_report k cmp eps h (spec_rate W (fst h) (snd h)) |} |}.

(* an evaluation keeps the thresholds, stores the report of a fresh check-up and returns the stored status *)
Lemma eval_report_indep k (c : checkup) v :
  match k with KGreater => eval_greater_than N c v | _ => eval_equal_to N c v end =
  let rep := verdict_report k (c_cmp c) (c_eps c) v in
  ({| c_cmp := c_cmp c; c_eps := c_eps c; c_report := rep |}, d_status (r_diag rep)).
Proof.
  unfold verdict_report, eval_greater_than, eval_equal_to, set_diag, checkup_init. cbn [c_cmp c_eps c_report fst].
  destruct k; repeat match goal with |- context [if ?b then _ else _] => destruct b end; reflexivity.
Qed.

Lemma crate_of_step k cmp eps W h e : 1 <= W ->
  fst (cr_step N k (crate_of k cmp eps W h) e) = crate_of k cmp eps W (hstep h e).
Proof.
  intros HW. destruct e as [d|t]; cbn [cr_step].
  - unfold cr_evaluate. rewrite eval_report_indep. cbn [crate_of cr_mon cr_chk c_cmp c_eps fst].
    rewrite mon_of_update by exact HW. unfold crate_of, spec_report. cbn [hstep fst snd].
    destruct (fst h); reflexivity.
  - unfold cr_heartbeat. cbn [crate_of cr_mon cr_chk]. rewrite mon_of_timeout by exact HW.
    unfold crate_of, spec_report. cbn [hstep fst snd].
    destruct (negb (is_nil (fst h)) && late _) eqn:E; cbn [fst].
    + apply andb_true_iff in E as [E _]. rewrite orb_true_r. destruct (is_nil (fst h)); [discriminate|reflexivity].
    + rewrite orb_false_r. reflexivity.
Qed.

Lemma cr_final_hist k r eps evs :
  cr_final N k (cr_init N r eps) evs = crate_of k r eps (window_size N r) (hist evs).
Proof.
  pose proof (window_size_pos r) as HW.
  replace (cr_init N r eps) with (crate_of k r eps (window_size N r) ([], false)).
  - apply (fold_left_sim (crate_of k r eps (window_size N r))). intros h e. apply crate_of_step, HW.
  - unfold crate_of, cr_init. f_equal. exact (eq_sym (rm_run_hist r [])).
Qed.

Lemma cr_mon_final k c evs : cr_mon (cr_final N k c evs) = rm_run N (cr_mon c) evs.
Proof.
  symmetry. apply (fold_left_sim cr_mon (rm_step N)). clear c. intros c [d|t]; cbn [cr_step rm_step].
  - unfold cr_evaluate. destruct (match k with KGreater => _ | _ => _ end). reflexivity.
  - unfold cr_heartbeat. destruct (rm_timeout N (cr_mon c) t) as [m b]. destruct b; reflexivity.
Qed.

(* every entry of the per-event log is the state reached after the corresponding prefix *)
Lemma cr_run_nth k : forall evs c i, (i < length evs)%nat ->
  exists o, nth_error (cr_run N k c evs) i =
    Some (o, rm_rate (cr_mon (cr_final N k c (firstn (S i) evs))), c_report (cr_chk (cr_final N k c (firstn (S i) evs)))) /\
    o = snd (cr_step N k (cr_final N k c (firstn i evs)) (nth i evs (Data 0))).
Proof.
  induction evs as [|e evs IH]; intros c i Hi; simpl in Hi; [lia|].
  cbn [cr_run]. destruct (cr_step N k c e) as [c' o] eqn:Es.
  destruct i as [|i].
  - exists o. cbn [nth_error firstn cr_final fold_left nth]. rewrite Es. auto.
  - destruct (IH c' i ltac:(lia)) as (o' & E1 & E2). exists o'.
    cbn [nth_error]. rewrite E1. cbn [firstn cr_final fold_left nth]. rewrite Es. cbn [fst]. auto.
Qed.

End History.

Local Open Scope R_scope.

Lemma late_R dt : late ROps dt = (500000000 <? dt)%Z.
Proof.
  unfold late, duration_to_second. cbn [nltb nofDec ndiv nofZ ROps].
  unfold rate_timeout_s_m, rate_timeout_s_e, time_ns_per_s_m, time_ns_per_s_e.
  destruct (Z.ltb_spec 500000000 dt) as [H|H].
  - apply Rltb_true. apply IZR_lt in H. simpl powerRZ. lra.
  - apply Rltb_false. apply IZR_le in H. simpl powerRZ. lra.
Qed.

Lemma rate_of_sum_R (sum w : Z) : (0 < sum)%Z -> (0 < w)%Z ->
  rate_of_sum ROps sum w = IZR w / (IZR sum / 1000000000).
Proof.
  intros Hs Hw. unfold rate_of_sum. cbn [nofDec ndiv nofZ ROps].
  unfold rate_ns_per_s_m, rate_ns_per_s_e. simpl powerRZ.
  apply IZR_lt in Hs, Hw. field. split; lra.
Qed.

Lemma window_size_R r : 0 <= r ->
  window_size ROps r = Z.min (Z.max (Zfloor (2 * r)) 4) 64.
Proof.
  intros Hr. unfold window_size. cbn [ntruncZ nmul nofDec ROps].
  unfold rate_window_factor_m, rate_window_factor_e, rate_min_window, rate_max_window.
  simpl powerRZ. rewrite Rmult_1_r. rewrite Ztrunc_floor by lra. reflexivity.
Qed.

Lemma rate_is_W_over_span r evs :
  let W := window_size ROps r in let ds := data_stamps evs in
  increasing ds -> (W < Z.of_nat (length ds))%Z -> snd (hist ROps evs) = false ->
  let span := (last ds 0 - nth (length ds - Z.to_nat W - 1) ds 0)%Z in
  (0 < span)%Z /\ rm_rate (rm_run ROps (rm_init ROps r) evs) = IZR W / (IZR span / 1000000000).
Proof.
  cbv zeta. intros Hinc Hk Hst. destruct (rate_of_span ROps r evs Hinc Hk Hst) as (Hspan & HW & ->).
  split; [exact Hspan|]. apply rate_of_sum_R; lia.
Qed.

(* the verdict carried by a report, read over the reals *)
Definition verdict_R (k : kind) (cmp eps v : R) (rep : @creport R) : Prop :=
  r_info rep = Some v /\
  match k with
  | KGreater =>
      (v > cmp - eps -> d_status (r_diag rep) = OK /\ d_suffix (r_diag rep) = SIsOK) /\
      (v <= cmp - eps -> d_status (r_diag rep) = ERROR /\ d_suffix (r_diag rep) = STooLow)
  | _ =>
      (v < cmp - eps -> d_status (r_diag rep) = ERROR /\ d_suffix (r_diag rep) = STooLow) /\
      (cmp + eps < v -> d_status (r_diag rep) = ERROR /\ d_suffix (r_diag rep) = STooHigh) /\
      (cmp - eps <= v <= cmp + eps -> d_status (r_diag rep) = OK /\ d_suffix (r_diag rep) = SIsOK)
  end.

Lemma verdict_report_R k cmp eps v : 0 <= eps -> verdict_R k cmp eps v (verdict_report ROps k cmp eps v).
Proof.
  intros He. unfold verdict_R, verdict_report.
  set (c0 := checkup_init cmp eps no_data_diag).
  destruct k.
  1,3,4: pose proof (equal_to_verdicts c0 v He) as (A & B & C & D); cbn [c_cmp c_eps c0 checkup_init] in *; auto.
  pose proof (greater_verdicts c0 v) as (A & B & D); cbn [c_cmp c_eps c0 checkup_init] in *; auto.
Qed.

Lemma report_agrees_with_rate k r eps evs : 0 <= eps ->
  let c := cr_final ROps k (cr_init ROps r eps) evs in
  let ds := data_stamps evs in let stale := snd (hist ROps evs) in
  let rate := rm_rate (cr_mon c) in
  rate = spec_rate ROps (window_size ROps r) ds stale /\
  (ds = [] -> c_report (cr_chk c) = no_data_report) /\
  (ds <> [] -> stale = true -> c_report (cr_chk c) = stale_report /\ rate = 0) /\
  (ds <> [] -> stale = false -> verdict_R k r eps rate (c_report (cr_chk c))).
Proof.
  intros He. cbv zeta. rewrite cr_final_hist. cbn [crate_of cr_mon cr_chk c_report mon_of rm_rate].
  unfold spec_report. rewrite fst_hist. split; [reflexivity|].
  destruct (data_stamps evs); cbn [is_nil]; (split; [|split]); try congruence; intros _ ->.
  - split; reflexivity.
  - apply verdict_report_R, He.
Qed.

Lemma snoc_eq_split {A} (pre post evs : list A) x e : pre ++ x :: post = evs ++ [e] ->
  (post = [] /\ pre = evs /\ x = e) \/ exists post', post = post' ++ [e] /\ evs = pre ++ x :: post'.
Proof.
  destruct post as [|y post'] using rev_ind; intros E.
  - apply app_inj_tail in E. left. tauto.
  - rewrite app_comm_cons, app_assoc in E. apply app_inj_tail in E as [<- <-]. right. eauto.
Qed.

(* the "stale" flag of a history, spelled out: some heartbeat after the last data stamp arrived more than
   0.5 s after that stamp *)
Lemma stale_iff evs :
  snd (hist ROps evs) = true <->
  exists pre t post, evs = pre ++ Heartbeat t :: post /\ data_stamps post = [] /\ data_stamps pre <> [] /\
                     (500000000 < t - last (data_stamps pre) 0)%Z.
Proof.
  induction evs as [|e evs IH] using rev_ind.
  - split; [discriminate|]. intros (pre & t & post & E & _). destruct pre; discriminate.
  - rewrite hist_snoc. destruct e as [d|t]; cbn [hstep snd].
    + split; [discriminate|]. intros (pre & t & post & E & Hp & _). exfalso.
      symmetry in E. apply snoc_eq_split in E as [(_ & _ & E)|(post' & -> & _)]; [discriminate|].
      rewrite data_stamps_app in Hp. destruct (data_stamps post'); discriminate.
    + rewrite orb_true_iff, IH, andb_true_iff, late_R, fst_hist, Z.ltb_lt, negb_true_iff. split.
      * intros [(pre & t' & post & E & Hp & Hne & Hl)|[Hn Hl]].
        -- exists pre, t', (post ++ [Heartbeat t]). rewrite E, <- app_assoc. cbn [app].
           rewrite data_stamps_app, Hp. auto.
        -- exists evs, t, []. repeat split; auto. destruct (data_stamps evs); [discriminate|congruence].
      * intros (pre & t' & post & E & Hp & Hne & Hl).
        symmetry in E. apply snoc_eq_split in E as [(-> & -> & [= ->])|(post' & -> & ->)].
        -- right. destruct (data_stamps evs); [congruence|]. auto.
        -- left. exists pre, t', post'. rewrite data_stamps_app in Hp. apply app_eq_nil in Hp as [Hp _]. auto.
Qed.
