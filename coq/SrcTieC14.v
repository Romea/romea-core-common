(* SrcTieC14.v — the SYNTACTIC source tie of C14.  gen/SrcRayCast.v is regenerated on every run by
   translate/tr_C14_raycast.py from the clang AST of src/containers/grid/RayTracing.cpp (and, for the calls into the grid,
   src/containers/grid/GridIndexMapping.cpp): the four explicit specialisations RayCasting<float|double, 2|3>::next, and the
   template members computeRayNumberOfCells, setOriginPoint, setEndPoint at DIM = 2, 3.  Here the generated terms are proved
   equal to the functions of RayCastModel.v the C14 theorems are about (next, ncells, set_origin, set_end), for EVERY numeric
   dictionary N (so for the real instance of the theorems and for the float dictionaries of the correspondence run), with the
   integer conversions read at IdealInt (unbounded Z, as the model does); the ties of next hold for any reading that adds a
   step to an index exactly, the *_machine lemmas say that the wrap-around reading MachInt gives the same count whenever the
   indexes fit int.
   The proofs are by computation and case analysis only (no algebra): the generated term and the model perform the same
   floating-point operations in the same order. *)
From Coq Require Import ZArith List Bool Lia.
From Romea Require Import Num GridMapModel RayCastModel SrcEigen.
From Romea.gen Require Import SrcRayCast.
Import ListNotations.

Ltac split_ifs :=
  repeat match goal with |- context [Z.eqb ?a ?b] => destruct (Z.eqb a b) end; cbn [negb];
  repeat match goal with |- context [nltb ?N ?a ?b] => destruct (nltb N a b) end.

Section Tie.
Context {T : Type} (N : NumOps T).

(* ---------------------------------------------------------------- next: the four specialisations
   cellIndexes[k] += rayStep_[k] adds an int to a size_t: cu64 I (c + cu64 I s) in the generated terms.  The ties hold for
   every reading I of the conversions under which these sums are what the model computes, c + s: the identity (IdealInt),
   and wrap-around (MachInt) whenever c + s is a size_t value (cu64_add_step; C14_indexes_and_count_fit_int proves that of
   the indexes of a walk). *)
Section Next.
Context (I : IntConv).
Ltac next_tie f := intros; unfold f, next, eff_tmax, pick; cbv zeta; cbn [combine map]; split_ifs; cbn [upd nth]; congruence.

Lemma tie_next_f2 c0 c1 e0 e1 s0 s1 d0 d1 t0 t1 :
  cu64 I (c0 + cu64 I s0) = (c0 + s0)%Z -> cu64 I (c1 + cu64 I s1) = (c1 + s1)%Z ->
  src_next_f2 N I c0 c1 e0 e1 s0 s1 d0 d1 t0 t1 = next N [e0; e1] [s0; s1] [d0; d1] ([c0; c1], [t0; t1]).
Proof. next_tie @src_next_f2. Qed.

Lemma tie_next_d2 c0 c1 e0 e1 s0 s1 d0 d1 t0 t1 :
  cu64 I (c0 + cu64 I s0) = (c0 + s0)%Z -> cu64 I (c1 + cu64 I s1) = (c1 + s1)%Z ->
  src_next_d2 N I c0 c1 e0 e1 s0 s1 d0 d1 t0 t1 = next N [e0; e1] [s0; s1] [d0; d1] ([c0; c1], [t0; t1]).
Proof. next_tie @src_next_d2. Qed.

Lemma tie_next_f3 c0 c1 c2 e0 e1 e2 s0 s1 s2 d0 d1 d2 t0 t1 t2 :
  cu64 I (c0 + cu64 I s0) = (c0 + s0)%Z -> cu64 I (c1 + cu64 I s1) = (c1 + s1)%Z -> cu64 I (c2 + cu64 I s2) = (c2 + s2)%Z ->
  src_next_f3 N I c0 c1 c2 e0 e1 e2 s0 s1 s2 d0 d1 d2 t0 t1 t2
  = next N [e0; e1; e2] [s0; s1; s2] [d0; d1; d2] ([c0; c1; c2], [t0; t1; t2]).
Proof. next_tie @src_next_f3. Qed.

Lemma tie_next_d3 c0 c1 c2 e0 e1 e2 s0 s1 s2 d0 d1 d2 t0 t1 t2 :
  cu64 I (c0 + cu64 I s0) = (c0 + s0)%Z -> cu64 I (c1 + cu64 I s1) = (c1 + s1)%Z -> cu64 I (c2 + cu64 I s2) = (c2 + s2)%Z ->
  src_next_d3 N I c0 c1 c2 e0 e1 e2 s0 s1 s2 d0 d1 d2 t0 t1 t2
  = next N [e0; e1; e2] [s0; s1; s2] [d0; d1; d2] ([c0; c1; c2], [t0; t1; t2]).
Proof. next_tie @src_next_d3. Qed.
End Next.

(* ---------------------------------------------------------------- computeRayNumberOfCells *)
Lemma tie_ncells_2 (c : caster (T:=T)) e0 e1 o0 o1 : rc_eidx c = [e0; e1] -> rc_oidx c = [o0; o1] ->
  src_ncells_2 IdealInt e0 e1 o0 o1 = ncells c.
Proof. intros He Ho. unfold src_ncells_2, ncells, eig_sumZ. rewrite He, Ho. cbn [cu64 ci32 IdealInt fold_left combine]. lia. Qed.

Lemma tie_ncells_3 (c : caster (T:=T)) e0 e1 e2 o0 o1 o2 : rc_eidx c = [e0; e1; e2] -> rc_oidx c = [o0; o1; o2] ->
  src_ncells_3 IdealInt e0 e1 e2 o0 o1 o2 = ncells c.
Proof. intros He Ho. unfold src_ncells_3, ncells, eig_sumZ. rewrite He, Ho. cbn [cu64 ci32 IdealInt fold_left combine]. lia. Qed.

(* machine integers: the indexes are converted to int, subtracted, |.|, summed, + 1 in int, converted to size_t.  When the
   indexes fit int (C14_indexes_and_count_fit_int: they do, and so do the sum and its partial sums) nothing wraps. *)
Lemma ncells_2_machine e0 e1 o0 o1 :
  (0 <= e0 < 2 ^ 31)%Z -> (0 <= e1 < 2 ^ 31)%Z -> (0 <= o0 < 2 ^ 31)%Z -> (0 <= o1 < 2 ^ 31)%Z ->
  src_ncells_2 MachInt e0 e1 o0 o1 = src_ncells_2 IdealInt e0 e1 o0 o1.
Proof.
  intros. unfold src_ncells_2. rewrite !ci32_small by lia. cbn [ci32 IdealInt].
  rewrite cu64_small; [reflexivity|]. unfold eig_sumZ. cbn [fold_left]. lia.
Qed.

Lemma ncells_3_machine e0 e1 e2 o0 o1 o2 :
  (0 <= e0 < 2 ^ 31)%Z -> (0 <= e1 < 2 ^ 31)%Z -> (0 <= e2 < 2 ^ 31)%Z ->
  (0 <= o0 < 2 ^ 31)%Z -> (0 <= o1 < 2 ^ 31)%Z -> (0 <= o2 < 2 ^ 31)%Z ->
  src_ncells_3 MachInt e0 e1 e2 o0 o1 o2 = src_ncells_3 IdealInt e0 e1 e2 o0 o1 o2.
Proof.
  intros. unfold src_ncells_3. rewrite !ci32_small by lia. cbn [ci32 IdealInt].
  rewrite cu64_small; [reflexivity|]. unfold eig_sumZ. cbn [fold_left]. lia.
Qed.

(* ---------------------------------------------------------------- setOriginPoint
   The C++ grid has ONE resolution for all axes (cellResolution_); the model's axes carry one each: the tie is for casters
   whose axes share it.  Outputs of the generated term: (rayOriginIndexes_, rayOriginPoint_). *)
Lemma tie_setOrigin_2 (c : caster (T:=T)) a0 a1 r p0 p1 :
  rc_axes c = [a0; a1] -> ax_r a0 = r -> ax_r a1 = r ->
  src_setOrigin_2 N p0 p1 r (ax_org a0) (ax_org a1)
  = (rc_oidx (set_origin N c [p0; p1]), rc_origin (set_origin N c [p0; p1])).
Proof.
  intros Ha R0 R1. unfold src_setOrigin_2, set_origin, indexes, gm_index. cbv zeta. cbn [rc_oidx rc_origin].
  rewrite Ha. cbn [combine map]. rewrite R0, R1. reflexivity.
Qed.

Lemma tie_setOrigin_3 (c : caster (T:=T)) a0 a1 a2 r p0 p1 p2 :
  rc_axes c = [a0; a1; a2] -> ax_r a0 = r -> ax_r a1 = r -> ax_r a2 = r ->
  src_setOrigin_3 N p0 p1 p2 r (ax_org a0) (ax_org a1) (ax_org a2)
  = (rc_oidx (set_origin N c [p0; p1; p2]), rc_origin (set_origin N c [p0; p1; p2])).
Proof.
  intros Ha R0 R1 R2. unfold src_setOrigin_3, set_origin, indexes, gm_index. cbv zeta. cbn [rc_oidx rc_origin].
  rewrite Ha. cbn [combine map]. rewrite R0, R1, R2. reflexivity.
Qed.

(* ---------------------------------------------------------------- setEndPoint
   Outputs of the generated term: (rayDirection_, rayEndIndexes_, rayEndPoint_, rayStep_, rayTDelta_, rayTMax_).
   The cell-centre table of the grid is read at the origin index: [tab_i] is its contents as a function of the index; the
   hypothesis says what the constructor stored there (proved for the generated constructor in SrcTieC13.v:
   tie_ctor_2, tie_ctor_3 with model_table). *)
Definition setEnd_outputs (c' : caster (T:=T)) (e : list T) (out : list T * list Z * list T * list Z * list T * list T) : Prop :=
  let '(dir, eidx, ep, step, tdelta, tmax) := out in
  eidx = rc_eidx c' /\ ep = e /\ step = rc_step c' /\ tdelta = rc_tdelta c' /\ tmax = rc_tmax c'.

(* what one round of the unrolled per-axis loop computes (rayStep_, rayTMax_, rayTDelta_ of the axis), as the generated
   terms write it, from the resolution, the origin point, the centre of the origin cell and the direction *)
Definition src_axis_setup (r o centre dir : T) : Z * T * T :=
  let step := if nltb N (nofZ N 0%Z) dir then 1%Z else if nltb N dir (nofZ N 0%Z) then (-1)%Z else 0%Z in
  let moving := negb (Z.eqb step 0%Z) in
  (step,
   if moving then ndiv N (nsub N (nadd N centre (nmul N (nmul N (nofZ N step) r) (nofDec N 5%Z (-1)%Z))) o) dir
   else nmaxval N,
   if moving then ndiv N r (nabs N dir) else nmaxval N).

Lemma src_axis_setup_eq (L : LitOK N) (a : axis (T:=T)) o oi dir :
  axis_setup N a o oi dir = src_axis_setup (ax_r a) o (gm_centre N (ax_r a) (ax_org a) oi) dir.
Proof.
  unfold src_axis_setup, axis_setup. rewrite (lit_zero N L), (lit_half N L).
  destruct (nltb N (nzero N) dir); [reflexivity|]. destruct (nltb N dir (nzero N)); reflexivity.
Qed.

Lemma tie_setEnd_2 (L : LitOK N) (c : caster (T:=T)) a0 a1 r o0 o1 oi0 oi1 e0 e1 (tab0 tab1 : Z -> T) :
  rc_axes c = [a0; a1] -> rc_origin c = [o0; o1] -> rc_oidx c = [oi0; oi1] -> ax_r a0 = r -> ax_r a1 = r ->
  tab0 oi0 = gm_centre N r (ax_org a0) oi0 -> tab1 oi1 = gm_centre N r (ax_org a1) oi1 ->
  setEnd_outputs (set_end N c [e0; e1]) [e0; e1]
    (src_setEnd_2 N e0 e1 tab0 tab1 r (ax_org a0) (ax_org a1) oi0 oi1 o0 o1).
Proof.
  intros Ha Ho Hi R0 R1 T0 T1. subst r.
  unfold setEnd_outputs, src_setEnd_2, set_end, indexes, gm_index, eig_norm, norm. cbv zeta.
  rewrite Ha, Ho, Hi. cbn [combine map fold_left rc_axes rc_origin rc_oidx rc_eidx rc_step rc_tdelta rc_tmax].
  (* the model's per-axis triples in the form of the generated term; the rest is the same term on both sides *)
  rewrite T0, T1, !(src_axis_setup_eq L), R1. unfold src_axis_setup. repeat split; reflexivity.
Qed.

Lemma tie_setEnd_3 (L : LitOK N) (c : caster (T:=T)) a0 a1 a2 r o0 o1 o2 oi0 oi1 oi2 e0 e1 e2 (tab0 tab1 tab2 : Z -> T) :
  rc_axes c = [a0; a1; a2] -> rc_origin c = [o0; o1; o2] -> rc_oidx c = [oi0; oi1; oi2] ->
  ax_r a0 = r -> ax_r a1 = r -> ax_r a2 = r ->
  tab0 oi0 = gm_centre N r (ax_org a0) oi0 -> tab1 oi1 = gm_centre N r (ax_org a1) oi1 ->
  tab2 oi2 = gm_centre N r (ax_org a2) oi2 ->
  setEnd_outputs (set_end N c [e0; e1; e2]) [e0; e1; e2]
    (src_setEnd_3 N e0 e1 e2 tab0 tab1 tab2 r (ax_org a0) (ax_org a1) (ax_org a2) oi0 oi1 oi2 o0 o1 o2).
Proof.
  intros Ha Ho Hi R0 R1 R2 T0 T1 T2. subst r.
  unfold setEnd_outputs, src_setEnd_3, set_end, indexes, gm_index, eig_norm, norm. cbv zeta.
  rewrite Ha, Ho, Hi. cbn [combine map fold_left rc_axes rc_origin rc_oidx rc_eidx rc_step rc_tdelta rc_tmax].
  rewrite T0, T1, T2, !(src_axis_setup_eq L), R1, R2. unfold src_axis_setup. repeat split; reflexivity.
Qed.

End Tie.
