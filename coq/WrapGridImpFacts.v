(* WrapGridImpFacts.v — program-independent facts about the interpreter of WrapGridImp.v:
   ideal evaluation (safe e s -> eval e s = Some (evalZ e s)), state algebra, and the three counted-loop shapes the
   translator produces (for_full, for_up, for_down), each with its invariant rule (loop_full, loop_up, loop_down). *)
From Coq Require Import ZArith List Bool Arith Lia.
From Romea Require Import WrapGridModel WrapGridImp.
Import ListNotations.
Local Open Scope Z_scope.

Definition inrange (t : ty) (z : Z) : Prop :=
  match t with
  | U64 => 0 <= z < two64
  | I32 => - two31 <= z < two31
  | ZZ => True
  end.

Lemma norm_inrange t z : inrange t z -> norm t z = Some z.
Proof.
  destruct t; unfold norm, inrange, two31; intros H.
  - rewrite Z.mod_small by exact H. reflexivity.
  - destruct (Z.leb_spec (Z.opp 2147483648) z), (Z.ltb_spec z 2147483648); cbn [andb]; try reflexivity; lia.
  - reflexivity.
Qed.

Definition opZ (o : bop) (x y : Z) : Z :=
  match o with
  | Add => x + y | Sub => x - y | Mul => x * y | Rem => Z.rem x y
  | Lt => b2z (x <? y) | Gt => b2z (y <? x)
  end.

Definition okop (o : bop) (t : ty) (x y : Z) : Prop :=
  match o with
  | Add | Sub | Mul => inrange t (opZ o x y)
  | Rem => y <> 0 /\ inrange t (Z.rem x y)
  | Lt | Gt => True
  end.

Lemma binop_ok o t x y : okop o t x y -> binop o t x y = Some (opZ o x y).
Proof.
  destruct o; cbn; intros H; try (apply norm_inrange; exact H); try reflexivity.
  destruct H as [H0 H]. destruct (Z.eqb_spec y 0); [contradiction|]. apply norm_inrange; exact H.
Qed.

(* induction principle for expr (the arguments of ECall are a list) *)
Section ExprInd.
Variable P : expr -> Prop.
Hypothesis HLit : forall z, P (ELit z).
Hypothesis HVar : forall v, P (EVar v).
Hypothesis HBin : forall o t a b, P a -> P b -> P (EBin o t a b).
Hypothesis HCast : forall t a, P a -> P (ECast t a).
Hypothesis HCall : forall body args, P body -> Forall P args -> P (ECall body args).
Fixpoint expr_ind' (e : expr) : P e :=
  match e with
  | ELit z => HLit z
  | EVar v => HVar v
  | EBin o t a b => HBin o t a b (expr_ind' a) (expr_ind' b)
  | ECast t a => HCast t a (expr_ind' a)
  | ECall body args =>
      HCall body args (expr_ind' body)
        ((fix go (l : list expr) : Forall P l :=
            match l with [] => Forall_nil P | a :: r => Forall_cons a (expr_ind' a) (go r) end) args)
  end.
End ExprInd.

Section Facts.
Context {V : Type}.
Notation state := (state V).

Fixpoint evalZ (e : expr) (s : state) {struct e} : Z :=
  match e with
  | ELit z => z
  | EVar v => get s v
  | EBin o t a b => opZ o (evalZ a s) (evalZ b s)
  | ECast t a => evalZ a s
  | ECall body args => evalZ body (set_args s 0 (map (fun a => evalZ a s) args))
  end.

Fixpoint safe (e : expr) (s : state) {struct e} : Prop :=
  match e with
  | ELit _ | EVar _ => True
  | EBin o t a b => safe a s /\ safe b s /\ okop o t (evalZ a s) (evalZ b s)
  | ECast t a => safe a s /\ inrange t (evalZ a s)
  | ECall body args =>
      (fix all (l : list expr) : Prop := match l with [] => True | a :: r => safe a s /\ all r end) args
      /\ safe body (set_args s 0 (map (fun a => evalZ a s) args))
  end.

Lemma safe_eval e : forall s : state, safe e s -> eval e s = Some (evalZ e s).
Proof.
  induction e as [z|v|o t a b IHa IHb|t a IHa|body args IHb IHargs] using expr_ind'; intros s H; cbn [eval evalZ].
  - reflexivity.
  - reflexivity.
  - cbn [safe] in H. destruct H as (Ha & Hb & Ho). rewrite (IHa s Ha), (IHb s Hb). apply binop_ok, Ho.
  - cbn [safe] in H. destruct H as (Ha & Hr). rewrite (IHa s Ha). apply norm_inrange, Hr.
  - cbn [safe] in H. destruct H as (Hargs & Hbody).
    match goal with |- match ?X with _ => _ end = _ =>
      assert (E : X = Some (map (fun a => evalZ a s) args)) end.
    { clear Hbody IHb. induction IHargs as [|a r Pa Pr IH]; [reflexivity|].
      destruct Hargs as [Ha Hr]. rewrite (Pa s Ha). cbn [map]. rewrite (IH Hr). reflexivity. }
    rewrite E. apply IHb, Hbody.
Qed.

Lemma get_set_same (s : state) v z : get (set s v z) v = z.
Proof. unfold get, set; cbn. destruct v; cbn; rewrite Nat.eqb_refl; reflexivity. Qed.

Lemma get_set_other (s : state) v w z : var_eqb w v = false -> get (set s v z) w = get s w.
Proof. unfold get, set; cbn. intros ->. reflexivity. Qed.

Lemma buf_set (s : state) v z : s_buf (set s v z) = s_buf s. Proof. reflexivity. Qed.
Lemma get_set_buf (s : state) b v : get (set_buf s b) v = get s v. Proof. reflexivity. Qed.
Lemma buf_set_buf (s : state) b : s_buf (set_buf s b) = b. Proof. reflexivity. Qed.

Lemma iter_rule (f : state -> option state) (I : nat -> state -> Prop) (N : nat) :
  (forall j sj, (j < N)%nat -> I j sj -> exists s', f sj = Some s' /\ I (S j) s') ->
  forall m j sj, (j + m = N)%nat -> I j sj -> exists s', iter_opt m f sj = Some s' /\ I N s'.
Proof.
  intros Hstep. induction m as [|m IH]; intros j sj Hj HI; cbn [iter_opt].
  - replace N with j by lia. eauto.
  - destruct (Hstep j sj ltac:(lia) HI) as (s' & E & HI'). rewrite E. apply (IH (S j)); [lia|exact HI'].
Qed.

Lemma for_rule (e : V) init cond step body count (I : nat -> state -> Prop) s s0 n :
  exec e init s = Some s0 ->
  eval count s0 = Some n ->
  I O s0 ->
  (forall j sj, (j < Z.to_nat n)%nat -> I j sj ->
     check cond true sj = Some sj /\ exists s', bind (exec e body sj) (exec e step) = Some s' /\ I (S j) s') ->
  (forall sj, I (Z.to_nat n) sj -> check cond false sj = Some sj) ->
  exists s', exec e (SFor init cond step body count) s = Some s' /\ I (Z.to_nat n) s'.
Proof.
  intros Hi Hc H0 Hstep Hend. cbn [exec]. rewrite Hi. cbn [bind]. rewrite Hc.
  destruct (iter_rule (fun s1 => bind (check cond true s1) (fun s2 => bind (exec e body s2) (exec e step))) I (Z.to_nat n))
    with (m := Z.to_nat n) (j := O) (sj := s0) as (s' & E & HI'); [| lia | exact H0 |].
  - intros j sj Hj HI. destruct (Hstep j sj Hj HI) as (Hck & s' & E & HI'). rewrite Hck. cbn [bind]. eauto.
  - rewrite E. cbn [bind]. rewrite (Hend s' HI'). eauto.
Qed.

Lemma check_true c (s : state) z : eval c s = Some z -> z <> 0 -> check c true s = Some s.
Proof. unfold check. intros -> Hz. destruct (Z.eqb_spec z 0); [contradiction|reflexivity]. Qed.
Lemma check_false c (s : state) : eval c s = Some 0 -> check c false s = Some s.
Proof. unfold check. intros ->. reflexivity. Qed.

Lemma exec_if_true (e : V) c a b (s : state) z : eval c s = Some z -> z <> 0 -> exec e (SIf c a b) s = exec e a s.
Proof. cbn [exec]. intros -> Hz. destruct (Z.eqb_spec z 0); [contradiction|reflexivity]. Qed.
Lemma exec_if_false (e : V) c a b (s : state) : eval c s = Some 0 -> exec e (SIf c a b) s = exec e b s.
Proof. cbn [exec]. intros ->. reflexivity. Qed.

Lemma exec_bufset (e : V) ix (s : state) p : eval ix s = Some (Z.of_nat p) -> (p < length (s_buf s))%nat ->
  exec e (SBufSet ix) s = Some (set_buf s (set_nth p e (s_buf s))).
Proof.
  cbn [exec]. intros -> H. destruct (Z.leb_spec 0 (Z.of_nat p)); [|lia].
  destruct (Z.ltb_spec (Z.of_nat p) (Z.of_nat (length (s_buf s)))); [|lia]. cbn. rewrite Nat2Z.id. reflexivity.
Qed.

Lemma exec_set (e : V) v x (s : state) z : eval x s = Some z -> exec e (SSet v x) s = Some (set s v z).
Proof. cbn [exec]. intros ->. reflexivity. Qed.

(* counted loops.
   The three loop shapes the translator produces; J is the caller's invariant after j passes, stated on the state
   before the counter is advanced. *)
(* for (v = 0; v < bnd; v++) B   in size_t *)
Definition for_full (v bnd : var) (B : stmt) : stmt :=
  SFor (SSet v (ECast U64 (ELit 0))) (EBin Lt U64 (EVar v) (EVar bnd))
       (SSet v (EBin Add U64 (EVar v) (ECast U64 (ELit 1)))) B (EBin Sub ZZ (EVar bnd) (EVar v)).
(* for (int c = 0; c < bnd; c++) B *)
Definition for_up (c bnd : var) (B : stmt) : stmt :=
  SFor (SSet c (ELit 0)) (EBin Lt I32 (EVar c) (EVar bnd))
       (SSet c (EBin Add I32 (EVar c) (ELit 1))) B (EBin Sub ZZ (EVar bnd) (EVar c)).
(* for (int c = 0; c > bnd; c--) B *)
Definition for_down (c bnd : var) (B : stmt) : stmt :=
  SFor (SSet c (ELit 0)) (EBin Gt I32 (EVar c) (EVar bnd))
       (SSet c (EBin Sub I32 (EVar c) (ELit 1))) B (EBin Sub ZZ (EVar c) (EVar bnd)).

Lemma loop_full (e : V) (v bnd : var) body (n : nat) (J : nat -> state -> Prop) s :
  var_eqb bnd v = false ->
  Z.of_nat n < two64 ->
  get s bnd = Z.of_nat n ->
  J O (set s v 0) ->
  (forall j sj, (j < n)%nat -> J j sj -> get sj v = Z.of_nat j -> get sj bnd = Z.of_nat n ->
     exists s', exec e body sj = Some s' /\ get s' v = Z.of_nat j /\ get s' bnd = Z.of_nat n /\
                J (S j) (set s' v (Z.of_nat (S j)))) ->
  exists s', exec e (for_full v bnd body) s = Some s' /\ J n s' /\ get s' v = Z.of_nat n.
Proof.
  intros Hvb Hn64 Hb J0 Hbody.
  destruct (for_rule e (SSet v (ECast U64 (ELit 0))) (EBin Lt U64 (EVar v) (EVar bnd))
              (SSet v (EBin Add U64 (EVar v) (ECast U64 (ELit 1)))) body (EBin Sub ZZ (EVar bnd) (EVar v))
              (fun j sj => J j sj /\ get sj v = Z.of_nat j /\ get sj bnd = Z.of_nat n) s (set s v 0) (Z.of_nat n))
    as (s' & E & HJ & Hv' & _).
  - reflexivity.
  - cbn [eval binop norm]. rewrite get_set_same, get_set_other by exact Hvb. rewrite Hb. f_equal. lia.
  - split; [exact J0|]. rewrite get_set_same, get_set_other by exact Hvb. auto.
  - rewrite Nat2Z.id. intros j sj Hj (HJ & Hv' & Hb'). split.
    + eapply check_true; [reflexivity|]. rewrite Hv', Hb'. destruct (Z.ltb_spec (Z.of_nat j) (Z.of_nat n)); cbn; lia.
    + destruct (Hbody j sj Hj HJ Hv' Hb') as (s1 & E1 & V1 & B1 & J1). rewrite E1. cbn [bind exec eval binop norm].
      rewrite V1. change (1 mod two64) with 1. rewrite Z.mod_small by lia. replace (Z.of_nat j + 1) with (Z.of_nat (S j)) by lia.
      eexists; split; [reflexivity|]. split; [exact J1|]. rewrite get_set_same, get_set_other by exact Hvb. auto.
  - rewrite Nat2Z.id. intros sj (HJ & Hv' & Hb'). apply check_false. cbn [eval binop]. rewrite Hv', Hb', Z.ltb_irrefl. reflexivity.
  - rewrite Nat2Z.id in *. eauto.
Qed.

Lemma loop_up (e : V) (c bnd : var) body (k : Z) (J : nat -> state -> Prop) s :
  var_eqb bnd c = false ->
  - two31 <= k < two31 ->
  get s bnd = k ->
  J O (set s c 0) ->
  (forall j sj, (j < Z.to_nat k)%nat -> J j sj -> get sj c = Z.of_nat j -> get sj bnd = k ->
     exists s', exec e body sj = Some s' /\ get s' c = Z.of_nat j /\ get s' bnd = k /\
                J (S j) (set s' c (Z.of_nat (S j)))) ->
  exists s', exec e (for_up c bnd body) s = Some s' /\ J (Z.to_nat k) s'.
Proof.
  intros Hvb Hk Hb J0 Hbody.
  destruct (for_rule e (SSet c (ELit 0)) (EBin Lt I32 (EVar c) (EVar bnd))
              (SSet c (EBin Add I32 (EVar c) (ELit 1))) body (EBin Sub ZZ (EVar bnd) (EVar c))
              (fun j sj => J j sj /\ get sj c = Z.of_nat j /\ get sj bnd = k) s (set s c 0) k)
    as (s' & E & HJ & _).
  - reflexivity.
  - cbn [eval binop norm]. rewrite get_set_same, get_set_other by exact Hvb. rewrite Hb. f_equal. lia.
  - split; [exact J0|]. rewrite get_set_same, get_set_other by exact Hvb. auto.
  - intros j sj Hj (HJ & Hv' & Hb'). split.
    + eapply check_true; [reflexivity|]. rewrite Hv', Hb'. destruct (Z.ltb_spec (Z.of_nat j) k); cbn; lia.
    + destruct (Hbody j sj Hj HJ Hv' Hb') as (s1 & E1 & V1 & B1 & J1). rewrite E1. cbn [bind exec eval binop].
      rewrite V1. rewrite norm_inrange by (cbn; unfold two31 in *; lia).
      replace (Z.of_nat j + 1) with (Z.of_nat (S j)) by lia.
      eexists; split; [reflexivity|]. split; [exact J1|]. rewrite get_set_same, get_set_other by exact Hvb. auto.
  - intros sj (HJ & Hv' & Hb'). apply check_false. cbn [eval binop]. rewrite Hv', Hb'.
    destruct (Z.ltb_spec (Z.of_nat (Z.to_nat k)) k); [lia|reflexivity].
  - eauto.
Qed.

Lemma loop_down (e : V) (c bnd : var) body (k : Z) (J : nat -> state -> Prop) s :
  var_eqb bnd c = false ->
  - two31 <= k < two31 ->
  get s bnd = k ->
  J O (set s c 0) ->
  (forall j sj, (j < Z.to_nat (- k))%nat -> J j sj -> get sj c = - Z.of_nat j -> get sj bnd = k ->
     exists s', exec e body sj = Some s' /\ get s' c = - Z.of_nat j /\ get s' bnd = k /\
                J (S j) (set s' c (- Z.of_nat (S j)))) ->
  exists s', exec e (for_down c bnd body) s = Some s' /\ J (Z.to_nat (- k)) s'.
Proof.
  intros Hvb Hk Hb J0 Hbody.
  destruct (for_rule e (SSet c (ELit 0)) (EBin Gt I32 (EVar c) (EVar bnd))
              (SSet c (EBin Sub I32 (EVar c) (ELit 1))) body (EBin Sub ZZ (EVar c) (EVar bnd))
              (fun j sj => J j sj /\ get sj c = - Z.of_nat j /\ get sj bnd = k) s (set s c 0) (- k))
    as (s' & E & HJ & _).
  - reflexivity.
  - cbn [eval binop norm]. rewrite get_set_same, get_set_other by exact Hvb. rewrite Hb. f_equal.
  - split; [exact J0|]. rewrite get_set_same, get_set_other by exact Hvb. auto.
  - intros j sj Hj (HJ & Hv' & Hb'). split.
    + eapply check_true; [reflexivity|]. rewrite Hv', Hb'. destruct (Z.ltb_spec k (- Z.of_nat j)); cbn; lia.
    + destruct (Hbody j sj Hj HJ Hv' Hb') as (s1 & E1 & V1 & B1 & J1). rewrite E1. cbn [bind exec eval binop].
      rewrite V1. rewrite norm_inrange by (cbn; unfold two31 in *; lia).
      replace (- Z.of_nat j - 1) with (- Z.of_nat (S j)) by lia.
      eexists; split; [reflexivity|]. split; [exact J1|]. rewrite get_set_same, get_set_other by exact Hvb. auto.
  - intros sj (HJ & Hv' & Hb'). apply check_false. cbn [eval binop]. rewrite Hv', Hb'.
    destruct (Z.ltb_spec k (- Z.of_nat (Z.to_nat (- k)))); [lia|reflexivity].
  - eauto.
Qed.

End Facts.
