(* KdTreeProofs.v — KdTreeModel at the real-number instance ROps (C08).  Four notions carry the argument: [holds k r L]
   (the result set r keeps the k smallest of the offers L), [Inv] (at every searchLevel call mindistsq and dists are
   lower bounds for the points under the node), [called] (the calls searchLevel can make; each keeps Inv), and [tree_ok]
   (what the search needs of the tree, implied by the checker tree_ok_b); findNeighbors_post puts them together. *)
From Coq Require Import Reals ZArith List Bool Arith Lia Lra Permutation Sorting.Sorted Sorting.Mergesort.
From Romea Require Import Num NumR KdTreeModel.
From Romea.gen Require Import RepoConstants.
Import ListNotations.
Local Open Scope R_scope.

Notation item := (R * nat)%type.

(* worst first *)
Fixpoint desc (l : list item) : Prop :=
  match l with [] => True | x :: r => (forall y, In y r -> fst y <= fst x) /\ desc r end.

Lemma desc_tl l : desc l -> desc (tl l).
Proof. destruct l; simpl; [trivial|intros [_ H]; exact H]. Qed.

Lemma sorted_snoc (l : list item) x :
  StronglySorted (fun a b => fst a <= fst b) l -> (forall y, In y l -> fst y <= fst x) ->
  StronglySorted (fun a b => fst a <= fst b) (l ++ [x]).
Proof.
  induction 1 as [|a l _ IH Ha]; intros Hx; simpl.
  - repeat constructor.
  - constructor; [apply IH; intros y Hy; apply Hx; right; exact Hy|].
    apply Forall_app. split; [exact Ha|]. constructor; [apply Hx; left; reflexivity|constructor].
Qed.

Lemma desc_rev_sorted l : desc l -> StronglySorted (fun a b : item => fst a <= fst b) (rev l).
Proof.
  induction l as [|a l IH]; simpl; intros H; [constructor|]. destruct H as [Ha Hl].
  apply sorted_snoc; [apply IH, Hl|]. intros y Hy. apply in_rev in Hy. apply Ha, Hy.
Qed.

Lemma ins_perm d i l : Permutation (ins ROps d i l) ((d, i) :: l).
Proof.
  induction l as [|[d' i'] r IH]; cbn [ins]; [reflexivity|].
  destruct (ngtb ROps d' d); [rewrite IH; apply perm_swap|reflexivity].
Qed.

Lemma ins_length d i l : length (ins ROps d i l) = S (length l).
Proof. exact (Permutation_length (ins_perm d i l)). Qed.

Lemma ins_desc d i l : desc l -> desc (ins ROps d i l).
Proof.
  induction l as [|[d' i'] r IH]; cbn [ins]; intros H.
  - split; [intros y []|exact I].
  - destruct H as [Ha Hr]. unfold ngtb. cbn [nltb ROps]. destruct (Rltb d d') eqn:E.
    + apply Rltb_true in E. split; [|apply IH, Hr].
      intros y Hy. apply (Permutation_in _ (ins_perm d i r)) in Hy. destruct Hy as [<-|Hy]; [simpl; lra|apply Ha, Hy].
    + apply Rltb_false in E. split; [|split; [exact Ha|exact Hr]].
      intros y [<-|Hy]; [exact E|]. apply Rle_trans with d'; [apply Ha, Hy|exact E].
Qed.

(* the result set r has capacity k and holds, worst first, the min(k, |L|) smallest entries of the multiset L *)
Definition holds (k : nat) (r : rset) (L : list item) : Prop :=
  rs_cap r = k /\ desc (rs_rev r) /\ length (rs_rev r) = Nat.min k (length L) /\
  exists rest, Permutation L (rs_rev r ++ rest) /\ forall x y, In x (rs_rev r) -> In y rest -> fst x <= fst y.

Lemma holds_perm k r L L' : Permutation L L' -> holds k r L -> holds k r L'.
Proof. intros HP H. unfold holds. setoid_rewrite <- HP. exact H. Qed.

Lemma holds_init k : holds k (rs_init k) [].
Proof.
  split; [reflexivity|]. split; [exact I|]. split; [symmetry; apply Nat.min_0_r|].
  exists []. split; [reflexivity|intros x y []].
Qed.

Lemma holds_add k r L d i : holds k r L -> holds k (addPoint ROps r d i) ((d, i) :: L).
Proof.
  intros (Hcap & Hd & Hlen & rest & HP & Hle). unfold holds, addPoint. cbn [rs_cap rs_rev]. rewrite Hcap.
  split; [reflexivity|]. set (l := rs_rev r) in *.
  pose proof (ins_perm d i l) as Hl'. pose proof (ins_desc d i l Hd) as Hdl'. pose proof (ins_length d i l) as Hlen'.
  assert (HP' : Permutation ((d, i) :: L) (ins ROps d i l ++ rest)) by (rewrite HP, Hl'; reflexivity).
  destruct (Nat.ltb_spec k (length (ins ROps d i l))) as [E|E].
  - (* the set was full: the new worst entry h is dropped *)
    destruct (ins ROps d i l) as [|h t]; [discriminate Hlen'|]. cbn [tl length] in *.
    split; [exact (proj2 Hdl')|]. split; [lia|].
    exists (h :: rest). split; [rewrite HP'; apply Permutation_middle|].
    intros x y Hx [<-|Hy]; [apply (proj1 Hdl'), Hx|].
    (* either h is the new entry and t is l, or h was in l and x <= h <= y *)
    destruct (Permutation_in _ Hl' (or_introl eq_refl)) as [Hh|Hh].
    + subst h. apply Hle; [|exact Hy]. apply (Permutation_in _ (Permutation_cons_inv Hl')), Hx.
    + apply Rle_trans with (fst h); [apply (proj1 Hdl'), Hx|apply Hle; assumption].
  - (* room left: L was held entirely *)
    assert (rest = []) as ->.
    { apply length_zero_iff_nil. apply Permutation_length in HP. rewrite app_length in HP. lia. }
    split; [exact Hdl'|]. split; [cbn [length]; lia|]. exists []. split; [exact HP'|intros x y _ []].
Qed.

(* r is full and holds nothing worse than w *)
Definition bounded (r : rset) (w : R) : Prop :=
  length (rs_rev r) = rs_cap r /\ forall x, In x (rs_rev r) -> fst x <= w.

Lemma worst_bounded k r L w : holds k r L -> worstDist ROps r <= w -> w < nmaxval ROps -> bounded r w.
Proof.
  unfold worstDist, rs_full. intros (_ & Hd & _) Hw Hlt.
  destruct (Nat.eqb_spec (length (rs_rev r)) (rs_cap r)) as [E|_]; [|lra]. split; [exact E|].
  destruct (rs_rev r) as [|[h ih] t]; [intros x []|].
  intros x [<-|Hx]; [exact Hw|]. apply Rle_trans with h; [apply (proj1 Hd), Hx|exact Hw].
Qed.

Lemma bounded_mono r w w' : bounded r w -> w <= w' -> bounded r w'.
Proof. intros [Hf Hb] Hw. split; [exact Hf|]. intros x Hx. apply Rle_trans with w; [apply Hb, Hx|exact Hw]. Qed.

Lemma bounded_add r w d i : bounded r w -> d <= w -> bounded (addPoint ROps r d i) w.
Proof.
  intros [Hf Hb] Hdw. unfold bounded, addPoint. cbn [rs_cap rs_rev].
  pose proof (ins_perm d i (rs_rev r)) as HP. pose proof (ins_length d i (rs_rev r)) as Hlen.
  rewrite Hlen, Hf, (proj2 (Nat.ltb_lt _ _) (Nat.lt_succ_diag_r _)).
  destruct (ins ROps d i (rs_rev r)) as [|h t]; [discriminate Hlen|]. cbn [tl length] in *. split; [lia|].
  intros x Hx. destruct (Permutation_in _ HP (or_intror Hx)) as [<-|Hx']; [exact Hdw|apply Hb, Hx'].
Qed.

(* offers that are no better than anything in a full set may be left out *)
Lemma holds_skip k r L X : holds k r L -> (forall y, In y X -> bounded r (fst y)) -> holds k r (X ++ L).
Proof.
  intros HL HX. destruct X as [|y0 X]; [exact HL|]. destruct (HX y0 (or_introl eq_refl)) as [Hf _].
  destruct HL as (Hcap & Hd & Hlen & rest & HP & Hle).
  split; [exact Hcap|]. split; [exact Hd|]. split; [rewrite app_length; lia|].
  exists ((y0 :: X) ++ rest). split; [rewrite HP; apply Permutation_app_swap_app|].
  intros x y Hx Hy. apply in_app_or in Hy. destruct Hy as [Hy|Hy]; [apply (HX y Hy), Hx|apply Hle; assumption].
Qed.

Definition offer_all (k : nat) (offers : list item) : rset :=
  fold_left (fun r o => addPoint ROps r (fst o) (snd o)) offers (rs_init k).

Lemma fold_addPoint_holds k offers : forall r L, holds k r L ->
  holds k (fold_left (fun r o => addPoint ROps r (fst o) (snd o)) offers r) (offers ++ L).
Proof.
  induction offers as [|[d i] os IH]; intros r L HL; [exact HL|].
  eapply holds_perm; [symmetry; apply Permutation_middle|]. apply IH, holds_add, HL.
Qed.

(* the reading of [holds] on the caller's side (ascending output) *)
Definition k_smallest_ascending (k : nat) (L out : list item) : Prop :=
  StronglySorted (fun a b : item => fst a <= fst b) out /\
  length out = Nat.min k (length L) /\
  exists rest, Permutation L (out ++ rest) /\ forall x y, In x out -> In y rest -> fst x <= fst y.

Lemma holds_out k r L : holds k r L -> k_smallest_ascending k L (rs_out r).
Proof.
  intros (_ & Hd & Hlen & rest & HP & Hle). unfold rs_out. split; [apply desc_rev_sorted, Hd|].
  split; [rewrite rev_length; exact Hlen|].
  exists rest. split; [rewrite <- Permutation_rev; exact HP|].
  intros x y Hx Hy. apply Hle; [apply in_rev, Hx|exact Hy].
Qed.

(* after any sequence of addPoint on an initialised set, of any capacity *)
Lemma offer_all_k_smallest k offers : k_smallest_ascending k offers (rs_out (offer_all k offers)).
Proof.
  apply holds_out. rewrite <- (app_nil_r offers) at 2. apply fold_addPoint_holds, holds_init.
Qed.

Lemma resultset_sorted_k_smallest k offers : (1 <= k)%nat ->
  k_smallest_ascending k offers (rs_out (offer_all k offers)).
Proof. intros _. apply offer_all_k_smallest. Qed.

Fixpoint rsum (l : list R) : R := match l with [] => 0 | x :: r => x + rsum r end.

(* per-dimension lower bounds d of (q - p)^2, all three vectors of the same length *)
Fixpoint lbv (d q p : list R) : Prop :=
  match d, q, p with
  | [], [], [] => True
  | dj :: d', qj :: q', pj :: p' => dj <= (qj - pj) * (qj - pj) /\ lbv d' q' p'
  | _, _, _ => False
  end.

Lemma lbv_length d q p : lbv d q p -> length d = length q /\ length p = length q.
Proof.
  revert q p. induction d as [|dj d IH]; intros [|qj q] [|pj p]; simpl; try tauto.
  intros [_ H]. destruct (IH _ _ H). lia.
Qed.

Lemma sqdist_acc_spec acc a b : sqdist_acc ROps acc a b = acc + sqdist_acc ROps 0 a b.
Proof.
  revert acc b. induction a as [|x a IH]; intros acc [|y b]; simpl; try lra.
  rewrite IH. rewrite (IH (0 + _)). lra.
Qed.

Lemma lbv_sum_le d q p : lbv d q p -> rsum d <= sqdist ROps q p.
Proof.
  unfold sqdist. simpl. revert q p. induction d as [|dj d IH]; intros [|qj q] [|pj p]; simpl; try tauto; try lra.
  intros [H1 H2]. rewrite sqdist_acc_spec. specialize (IH _ _ H2). unfold nsq. simpl. lra.
Qed.

Lemma rsum_set_nth i v l : (i < length l)%nat -> rsum (set_nth i v l) = rsum l + v - nth i l 0.
Proof.
  revert i. induction l as [|x l IH]; intros [|i]; simpl; intros H; try lia; try lra.
  rewrite IH by lia. lra.
Qed.

Lemma set_nth_length i (v : R) l : length (set_nth i v l) = length l.
Proof. revert i. induction l as [|x l IH]; intros [|i]; simpl; auto. Qed.

Lemma lbv_set_nth i v d q p :
  lbv d q p -> v <= (nth i q 0 - nth i p 0) * (nth i q 0 - nth i p 0) -> lbv (set_nth i v d) q p.
Proof.
  revert i q p. induction d as [|dj d IH]; intros [|i] [|qj q] [|pj p]; simpl; try tauto.
  intros [H1 H2] Hv. split; [exact H1|]. apply IH; assumption.
Qed.

(* c lies between x and y *)
Lemma sqr_between x c y : x <= c <= y \/ y <= c <= x -> (x - c) * (x - c) <= (x - y) * (x - y).
Proof. intros [H|H]; nra. Qed.

Fixpoint in_box (p : list R) (bbox : list (R * R)) : Prop :=
  match p, bbox with
  | [], [] => True
  | x :: p', (lo, hi) :: b' => lo <= x <= hi /\ in_box p' b'
  | _, _ => False
  end.

Lemma in_box_length p b : in_box p b -> length p = length b.
Proof.
  revert b. induction p as [|x p IH]; intros [|[lo hi] b]; simpl; try tauto.
  intros [_ H]. rewrite (IH _ H). reflexivity.
Qed.

(* computeInitialDistances: distsq is the sum of the per-dimension entries, each a lower bound for every
   point of the root box.  The box is inhabited, so lo <= hi in every dimension and at most one of the two
   tests fires. *)
Lemma initial_distances_spec q bbox acc :
  length q = length bbox ->
  (exists p0, in_box p0 bbox) ->
  let '(s, ds) := initial_distances ROps q bbox acc in
  s = acc + rsum ds /\ length ds = length q /\ forall p, in_box p bbox -> lbv ds q p.
Proof.
  revert bbox acc. induction q as [|x q IH]; intros [|[lo hi] b] acc Hlen [p0 Hp0]; try discriminate Hlen.
  - simpl. split; [lra|]. split; [reflexivity|]. intros [|? ?]; simpl; tauto.
  - destruct p0 as [|x0 p0]; [destruct Hp0|]. destruct Hp0 as [Hx0 Hp0]. injection Hlen as Hlen.
    pose proof (fun a => IH b a Hlen (ex_intro _ p0 Hp0)) as IH'.
    cbn [initial_distances]. unfold ngtb, accum_dist, nsq. cbn [nltb nadd nsub nmul nzero ROps].
    destruct (Rltb x lo) eqn:E1; [apply Rltb_true in E1|apply Rltb_false in E1];
      (destruct (Rltb hi x) eqn:E2; [apply Rltb_true in E2|apply Rltb_false in E2]); try lra.
    all: match goal with |- context [initial_distances _ _ _ ?a] => specialize (IH' a) end.
    all: destruct (initial_distances _ _ _ _) as [s ds]; destruct IH' as (I1 & I2 & I3).
    all: split; [simpl; lra|]; split; [simpl; lia|].
    all: intros [|y p]; simpl; [tauto|]; intros [Hy Hp]; split; [|apply I3, Hp].
    + apply sqr_between. left. lra.
    + apply sqr_between. right. lra.
    + apply Rle_0_sqr.
Qed.

Lemma child1_sub f (lo hi : R) c1 c2 : incl (node_positions c1) (node_positions (Split f lo hi c1 c2)).
Proof. apply incl_appl, incl_refl. Qed.
Lemma child2_sub f (lo hi : R) c1 c2 : incl (node_positions c2) (node_positions (Split f lo hi c1 c2)).
Proof. apply incl_appr, incl_refl. Qed.

Section SearchProofs.
Variable vind : list nat.
Variable pts : list (list R).
Variable q : list R.
Variable k : nat.

(* the point stored at position [pos] of vind, and the (distance, index) pair the leaf loop offers *)
Definition P (pos : nat) : list R := point pts (vindex vind pos).
Definition item_at (pos : nat) : item := (sqdist ROps q (P pos), vindex vind pos).
Definition items (positions : list nat) : list item := map item_at positions.

(* [worst] is worstDist as cached on entry: if that was below max() the set was full, and stays bounded by it *)
Lemma leaf_loop_post : forall cnt i r L worst,
  holds k r L ->
  (worst < nmaxval ROps -> bounded r worst) ->
  (forall pos, In pos (seq i cnt) -> sqdist ROps q (P pos) < nmaxval ROps) ->
  holds k (leaf_loop ROps vind pts q worst cnt i r) (items (seq i cnt) ++ L).
Proof.
  induction cnt as [|cnt IH]; intros i r L worst HL Hw Hmax; [exact HL|].
  assert (Hi : sqdist ROps q (P i) < nmaxval ROps) by (apply Hmax; left; reflexivity).
  assert (Hmax' : forall pos, In pos (seq (S i) cnt) -> sqdist ROps q (P pos) < nmaxval ROps)
    by (intros pos Hpos; apply Hmax; right; exact Hpos).
  cbn [leaf_loop seq items map app nltb ROps]. fold (P i) (item_at i) (items (seq (S i) cnt)).
  eapply holds_perm; [symmetry; apply Permutation_middle|].
  destruct (Rltb (sqdist ROps q (P i)) worst) eqn:E.
  - apply Rltb_true in E. apply IH; [apply holds_add, HL| |exact Hmax'].
    intros Hlt. apply bounded_add; [apply Hw, Hlt|lra].
  - apply Rltb_false in E. apply IH; [|exact Hw|exact Hmax'].
    apply (holds_skip k r L [item_at i] HL). intros y [<-|[]]. apply (bounded_mono r worst); [apply Hw; lra|exact E].
Qed.

(* the node invariant of the built tree *)
Fixpoint splits_ok (dim : nat) (nd : node) : Prop :=
  match nd with
  | Leaf _ _ => True
  | Split f lo hi c1 c2 =>
      (f < dim)%nat /\ lo <= hi /\
      (forall pos, In pos (node_positions c1) -> coord ROps (P pos) f <= lo) /\
      (forall pos, In pos (node_positions c2) -> hi <= coord ROps (P pos) f) /\
      splits_ok dim c1 /\ splits_ok dim c2
  end.

(* what holds at every call searchLevel(node, mindistsq, dists): mindistsq is the sum of dists, and each
   dists[j] is a lower bound of (q_j - p_j)^2 for every point p under the node *)
Definition Inv (nd : node (T:=R)) (m : R) (d : list R) : Prop :=
  m = rsum d /\ length d = length q /\ forall pos, In pos (node_positions nd) -> lbv d q (P pos).

Lemma Inv_lower_bound nd m d : Inv nd m d ->
  forall pos, In pos (node_positions nd) -> m <= sqdist ROps q (P pos).
Proof. intros (-> & _ & H) pos Hpos. apply lbv_sum_le, H, Hpos. Qed.

Lemma Inv_sub nd c m d : incl (node_positions c) (node_positions nd) -> Inv nd m d -> Inv c m d.
Proof. intros Hsub (A & B & C). split; [exact A|]. split; [exact B|]. intros pos Hp. apply C, Hsub, Hp. Qed.

(* the far child: dists[f] becomes [cut], which every point under the child is at least away along f *)
Lemma Inv_far nd c f cut m d :
  incl (node_positions c) (node_positions nd) -> (f < length q)%nat ->
  (forall pos, In pos (node_positions c) -> cut <= (nth f q 0 - nth f (P pos) 0) * (nth f q 0 - nth f (P pos) 0)) ->
  Inv nd m d -> Inv c (m + cut - nth f d 0) (set_nth f cut d).
Proof.
  intros Hsub Hf Hcut (Hm & Hlen & Hlb). split; [|split].
  - rewrite rsum_set_nth by lia. lra.
  - rewrite set_nth_length. exact Hlen.
  - intros pos Hpos. apply lbv_set_nth; [apply Hlb, Hsub, Hpos|apply Hcut, Hpos].
Qed.

Lemma Inv_far_child2 dim f lo hi c1 c2 m d :
  length q = dim -> splits_ok dim (Split f lo hi c1 c2) -> Inv (Split f lo hi c1 c2) m d ->
  (nth f q 0 - lo) + (nth f q 0 - hi) < 0 ->
  Inv c2 (m + (nth f q 0 - hi) * (nth f q 0 - hi) - nth f d 0) (set_nth f ((nth f q 0 - hi) * (nth f q 0 - hi)) d).
Proof.
  intros Hq (Hf & Hlh & _ & H2 & _ & _) HI Hside. apply (Inv_far _ _ _ _ _ _ (child2_sub f lo hi c1 c2)); [lia| |exact HI].
  intros pos Hpos. specialize (H2 pos Hpos). apply sqr_between. left. unfold coord in H2. simpl in H2. lra.
Qed.

Lemma Inv_far_child1 dim f lo hi c1 c2 m d :
  length q = dim -> splits_ok dim (Split f lo hi c1 c2) -> Inv (Split f lo hi c1 c2) m d ->
  0 <= (nth f q 0 - lo) + (nth f q 0 - hi) ->
  Inv c1 (m + (nth f q 0 - lo) * (nth f q 0 - lo) - nth f d 0) (set_nth f ((nth f q 0 - lo) * (nth f q 0 - lo)) d).
Proof.
  intros Hq (Hf & Hlh & H1 & _ & _ & _) HI Hside. apply (Inv_far _ _ _ _ _ _ (child1_sub f lo hi c1 c2)); [lia| |exact HI].
  intros pos Hpos. specialize (H1 pos Hpos). apply sqr_between. right. unfold coord in H1. simpl in H1. lra.
Qed.

(* far_step around any search of the far child c (exact search: epsError = 1): when the child is not
   visited, mindistsq exceeds worstDist, so the set is full and every point under c is no better *)
Lemma far_step_post other c f cut m d r L :
  (forall m' d' r' L', Inv c m' d' -> holds k r' L' -> holds k (other m' d' r') (items (node_positions c) ++ L')) ->
  Inv c (m + cut - nth f d 0) (set_nth f cut d) ->
  (forall pos, In pos (node_positions c) -> sqdist ROps q (P pos) < nmaxval ROps) ->
  holds k r L ->
  holds k (far_step ROps 1 other f cut m d r) (items (node_positions c) ++ L).
Proof.
  intros Hother HI Hmax HL. unfold far_step, coord. cbn [nsub nadd nmul nleb nzero ROps].
  destruct (Rleb _ _) eqn:E; [apply Hother; assumption|]. apply Rleb_false in E.
  apply holds_skip; [exact HL|]. intros y Hy. apply in_map_iff in Hy. destruct Hy as (pos & <- & Hpos).
  pose proof (Inv_lower_bound _ _ _ HI pos Hpos).
  apply (worst_bounded k r L); [exact HL|cbn [fst item_at]; lra|apply Hmax, Hpos].
Qed.

Lemma items_app a b : items (a ++ b) = items a ++ items b.
Proof. apply map_app. Qed.

Lemma searchLevel_post dim : length q = dim -> forall nd m d r L,
  splits_ok dim nd -> Inv nd m d ->
  (forall pos, In pos (node_positions nd) -> sqdist ROps q (P pos) < nmaxval ROps) ->
  holds k r L ->
  holds k (searchLevel ROps vind pts q 1 nd m d r) (items (node_positions nd) ++ L).
Proof.
  intros Hq. induction nd as [l rgt|f lo hi c1 IH1 c2 IH2]; intros m d r L Hok HI Hmax HL.
  - apply leaf_loop_post; [exact HL| |exact Hmax].
    intros Hlt. exact (worst_bounded k r L _ HL (Rle_refl _) Hlt).
  - pose proof (child1_sub f lo hi c1 c2) as S1. pose proof (child2_sub f lo hi c1 c2) as S2.
    destruct (Hok) as (_ & _ & _ & _ & Hok1 & Hok2).
    assert (Hmax1 := fun pos Hp => Hmax pos (S1 pos Hp)). assert (Hmax2 := fun pos Hp => Hmax pos (S2 pos Hp)).
    assert (R1 := fun m d r L HI => IH1 m d r L Hok1 HI Hmax1). assert (R2 := fun m d r L HI => IH2 m d r L Hok2 HI Hmax2).
    cbn [searchLevel node_positions]. rewrite items_app, <- app_assoc.
    unfold accum_dist, nsq, coord. cbn [nsub nadd nzero nltb nmul ROps].
    destruct (Rltb _ 0) eqn:E; [apply Rltb_true in E|apply Rltb_false in E].
    + apply (holds_perm _ _ _ _ (Permutation_app_swap_app _ _ _)).
      apply far_step_post; [exact R2|exact (Inv_far_child2 dim f lo hi c1 c2 m d Hq Hok HI E)|exact Hmax2|].
      apply R1; [exact (Inv_sub _ _ _ _ S1 HI)|exact HL].
    + apply far_step_post; [exact R1|exact (Inv_far_child1 dim f lo hi c1 c2 m d Hq Hok HI E)|exact Hmax1|].
      apply R2; [exact (Inv_sub _ _ _ _ S2 HI)|exact HL].
Qed.

(* the calls searchLevel can make below the call (nd0, m0, d0), pruned or not *)
Inductive called : node (T:=R) -> R -> list R -> node (T:=R) -> R -> list R -> Prop :=
  | called_here nd m d : called nd m d nd m d
  | called_near_1 nd0 m0 d0 f lo hi c1 c2 m d :
      called nd0 m0 d0 (Split f lo hi c1 c2) m d -> (nth f q 0 - lo) + (nth f q 0 - hi) < 0 ->
      called nd0 m0 d0 c1 m d
  | called_far_2 nd0 m0 d0 f lo hi c1 c2 m d :
      called nd0 m0 d0 (Split f lo hi c1 c2) m d -> (nth f q 0 - lo) + (nth f q 0 - hi) < 0 ->
      called nd0 m0 d0 c2 (m + (nth f q 0 - hi) * (nth f q 0 - hi) - nth f d 0)
             (set_nth f ((nth f q 0 - hi) * (nth f q 0 - hi)) d)
  | called_near_2 nd0 m0 d0 f lo hi c1 c2 m d :
      called nd0 m0 d0 (Split f lo hi c1 c2) m d -> 0 <= (nth f q 0 - lo) + (nth f q 0 - hi) ->
      called nd0 m0 d0 c2 m d
  | called_far_1 nd0 m0 d0 f lo hi c1 c2 m d :
      called nd0 m0 d0 (Split f lo hi c1 c2) m d -> 0 <= (nth f q 0 - lo) + (nth f q 0 - hi) ->
      called nd0 m0 d0 c1 (m + (nth f q 0 - lo) * (nth f q 0 - lo) - nth f d 0)
             (set_nth f ((nth f q 0 - lo) * (nth f q 0 - lo)) d).

Lemma called_Inv dim nd0 m0 d0 nd m d :
  length q = dim -> called nd0 m0 d0 nd m d -> splits_ok dim nd0 -> Inv nd0 m0 d0 ->
  splits_ok dim nd /\ Inv nd m d.
Proof.
  intros Hq H. induction H; intros Hok HI; [split; assumption|destruct (IHcalled Hok HI) as [A B]; split; [apply A|]..].
  - exact (Inv_sub _ _ _ _ (child1_sub _ _ _ _ _) B).
  - eapply Inv_far_child2; eassumption.
  - exact (Inv_sub _ _ _ _ (child2_sub _ _ _ _ _) B).
  - eapply Inv_far_child1; eassumption.
Qed.

End SearchProofs.

Record tree_ok (dim : nat) (t : kdtree (T:=R)) : Prop := {
  ok_nonempty : (1 <= length (kd_pts t))%nat;
  ok_leaves : node_positions (kd_root t) = seq 0 (length (kd_pts t));     (* leaves partition the positions *)
  ok_vind : Permutation (kd_vind t) (seq 0 (length (kd_pts t)));           (* vind is a permutation *)
  ok_bbox_len : length (kd_bbox t) = dim;
  ok_in_box : forall p, In p (kd_pts t) -> in_box p (kd_bbox t);           (* root box contains all points *)
  ok_splits : splits_ok (kd_vind t) (kd_pts t) dim (kd_root t)             (* left <= divlow <= divhigh <= right *)
}.

Lemma list_nat_eqb_eq a b : list_nat_eqb a b = true -> a = b.
Proof.
  revert b. induction a as [|x a IH]; intros [|y b]; simpl; try discriminate; [reflexivity|].
  rewrite andb_true_iff, Nat.eqb_eq. intros [-> H]. f_equal. apply IH, H.
Qed.

Lemma in_box_b_sound p b : in_box_b ROps p b = true -> in_box p b.
Proof.
  revert b. induction p as [|x p IH]; intros [|[lo hi] b]; simpl; try discriminate; [trivial|].
  rewrite !andb_true_iff, !Rleb_true. intros [H Hp]. split; [exact H|apply IH, Hp].
Qed.

Lemma splits_ok_b_sound vind pts dim nd : splits_ok_b ROps vind pts dim nd = true -> splits_ok vind pts dim nd.
Proof.
  induction nd as [l r|f lo hi c1 IH1 c2 IH2]; simpl; [trivial|].
  rewrite !andb_true_iff, !forallb_forall. intros (((((Hf & Hlh) & H1) & H2) & Hc1) & Hc2).
  split; [apply Nat.ltb_lt, Hf|]. split; [apply Rleb_true, Hlh|].
  split; [intros pos Hp; apply Rleb_true, H1, Hp|]. split; [intros pos Hp; apply Rleb_true, H2, Hp|].
  split; [apply IH1, Hc1|apply IH2, Hc2].
Qed.

Lemma tree_ok_b_sound dim t : tree_ok_b ROps dim t = true -> tree_ok dim t.
Proof.
  unfold tree_ok_b. rewrite !andb_true_iff. intros (((((Hn & Hl) & Hv) & Hb) & Hi) & Hs). constructor.
  - apply Nat.leb_le, Hn.
  - apply list_nat_eqb_eq, Hl.
  - rewrite <- (list_nat_eqb_eq _ _ Hv). apply NatSort.Permuted_sort.
  - apply Nat.eqb_eq, Hb.
  - intros p Hp. rewrite forallb_forall in Hi. apply in_box_b_sound, Hi, Hp.
  - apply splits_ok_b_sound, Hs.
Qed.

Lemma map_nth_seq (l : list nat) : map (fun i => nth i l 0%nat) (seq 0 (length l)) = l.
Proof.
  induction l as [|x l IH]; simpl; [reflexivity|]. f_equal.
  rewrite <- seq_shift, map_map. exact IH.
Qed.

(* all (squared distance, index) pairs of the data set *)
Definition all_pairs (t : kdtree (T:=R)) (q : list R) : list item :=
  map (fun j => (sqdist ROps q (point (kd_pts t) j), j)) (seq 0 (length (kd_pts t))).

Lemma in_all_pairs t q x :
  In x (all_pairs t q) <-> (snd x < length (kd_pts t))%nat /\ fst x = sqdist ROps q (point (kd_pts t) (snd x)).
Proof.
  unfold all_pairs. rewrite in_map_iff. split.
  - intros (j & <- & Hj). apply in_seq in Hj. simpl. split; [lia|reflexivity].
  - intros [Hj E]. exists (snd x). split; [rewrite <- E; destruct x; reflexivity|apply in_seq; lia].
Qed.

Lemma eps_error_one : eps_error ROps = 1.
Proof. unfold eps_error, nanoflann_search_eps. simpl. lra. Qed.

Lemma NoDup_app_left {A} (a b : list A) : NoDup (a ++ b) -> NoDup a.
Proof.
  induction a as [|x a IH]; simpl; intros H; [constructor|]. inversion H as [|? ? H1 H2]; subst.
  constructor; [intro Hin; apply H1, in_or_app; left; exact Hin|apply IH, H2].
Qed.

Lemma findNeighbors_unfold (t : kdtree (T:=R)) q k : (1 <= length (kd_pts t))%nat ->
  findNeighbors ROps t q k =
  let '(distsq, dists) := initial_distances ROps q (kd_bbox t) 0 in
  searchLevel ROps (kd_vind t) (kd_pts t) q (eps_error ROps) (kd_root t) distsq dists (rs_init k).
Proof. unfold findNeighbors. destruct (kd_pts t); simpl; [lia|reflexivity]. Qed.

Section TopLevel.
Variable dim : nat.
Variable t : kdtree (T:=R).
Variable q : list R.
Hypothesis Hok : tree_ok dim t.
Hypothesis Hq : length q = dim.

Let n := length (kd_pts t).

Lemma vind_length : length (kd_vind t) = n.
Proof. rewrite (Permutation_length (ok_vind _ _ Hok)). apply seq_length. Qed.

Lemma vindex_lt pos : (pos < n)%nat -> (vindex (kd_vind t) pos < n)%nat.
Proof.
  intros Hpos. assert (Hin : In (vindex (kd_vind t) pos) (kd_vind t)) by (apply nth_In; rewrite vind_length; exact Hpos).
  apply (Permutation_in _ (ok_vind _ _ Hok)), in_seq in Hin. apply Hin.
Qed.

Lemma root_positions pos : In pos (node_positions (kd_root t)) -> (pos < n)%nat.
Proof. rewrite (ok_leaves _ _ Hok). intros H. apply in_seq in H. apply H. Qed.

Lemma root_call :
  let '(distsq, dists) := initial_distances ROps q (kd_bbox t) 0 in
  Inv (kd_vind t) (kd_pts t) q (kd_root t) distsq dists.
Proof.
  pose proof (ok_nonempty _ _ Hok) as Hne.
  assert (Hp0 : exists p0, in_box p0 (kd_bbox t)).
  { destruct (kd_pts t) as [|p0 ps] eqn:E; [simpl in Hne; lia|]. exists p0. apply (ok_in_box _ _ Hok). rewrite E. left. reflexivity. }
  pose proof (initial_distances_spec q (kd_bbox t) 0 ltac:(rewrite (ok_bbox_len _ _ Hok); exact Hq) Hp0) as H.
  destruct (initial_distances ROps q (kd_bbox t) 0) as [s ds]. destruct H as (H1 & H2 & H3).
  split; [lra|]. split; [exact H2|].
  intros pos Hpos. apply H3, (ok_in_box _ _ Hok), nth_In, vindex_lt, root_positions, Hpos.
Qed.

Lemma items_root :
  Permutation (items (kd_vind t) (kd_pts t) q (node_positions (kd_root t))) (all_pairs t q).
Proof.
  rewrite (ok_leaves _ _ Hok). unfold items, item_at, P, all_pairs.
  rewrite <- (map_map (vindex (kd_vind t)) (fun j => (sqdist ROps q (point (kd_pts t) j), j))).
  apply Permutation_map. unfold vindex. fold n. rewrite <- vind_length, map_nth_seq, vind_length. exact (ok_vind _ _ Hok).
Qed.

(* at every call searchLevel can make during findNeighbors, mindistsq is a lower bound of the squared distance
   to every point stored under the node *)
Lemma search_lower_bound_invariant :
  let '(distsq, dists) := initial_distances ROps q (kd_bbox t) 0 in
  forall nd m d, called q (kd_root t) distsq dists nd m d ->
    m = rsum d /\
    forall pos, In pos (node_positions nd) ->
      m <= sqdist ROps q (point (kd_pts t) (vindex (kd_vind t) pos)).
Proof.
  pose proof root_call as HI. destruct (initial_distances ROps q (kd_bbox t) 0) as [s ds].
  intros nd m d Hc.
  destruct (called_Inv (kd_vind t) (kd_pts t) q dim _ _ _ _ _ _ Hq Hc (ok_splits _ _ Hok) HI) as [_ HInv].
  split; [apply HInv|]. exact (Inv_lower_bound _ _ _ _ _ _ HInv).
Qed.

(* no overflow: every squared distance is below numeric_limits::max() *)
Hypothesis Hmax : forall j, (j < length (kd_pts t))%nat -> sqdist ROps q (point (kd_pts t) j) < nmaxval ROps.

Lemma findNeighbors_post k : holds k (findNeighbors ROps t q k) (all_pairs t q).
Proof.
  rewrite findNeighbors_unfold, eps_error_one by exact (ok_nonempty _ _ Hok).
  pose proof root_call as HI. destruct (initial_distances ROps q (kd_bbox t) 0) as [s ds].
  apply (holds_perm _ _ _ _ items_root). rewrite <- (app_nil_r (items _ _ _ _)).
  apply (searchLevel_post _ _ _ _ dim Hq); [exact (ok_splits _ _ Hok)|exact HI| |apply holds_init].
  intros pos Hpos. apply Hmax, vindex_lt, root_positions, Hpos.
Qed.

(* findNearestNeighbors reports exactly the k smallest pairs, for every capacity k *)
Lemma knn_k_smallest k : k_smallest_ascending k (all_pairs t q) (knn ROps t q k).
Proof. apply holds_out, findNeighbors_post. Qed.

Lemma knn_correct k : (1 <= k)%nat -> k_smallest_ascending k (all_pairs t q) (knn ROps t q k).
Proof. intros _. apply knn_k_smallest. Qed.

(* k = 1 : the nearest-neighbour query *)
Lemma nn_correct :
  exists d i, nn ROps t q = Some (d, i) /\ (i < n)%nat /\ d = sqdist ROps q (point (kd_pts t) i) /\
              forall j, (j < n)%nat -> d <= sqdist ROps q (point (kd_pts t) j).
Proof.
  destruct (knn_k_smallest 1) as (_ & Hlen & rest & HP & Hle).
  pose proof (ok_nonempty _ _ Hok) as Hne. unfold all_pairs in Hlen. rewrite map_length, seq_length in Hlen.
  unfold nn. destruct (knn ROps t q 1) as [|[d i] [|]]; cbn [length] in Hlen; try lia.
  exists d, i. split; [reflexivity|].
  assert (Hdi : In (d, i) (all_pairs t q)) by (rewrite HP; left; reflexivity).
  apply in_all_pairs in Hdi. split; [apply Hdi|]. split; [apply Hdi|].
  intros j Hj.
  assert (Hin : In (sqdist ROps q (point (kd_pts t) j), j) (all_pairs t q)) by (apply in_all_pairs; split; [exact Hj|reflexivity]).
  rewrite HP in Hin. destruct Hin as [Hin|Hin]; [injection Hin as <- _; apply Rle_refl|].
  exact (Hle (d, i) _ (or_introl eq_refl) Hin).
Qed.

End TopLevel.

(* numeric_limits::max() is large: used by the non-vacuity examples *)
Lemma maxval_big : 1024 <= nmaxval ROps.
Proof.
  cbn [nmaxval ROps]. unfold powerRZ. change (Pos.to_nat 1023) with (10 + 1013)%nat. rewrite pow_add.
  assert (A : 1 <= 2 ^ Pos.to_nat 52) by (apply pow_R1_Rle; lra).
  assert (B : 1 <= 2 ^ 1013) by (apply pow_R1_Rle; lra).
  apply Rinv_le_contravar in A; [|lra]. rewrite Rinv_1 in A. simpl (2 ^ 10). nra.
Qed.
