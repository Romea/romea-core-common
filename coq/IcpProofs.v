(* IcpProofs.v — lemmas about coq/IcpModel.v (real-number instance): one-to-one filter, loop exit, best estimate. *)
From Coq Require Import Reals ZArith List Bool Lra Lia Sorted Permutation.
From Romea Require Import Num NumR RansacModel IcpModel RigidProofs.
Import ListNotations.
Local Open Scope R_scope.

(* one-to-one filter: std::sort by (source, distance) then std::unique on the source index.
   Stated for ANY arrangement std::sort may produce: a permutation in which no later element is
   "less" than an earlier one under the predicate. *)
Definition sorted_by_src_dist (l : list corrR) : Prop :=
  StronglySorted (fun a b => src_dist_lt ROps b a = false) l.

Definition le_sd (a b : corrR) : Prop := src_dist_lt ROps b a = false.
Definition src_lt (a b : corrR) : Prop := (c_src a < c_src b)%Z.

Lemma le_sd_iff a b : le_sd a b <-> (c_src a < c_src b)%Z \/ (c_src a = c_src b /\ c_sq a <= c_sq b).
Proof.
  unfold le_sd, src_dist_lt. cbn [nltb ROps]. rewrite orb_false_iff, andb_false_iff, Z.ltb_ge, Z.eqb_neq, Rltb_false.
  split.
  - intros [H1 [H2|H2]]; [left; lia|]. destruct (Z.eq_dec (c_src a) (c_src b)); [right; split; assumption | left; lia].
  - intros [H|[H1 H2]]; (split; [lia|]); [left; lia | right; exact H2].
Qed.

Lemma le_sd_trans a b c : le_sd a b -> le_sd b c -> le_sd a c.
Proof. rewrite !le_sd_iff. intros [H1|[H1 H1']] [H2|[H2 H2']]; [left; lia | left; lia | left; lia | right; split; [lia | lra]]. Qed.

Lemma lt_sd_le a b : src_dist_lt ROps a b = true -> le_sd a b.
Proof.
  intros H. apply le_sd_iff. unfold src_dist_lt in H. cbn [nltb ROps] in H.
  rewrite orb_true_iff, andb_true_iff, Z.ltb_lt, Z.eqb_eq, Rltb_true in H. intuition lra.
Qed.

Lemma sorted_head_min a r c :
  sorted_by_src_dist (a :: r) -> In c (a :: r) -> c_src c = c_src a -> c_sq a <= c_sq c.
Proof.
  intros Hs [<-|Hc] E; [lra|]. inversion Hs as [|? ? _ Ha]; subst. rewrite Forall_forall in Ha.
  apply (proj1 (le_sd_iff a c)) in Ha; [|exact Hc]. destruct Ha as [Ha|[_ Ha]]; [lia | exact Ha].
Qed.

Lemma unique_from_covers r : forall a c, In c r ->
  c_src c = c_src a \/ exists y, In y (unique_from (eq_src (T:=R)) a r) /\ c_src y = c_src c.
Proof.
  induction r as [|x r IH]; intros a c []; cbn [unique_from]; change (eq_src a x) with (c_src a =? c_src x)%Z;
    destruct (Z.eqb_spec (c_src a) (c_src x)) as [E|NE].
  - left. congruence.
  - right. exists x. split; [left|subst]; reflexivity.
  - now apply IH.
  - right. destruct (IH x c H) as [Ec|(y & Hy & Ec)]; [exists x | exists y]; split; auto; [left | right]; auto.
Qed.

Lemma unique_from_sorted r : forall a, sorted_by_src_dist (a :: r) ->
  StronglySorted src_lt (a :: unique_from (eq_src (T:=R)) a r).
Proof.
  induction r as [|x r IH]; intros a Hs; cbn [unique_from]; [repeat constructor|].
  inversion Hs as [|? ? Hxr Hax]; inversion Hax as [|? ? Hx Har]; subst.
  change (eq_src a x) with (c_src a =? c_src x)%Z. destruct (Z.eqb_spec (c_src a) (c_src x)) as [E|NE].
  - apply IH. constructor; [inversion Hxr; assumption | exact Har].
  - apply le_sd_iff in Hx. assert (Hlt : src_lt a x) by (unfold src_lt; lia).
    specialize (IH x Hxr). constructor; [exact IH|]. constructor; [exact Hlt|].
    inversion IH as [|? ? _ Hu]. eapply Forall_impl; [|exact Hu]. unfold src_lt in *. intros; lia.
Qed.

Lemma unique_from_min r : forall a, sorted_by_src_dist (a :: r) ->
  forall y, In y (unique_from (eq_src (T:=R)) a r) -> forall c, In c (a :: r) -> c_src c = c_src y -> c_sq y <= c_sq c.
Proof.
  induction r as [|x r IH]; intros a Hs y Hy c Hc Ec; cbn [unique_from] in Hy; [destruct Hy|].
  pose proof (unique_from_sorted _ _ Hs) as Hu. cbn [unique_from] in Hu.
  inversion Hs as [|? ? Hxr Hax]; inversion Hax as [|? ? Hx Har]; subst. apply le_sd_iff in Hx.
  change (eq_src a x) with (c_src a =? c_src x)%Z in Hy, Hu. destruct (Z.eqb_spec (c_src a) (c_src x)) as [E|NE].
  - assert (Hay : src_lt a y) by (inversion Hu as [|? ? _ F]; rewrite Forall_forall in F; now apply F).
    unfold src_lt in Hay. apply (IH a); [constructor; [inversion Hxr; assumption | exact Har] | exact Hy | | exact Ec].
    destruct Hc as [<-|[<-|Hc]]; [left; reflexivity | lia | right; exact Hc].
  - inversion Hu as [|? ? Hu' _]; subst. destruct Hy as [<-|Hy].
    + destruct Hc as [<-|Hc]; [lia | now apply (sorted_head_min x r c)].
    + assert (Hxy : src_lt x y) by (inversion Hu' as [|? ? _ F]; rewrite Forall_forall in F; now apply F).
      unfold src_lt in Hxy. destruct Hc as [<-|Hc]; [lia | now apply (IH x)].
Qed.

Lemma src_lt_sorted_nodup u : StronglySorted src_lt u -> NoDup (map c_src u).
Proof.
  induction 1 as [|a r Hs IH Hf]; cbn [map]; constructor; [|exact IH].
  intros Hin. apply in_map_iff in Hin. destruct Hin as (y & Ey & Hy).
  rewrite Forall_forall in Hf. specialize (Hf y Hy). unfold src_lt in Hf. lia.
Qed.

Lemma one_to_one_lemma (l l' : list corrR) :
  Permutation l l' -> sorted_by_src_dist l' ->
  let u := unique_by (eq_src (T:=R)) l' in
  NoDup (map c_src u) /\
  (forall c, In c l -> exists y, In y u /\ c_src y = c_src c) /\
  (forall y, In y u -> In y l /\ forall c, In c l -> c_src c = c_src y -> c_sq y <= c_sq c).
Proof.
  intros Hp Hs. cbv zeta.
  assert (Hin : forall c, In c l <-> In c l') by (intros c; split; apply Permutation_in; [|symmetry]; exact Hp).
  destruct l' as [|a r]; cbn [unique_by].
  - split; [constructor|]. split; [intros c Hc; destruct (proj1 (Hin c) Hc) | intros y []].
  - split; [apply src_lt_sorted_nodup, unique_from_sorted, Hs|]. split.
    + intros c Hc. apply Hin in Hc. destruct Hc as [<-|Hc]; [exists a; split; [left|]; reflexivity|].
      destruct (unique_from_covers r a c Hc) as [E|(y & Hy & E)]; [exists a | exists y]; split; auto; [left | right]; auto.
    + intros y Hy. split; [apply Hin; destruct Hy as [<-|Hy]; [left; reflexivity | right; now apply unique_from_incl in Hy]|].
      intros c Hc Ec. apply Hin in Hc. destruct Hy as [<-|Hy]; [now apply (sorted_head_min a r c) | now apply (unique_from_min r a Hs y Hy c)].
Qed.

Notation outcomeR := (icp_outcome R).

(* previousEstimatedTransformation after the outcomes [done] (none of which broke the loop) *)
Definition last_ok (id : list R) (done : list outcomeR) : list R :=
  fold_left (fun m o => if io_ok o then io_M o else m) done id.

(* the break test of iteration o, the outcomes [pre] having been processed before it *)
Definition breaks (eps : R) (id : list R) (pre : list outcomeR) (o : outcomeR) : Prop :=
  io_ok o = true /\ mat_absdiff ROps (io_M o) (last_ok id pre) < eps.

(* none of the iterations [l], run after [done], meets the break test *)
Definition no_break (eps : R) (id : list R) (done l : list outcomeR) : Prop :=
  forall pre o post, l = pre ++ o :: post -> ~ breaks eps id (done ++ pre) o.

Lemma last_ok_snoc id done o : last_ok id (done ++ [o]) = if io_ok o then io_M o else last_ok id done.
Proof. unfold last_ok. rewrite fold_left_app. reflexivity. Qed.

Lemma no_break_nil eps id done : no_break eps id done [].
Proof. intros [|? ?] ? ? E; discriminate E. Qed.

Lemma no_break_cons eps id done o l :
  ~ breaks eps id done o -> no_break eps id (done ++ [o]) l -> no_break eps id done (o :: l).
Proof.
  intros Ho Hl [|p pre] o' post E; injection E as -> ->.
  - rewrite app_nil_r. exact Ho.
  - rewrite (app_cons_assoc done p pre). exact (Hl pre o' post eq_refl).
Qed.

(* the best estimate: minimal rmse among the successful iterations [done], attained at the recorded one *)
Definition best_ok (st : icp_state R) (done : list outcomeR) : Prop :=
  (forall o, In o done -> io_ok o = true -> is_best_rmse st <= io_rmse o) /\
  match is_best st with
  | None => is_best_rmse st = nmaxval ROps
  | Some k => exists o, nth_error done (Z.to_nat k) = Some o /\ io_ok o = true /\ io_rmse o = is_best_rmse st
  end.

Lemma best_ok_keep st done o :
  best_ok st done -> (io_ok o = true -> is_best_rmse st <= io_rmse o) -> best_ok st (done ++ [o]).
Proof.
  intros [Hmin Hb] Ho. split.
  - intros o' Hin Hok'. apply in_app_or in Hin. destruct Hin as [Hin|[<-|[]]]; auto.
  - destruct (is_best st) as [k|]; [|exact Hb]. destruct Hb as (o' & Hn & Hb).
    exists o'. split; [|exact Hb]. rewrite nth_error_app1; [exact Hn|]. apply nth_error_Some. congruence.
Qed.

Lemma best_ok_new st done o prev :
  best_ok st done -> io_ok o = true -> io_rmse o < is_best_rmse st ->
  best_ok (mkIcpState (Some (Z.of_nat (length done))) (io_rmse o) prev) (done ++ [o]).
Proof.
  intros [Hmin _] Hok Hlt. split; cbn [is_best is_best_rmse].
  - intros o' Hin Hok'. apply in_app_or in Hin. destruct Hin as [Hin|[<-|[]]]; [|lra].
    specialize (Hmin o' Hin Hok'). lra.
  - exists o. rewrite Nat2Z.id, nth_error_app2, Nat.sub_diag by lia. auto.
Qed.

(* one iteration: either its break test is met and the loop returns, or the loop goes on from a state that again
   holds the last successful matrix; the best estimate covers the iteration in both cases *)
Lemma icp_iter eps id f st o os done :
  is_prev st = last_ok id done -> best_ok st done ->
  let n := Z.of_nat (length done) in
  exists st', best_ok st' (done ++ [o]) /\
    (breaks eps id done o /\ icp_loop ROps eps (S f) n st (o :: os) = Some (mkIcpResult true n st') \/
     ~ breaks eps id done o /\ is_prev st' = last_ok id (done ++ [o]) /\
     icp_loop ROps eps (S f) n st (o :: os) = icp_loop ROps eps f (Z.of_nat (length (done ++ [o]))) st' os).
Proof.
  intros Hp Hb n. cbn [icp_loop]. unfold breaks. rewrite last_ok_snoc, <- Hp.
  replace (Z.of_nat (length (done ++ [o]))) with (n + 1)%Z by (rewrite app_length; cbn [length]; lia).
  destruct (io_ok o) eqn:Hok.
  - unfold icp_step. cbn [nltb ROps].
    assert (Hb' : best_ok (if Rltb (io_rmse o) (is_best_rmse st)
                           then mkIcpState (Some n) (io_rmse o) (is_prev st) else st) (done ++ [o])).
    { destruct (Rltb (io_rmse o) (is_best_rmse st)) eqn:E.
      - apply Rltb_true in E. now apply (best_ok_new st).
      - apply Rltb_false in E. apply best_ok_keep; auto. }
    destruct (Rltb (mat_absdiff ROps (io_M o) (is_prev st)) eps) eqn:Ed.
    + apply Rltb_true in Ed. eexists. split; [exact Hb'|]. left. auto.
    + apply Rltb_false in Ed. eexists. split; [|right; split; [intros [_ X]; lra | split; [|reflexivity]]].
      * exact Hb'.
      * reflexivity.
  - exists st. split; [apply best_ok_keep; [exact Hb | congruence]|].
    right. split; [intros [X _]; discriminate | split; reflexivity].
Qed.

Lemma icp_loop_spec eps id fuel : forall st os r done,
  icp_loop ROps eps fuel (Z.of_nat (length done)) st os = Some r ->
  is_prev st = last_ok id done -> best_ok st done ->
  exists ran rest, os = ran ++ rest /\ best_ok (ir_state r) (done ++ ran) /\
    if ir_found r
    then exists pre o, ran = pre ++ [o] /\ (length pre < fuel)%nat /\ ir_n r = Z.of_nat (length (done ++ pre)) /\
                       breaks eps id (done ++ pre) o /\ no_break eps id done pre
    else length ran = fuel /\ ir_n r = Z.of_nat (length (done ++ ran)) /\ no_break eps id done ran.
Proof.
  induction fuel as [|f IH]; intros st os r done H Hp Hb.
  - inversion H; subst; clear H. exists [], os. cbn [ir_found ir_state ir_n app length]. rewrite app_nil_r.
    auto using no_break_nil.
  - destruct os as [|o os]; [discriminate|].
    destruct (icp_iter eps id f st o os done Hp Hb) as (st' & Hb' & [[Hbr E]|(Hnb & Hp' & E)]); rewrite E in H.
    + inversion H; subst; clear H. exists [o], os. cbn [ir_found ir_state ir_n]. split; [reflexivity|]. split; [exact Hb'|].
      exists [], o. rewrite app_nil_r. cbn [length]. repeat split; try apply Hbr; try lia. apply no_break_nil.
    + destruct (IH _ _ _ _ H Hp' Hb') as (ran & rest & -> & Hb'' & Hcase). exists (o :: ran), rest.
      rewrite (app_cons_assoc done o ran). split; [reflexivity|]. split; [exact Hb''|].
      destruct (ir_found r).
      * destruct Hcase as (pre & o' & -> & Hl & Hn & Hbr & Hnb'). exists (o :: pre), o'.
        rewrite (app_cons_assoc done o pre). cbn [length]. repeat split; try apply Hbr; try lia. now apply no_break_cons.
      * destruct Hcase as (Hl & Hn & Hnb'). cbn [length]. repeat split; try lia. now apply no_break_cons.
Qed.

Lemma app_eq_prefix {A} (pre : list A) o post : forall ran rest,
  pre ++ o :: post = ran ++ rest -> (length pre < length ran)%nat -> exists post', ran = pre ++ o :: post'.
Proof.
  induction pre as [|p pre IH]; intros [|x ran] rest E Hl; cbn [length app] in *; try lia; inversion E; subst.
  - eexists; reflexivity.
  - destruct (IH ran rest H1 ltac:(lia)) as [post' ->]. eexists; reflexivity.
Qed.

Lemma icp_run_ran eps maxit id os r :
  icp_run ROps eps maxit id os = Some r ->
  exists ran rest, os = ran ++ rest /\ best_ok (ir_state r) ran /\
    if ir_found r
    then exists pre o, ran = pre ++ [o] /\ (length pre < Z.to_nat maxit)%nat /\ ir_n r = Z.of_nat (length pre) /\
                       breaks eps id pre o /\ no_break eps id [] pre
    else length ran = Z.to_nat maxit /\ ir_n r = Z.of_nat (length ran) /\ no_break eps id [] ran.
Proof.
  intros H. apply (icp_loop_spec eps id _ _ _ _ [] H eq_refl). split; [intros o []|reflexivity].
Qed.

Lemma icp_run_spec eps maxit id os r :
  (0 <= maxit)%Z -> icp_run ROps eps maxit id os = Some r ->
  (ir_found r = true <->
     exists pre o post, os = pre ++ o :: post /\ (Z.of_nat (length pre) < maxit)%Z /\ breaks eps id pre o) /\
  (ir_found r = true ->
     exists pre o post, os = pre ++ o :: post /\ ir_n r = Z.of_nat (length pre) /\ (ir_n r < maxit)%Z /\
       breaks eps id pre o /\ forall pre1 o1 post1, pre = pre1 ++ o1 :: post1 -> ~ breaks eps id pre1 o1) /\
  (ir_found r = false -> ir_n r = maxit).
Proof.
  intros Hm H. destruct (icp_run_ran eps maxit id os r H) as (ran & rest & -> & _ & Hcase). destruct (ir_found r).
  - destruct Hcase as (pre & o & -> & Hl & Hn & Hbr & Hnb). rewrite <- app_assoc. cbn [app].
    split; [split; [intros _|reflexivity] | split; [intros _|discriminate]]; exists pre, o, rest.
    + split; [reflexivity|]. split; [lia | exact Hbr].
    + split; [reflexivity|]. split; [exact Hn|]. split; [lia|]. split; [exact Hbr | exact Hnb].
  - destruct Hcase as (Hl & Hn & Hnb). split; [|split; [discriminate | intros _; lia]].
    split; [discriminate|]. intros (pre & o & post & E & Hlp & Hbr). exfalso.
    destruct (app_eq_prefix pre o post ran rest (eq_sym E) ltac:(lia)) as [post' ->]. exact (Hnb pre o post' eq_refl Hbr).
Qed.
