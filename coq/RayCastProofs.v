(* RayCastProofs.v — C14: the walk performed by cast() over exact (real) arithmetic, proved once for any invariant of
   its states under which the crossing parameters that next() compares stay below numeric_limits::max(). *)
From Coq Require Import Reals ZArith List Bool Arith Lia Lra.
From Flocq Require Import Core.Raux.
From Romea Require Import Num NumR GridMapModel RayCastModel.
Import ListNotations.

Lemma upd_length {A} (l : list A) i f : length (upd l i f) = length l.
Proof. revert i. induction l as [|x l IH]; intros [|i]; cbn; auto. Qed.

Lemma nth_upd_same {A} (l : list A) i f d : i < length l -> nth i (upd l i f) d = f (nth i l d).
Proof. revert i. induction l as [|x l IH]; intros [|i] H; cbn in *; try lia; auto. apply IH. lia. Qed.

Lemma nth_upd_other {A} (l : list A) i j f d : i <> j -> nth j (upd l i f) d = nth j l d.
Proof. revert i j. induction l as [|x l IH]; intros [|i] [|j] H; cbn; try reflexivity; try lia. apply IH. lia. Qed.

Lemma below_2 (P : nat -> Prop) : P 0 -> P 1 -> forall i, i < 2 -> P i.
Proof. intros P0 P1 [|[|i]] Hi; [exact P0|exact P1|lia]. Qed.

Lemma below_3 (P : nat -> Prop) : P 0 -> P 1 -> P 2 -> forall i, i < 3 -> P i.
Proof. intros P0 P1 P2 [|[|[|i]]] Hi; [exact P0|exact P1|exact P2|lia]. Qed.

Definition M : R := nmaxval ROps.

Lemma pick_min d (l : list R) : (d = 2 \/ d = 3) -> length l = d ->
  pick ROps l < d /\ forall k, k < d -> (nth (pick ROps l) l 0 <= nth k l 0)%R.
Proof.
  intros [-> | ->] L.
  - destruct l as [|t0 [|t1 [|]]]; try discriminate. cbn [pick nltb ROps]. unfold Rltb.
    destruct (Rlt_dec t0 t1); (split; [lia|]); intros [|[|k]] Hk; cbn [nth]; lra || lia.
  - destruct l as [|t0 [|t1 [|t2 [|]]]]; try discriminate. cbn [pick nltb ROps]. unfold Rltb.
    destruct (Rlt_dec t0 t1), (Rlt_dec t0 t2), (Rlt_dec t1 t2); (split; [lia|]);
      intros [|[|[|k]]] Hk; cbn [nth]; lra || lia.
Qed.

Lemma nth_eff_tmax : forall cell e tmax i, i < length cell -> length e = length cell -> length tmax = length cell ->
  nth i (eff_tmax ROps cell e tmax) 0%R = if Z.eqb (nth i cell 0%Z) (nth i e 0%Z) then M else nth i tmax 0%R.
Proof.
  unfold eff_tmax. induction cell as [|c cell IH]; intros [|x e] [|t tmax] [|i] Hi Le Lt;
    cbn [combine map nth length] in *; try lia; [reflexivity|]. apply IH; lia.
Qed.

(* The axis next() advances is live (its index differs from the end index) and its crossing parameter is least among
   the live ones: a finished axis counts as max(), and some live axis has a parameter below max(). *)
Lemma pick_live_min d cell e tmax : (d = 2 \/ d = 3) ->
  length cell = d -> length e = d -> length tmax = d ->
  (forall i, i < d -> nth i cell 0%Z <> nth i e 0%Z -> (nth i tmax 0%R < M)%R) ->
  (exists j, j < d /\ nth j cell 0%Z <> nth j e 0%Z) ->
  let i := pick ROps (eff_tmax ROps cell e tmax) in
  i < d /\ nth i cell 0%Z <> nth i e 0%Z /\
  forall k, k < d -> nth k cell 0%Z <> nth k e 0%Z -> (nth i tmax 0 <= nth k tmax 0)%R.
Proof.
  intros Hd Lc Le Lt Hfin [j [Hj Hne]] i.
  destruct (pick_min d (eff_tmax ROps cell e tmax) Hd) as [Hi Hmin].
  { unfold eff_tmax. rewrite map_length, !combine_length. lia. }
  fold i in Hi, Hmin.
  assert (E : forall k, k < d -> nth k (eff_tmax ROps cell e tmax) 0%R
                               = if Z.eqb (nth k cell 0%Z) (nth k e 0%Z) then M else nth k tmax 0%R)
    by (intros; apply nth_eff_tmax; lia).
  assert (Hlive : nth i cell 0%Z <> nth i e 0%Z).
  { intros Eq. specialize (Hmin j Hj). rewrite !E in Hmin by assumption.
    rewrite (proj2 (Z.eqb_eq _ _) Eq), (proj2 (Z.eqb_neq _ _) Hne) in Hmin. specialize (Hfin j Hj Hne). lra. }
  split; [exact Hi|]. split; [exact Hlive|]. intros k Hk Hk'. specialize (Hmin k Hk). rewrite !E in Hmin by assumption.
  rewrite (proj2 (Z.eqb_neq _ _) Hlive), (proj2 (Z.eqb_neq _ _) Hk') in Hmin. exact Hmin.
Qed.

Fixpoint sumf (n : nat) (f : nat -> Z) : Z := match n with O => 0%Z | S k => (sumf k f + f k)%Z end.

Lemma sumf_ext n f g : (forall i, i < n -> f i = g i) -> sumf n f = sumf n g.
Proof. induction n as [|n IH]; intros H; cbn; [reflexivity|]. rewrite IH by (intros; apply H; lia). rewrite H by lia. reflexivity. Qed.

Lemma sumf_change n f g k : k < n -> (forall i, i < n -> i <> k -> f i = g i) ->
  (sumf n g = sumf n f - f k + g k)%Z.
Proof.
  induction n as [|n IH]; intros Hk H; [lia|]. cbn. destruct (Nat.eq_dec k n) as [->|Hne].
  - rewrite (sumf_ext n f g) by (intros; apply H; lia). lia.
  - rewrite IH by (try lia; intros; apply H; lia). rewrite (H n) by lia. lia.
Qed.

Lemma sumf_nonneg n f : (forall i, i < n -> (0 <= f i)%Z) -> (0 <= sumf n f)%Z.
Proof. induction n as [|n IH]; intros H; cbn; [lia|]. specialize (H n ltac:(lia)) as Hn. assert (0 <= sumf n f)%Z by (apply IH; intros; apply H; lia). lia. Qed.

Lemma sumf_pos_ex n f : (forall i, i < n -> (0 <= f i)%Z) -> (0 < sumf n f)%Z -> exists j, j < n /\ (0 < f j)%Z.
Proof.
  induction n as [|n IH]; intros H Hp; cbn in Hp; [lia|].
  destruct (Z_lt_le_dec 0 (f n)) as [P|P]; [exists n; split; [lia|exact P]|].
  destruct IH as [j [Hj Hf]]; [intros; apply H; lia|specialize (H n ltac:(lia)); lia|]. exists j. split; [lia|exact Hf].
Qed.

Lemma sumf_term_le n f i : (forall j, j < n -> (0 <= f j)%Z) -> i < n -> (f i <= sumf n f)%Z.
Proof.
  induction n as [|n IH]; intros H Hi; [lia|]. cbn.
  pose proof (sumf_nonneg n f ltac:(intros; apply H; lia)). pose proof (H n ltac:(lia)).
  destruct (Nat.eq_dec i n) as [->|Hne]; [lia|]. specialize (IH ltac:(intros; apply H; lia) ltac:(lia)). lia.
Qed.

Lemma last_default {A} (l : list A) x d d' : last (x :: l) d = last (x :: l) d'.
Proof. revert x. induction l as [|y l IH]; intros x; [reflexivity|]. cbn [last] in *. apply IH. Qed.

Lemma last_cons_default {A} (l : list A) x d : last (x :: l) d = last l x.
Proof. destruct l as [|a l]; [reflexivity|]. change (last (x :: a :: l) d) with (last (a :: l) d). apply last_default. Qed.

Lemma iter_cast_last {T} (N : NumOps T) : forall n eidx step tdelta st,
  last (iter_cast N n eidx step tdelta st) (fst st) = fst (iter_state N n eidx step tdelta st).
Proof.
  induction n as [|n IH]; intros eidx step tdelta st; cbn [iter_cast iter_state]; [reflexivity|].
  rewrite last_cons_default. apply IH.
Qed.

Lemma sumf_shift n f : sumf (S n) f = (f O + sumf n (fun i => f (S i)))%Z.
Proof. induction n as [|n IH]; [cbn; lia|]. change (sumf (S (S n)) f) with (sumf (S n) f + f (S n))%Z. rewrite IH. cbn. lia. Qed.

(* the left-to-right sum of computeRayNumberOfCells, as a sum over the axes *)
Lemma fold_abs_sumf : forall (e o : list Z) a, length o = length e ->
  fold_left (fun s '(x, y) => (s + Z.abs (x - y))%Z) (combine e o) a
  = (a + sumf (length e) (fun i => Z.abs (nth i e 0 - nth i o 0)))%Z.
Proof.
  induction e as [|x e IH]; intros [|y o] a Lo; try discriminate Lo; [cbn; lia|].
  cbn [combine fold_left length]. rewrite IH by (injection Lo; auto). rewrite sumf_shift. cbn [nth]. lia.
Qed.

Section Walk.
Variable d : nat.
Variables (eidx step : list Z) (tdelta : list R).

Definition remaining (cell : list Z) (i : nat) : Z := Z.abs (nth i eidx 0 - nth i cell 0)%Z.

Definition potential (cell : list Z) : Z := sumf d (remaining cell).

Definition live (cell : list Z) (i : nat) : Prop := nth i cell 0%Z <> nth i eidx 0%Z.

(* a state (cell indexes, crossing parameters) in which the step of every axis points to the end index *)
Definition shape (st : list Z * list R) : Prop :=
  length (fst st) = d /\ length (snd st) = d /\
  forall i, i < d -> (nth i eidx 0 - nth i (fst st) 0 = nth i step 0 * remaining (fst st) i)%Z.

Definition advance (st : list Z * list R) (j : nat) : list Z * list R :=
  (upd (fst st) j (fun v => (v + nth j step 0)%Z), upd (snd st) j (fun t => (t + nth j tdelta 0)%R)).

Definition minimal_live (st : list Z * list R) (j : nat) : Prop :=
  j < d /\ live (fst st) j /\ forall k, k < d -> live (fst st) k -> (nth j (snd st) 0 <= nth k (snd st) 0)%R.

Lemma potential_live cell : (0 < potential cell)%Z -> exists j, j < d /\ live cell j.
Proof.
  intros H. destruct (sumf_pos_ex d (remaining cell)) as [j [Hj Hr]]; [intros; unfold remaining; lia|exact H|].
  exists j. split; [exact Hj|]. unfold live. unfold remaining in Hr. lia.
Qed.

Lemma nth_advance_same st j : length (fst st) = d -> length (snd st) = d -> j < d ->
  nth j (fst (advance st j)) 0%Z = (nth j (fst st) 0 + nth j step 0)%Z /\
  nth j (snd (advance st j)) 0%R = (nth j (snd st) 0 + nth j tdelta 0)%R.
Proof. intros Lc Lt Hj. cbn [advance fst snd]. rewrite !nth_upd_same by lia. split; reflexivity. Qed.

Lemma nth_advance_other st j k : k <> j ->
  nth k (fst (advance st j)) 0%Z = nth k (fst st) 0%Z /\ nth k (snd (advance st j)) 0%R = nth k (snd st) 0%R.
Proof. intros Hk. cbn [advance fst snd]. rewrite !nth_upd_other by lia. split; reflexivity. Qed.

Lemma live_step st j : shape st -> j < d -> live (fst st) j ->
  (nth j step 0 = 1 /\ nth j (fst st) 0 < nth j eidx 0)%Z \/ (nth j step 0 = -1 /\ nth j eidx 0 < nth j (fst st) 0)%Z.
Proof. intros (_ & _ & Hs) Hj Hl. specialize (Hs j Hj). unfold live, remaining in *. nia. Qed.

Lemma remaining_advance st j : shape st -> j < d -> live (fst st) j ->
  remaining (fst (advance st j)) j = (remaining (fst st) j - 1)%Z /\
  forall k, k <> j -> remaining (fst (advance st j)) k = remaining (fst st) k.
Proof.
  intros S Hj Hl. pose proof S as (Lc & Lt & _). unfold remaining. split.
  - rewrite (proj1 (nth_advance_same st j Lc Lt Hj)). destruct (live_step st j S Hj Hl); lia.
  - intros k Hk. rewrite (proj1 (nth_advance_other st j k Hk)). reflexivity.
Qed.

Definition adjacent (a b : list Z) : Prop :=
  exists i, i < d /\ (nth i b 0 = nth i a 0 + 1 \/ nth i b 0 = nth i a 0 - 1)%Z /\ forall j, j <> i -> nth j b 0%Z = nth j a 0%Z.

Fixpoint chain (prev : list Z) (l : list (list Z)) : Prop :=
  match l with [] => True | c :: r => adjacent prev c /\ chain c r end.

(* advancing a live axis keeps the shape, lowers the potential by one, and moves to a face-adjacent cell that is
   no farther from the end cell in any coordinate *)
Lemma advance_live st j : shape st -> j < d -> live (fst st) j ->
  shape (advance st j) /\ potential (fst (advance st j)) = (potential (fst st) - 1)%Z /\
  adjacent (fst st) (fst (advance st j)) /\
  forall i, i < d -> (Z.min (nth i (fst st) 0) (nth i eidx 0) <= nth i (fst (advance st j)) 0
                      <= Z.max (nth i (fst st) 0) (nth i eidx 0))%Z.
Proof.
  intros S Hj Hl. pose proof S as (Lc & Lt & Hs).
  destruct (remaining_advance st j S Hj Hl) as [Rj Ro]. pose proof (live_step st j S Hj Hl) as Hst.
  pose proof (proj1 (nth_advance_same st j Lc Lt Hj)) as Nj.
  assert (No : forall k, k <> j -> nth k (fst (advance st j)) 0%Z = nth k (fst st) 0%Z)
    by (intros k Hk; apply nth_advance_other; exact Hk).
  split; [|split; [|split]].
  - split; [|split]; [cbn [advance fst]; rewrite upd_length; exact Lc|cbn [advance snd]; rewrite upd_length; exact Lt|].
    intros k Hk. destruct (Nat.eq_dec k j) as [->|Hkj].
    + rewrite Rj, Nj. unfold remaining. lia.
    + rewrite Ro, No by exact Hkj. apply Hs. exact Hk.
  - unfold potential. rewrite (sumf_change d (remaining (fst st)) _ j Hj) by (intros k _ Hk; symmetry; apply Ro; exact Hk).
    rewrite Rj. lia.
  - exists j. split; [exact Hj|]. split; [lia|exact No].
  - intros i Hi. destruct (Nat.eq_dec i j) as [->|Hij]; [lia|]. rewrite No by exact Hij. lia.
Qed.

(* what the theorems say of the cells cast() returns: L1 distance + 1 of them, from the origin cell to the end cell by
   face-adjacent steps, inside the index box spanned by the two, each satisfying Q *)
Definition cast_visits (c : caster (T:=R)) (Q : list Z -> Prop) : Prop :=
  let cells := cast_cells ROps c in
  let l1 := sumf d (fun i => Z.abs (nth i (rc_eidx c) 0 - nth i (rc_oidx c) 0)%Z) in
  Z.of_nat (length cells) = (l1 + 1)%Z /\
  hd [] cells = rc_oidx c /\
  last cells [] = rc_eidx c /\
  chain (rc_oidx c) (tl cells) /\
  Forall (fun cl => forall i, i < d ->
            (Z.min (nth i (rc_oidx c) 0) (nth i (rc_eidx c) 0) <= nth i cl 0 <= Z.max (nth i (rc_oidx c) 0) (nth i (rc_eidx c) 0))%Z) cells /\
  Forall Q cells.

(* The invariant of C14_cast_walk: what each live axis' crossing parameter will be after its last step is at most
   B < max().  It can be combined with any further invariant J. *)
Definition bounded (B : R) (st : list Z * list R) : Prop :=
  forall i, i < d -> (0 < remaining (fst st) i)%Z ->
    (nth i (snd st) 0 + IZR (remaining (fst st) i) * nth i tdelta 0 <= B)%R.

Lemma bounded_advance B st j : bounded B st -> shape st -> j < d -> live (fst st) j -> bounded B (advance st j).
Proof.
  intros Hb S Hj Hl k Hk. pose proof S as (Lc & Lt & _). destruct (remaining_advance st j S Hj Hl) as [Rj Ro].
  destruct (Nat.eq_dec k j) as [->|Hkj].
  - rewrite Rj, (proj2 (nth_advance_same st j Lc Lt Hj)). intros Hr. specialize (Hb j Hj ltac:(lia)).
    rewrite minus_IZR. lra.
  - rewrite Ro, (proj2 (nth_advance_other st j k Hkj)) by exact Hkj. apply Hb. exact Hk.
Qed.

Hypothesis Le : length eidx = d.

Lemma potential_zero cell : length cell = d -> potential cell = 0%Z -> cell = eidx.
Proof.
  intros Lc H. apply nth_ext with (d := 0%Z) (d' := 0%Z); [lia|]. intros i Hi. rewrite Lc in Hi.
  pose proof (sumf_term_le d (remaining cell) i ltac:(intros; unfold remaining; lia) Hi) as Z0.
  unfold potential in H. rewrite H in Z0. unfold remaining in Z0. lia.
Qed.

Hypothesis Hd : d = 2 \/ d = 3.

(* next() advances a live axis whose crossing parameter is least among the live ones, as long as those are below max() *)
Lemma next_minimal_live st : shape st -> (0 < potential (fst st))%Z ->
  (forall i, i < d -> live (fst st) i -> (nth i (snd st) 0 < M)%R) ->
  exists j, minimal_live st j /\ next ROps eidx step tdelta st = advance st j.
Proof.
  destruct st as [cell tmax]. intros (Lc & Lt & _) Hpot Hfin. cbn [fst snd] in *.
  exists (pick ROps (eff_tmax ROps cell eidx tmax)). split; [|reflexivity].
  exact (pick_live_min d cell eidx tmax Hd Lc Le Lt Hfin (potential_live cell Hpot)).
Qed.

(* The walk, for any invariant of the states that keeps the crossing parameters of the live axes below max() and
   survives advancing a live axis of least parameter. *)
Section Invariant.
Variable Inv : list Z * list R -> Prop.
Hypothesis Inv_lt_M : forall st i, Inv st -> shape st -> i < d -> live (fst st) i -> (nth i (snd st) 0 < M)%R.
Hypothesis Inv_advance : forall st j, Inv st -> shape st -> minimal_live st j -> Inv (advance st j).

Lemma walk : forall n st, Inv st -> shape st -> potential (fst st) = Z.of_nat n ->
  length (iter_cast ROps n eidx step tdelta st) = n /\
  chain (fst st) (iter_cast ROps n eidx step tdelta st) /\
  Forall (fun c => (exists tm, Inv (c, tm)) /\
                   forall i, i < d -> (Z.min (nth i (fst st) 0) (nth i eidx 0) <= nth i c 0
                                       <= Z.max (nth i (fst st) 0) (nth i eidx 0))%Z)
         (iter_cast ROps n eidx step tdelta st) /\
  fst (iter_state ROps n eidx step tdelta st) = eidx.
Proof.
  induction n as [|n IH]; intros st I S Hpot; cbn [iter_cast iter_state].
  - repeat split; try constructor. apply potential_zero; [apply S|exact Hpot].
  - destruct (next_minimal_live st S ltac:(lia) (fun i Hi Hl => Inv_lt_M st i I S Hi Hl)) as (j & Hj & ->).
    pose proof Hj as (Hjd & Hjl & _).
    destruct (advance_live st j S Hjd Hjl) as (S' & Hpot' & Hadj & Hbox).
    pose proof (Inv_advance st j I S Hj) as I'.
    destruct (IH _ I' S' ltac:(lia)) as (L & C & F & E).
    split; [cbn [length]; lia|]. split; [split; assumption|]. split; [|exact E].
    constructor.
    + split; [exists (snd (advance st j)); exact I'|exact Hbox].
    + eapply Forall_impl; [|exact F]. cbn beta. intros c [Hc1 Hc2]. split; [exact Hc1|].
      intros i Hi. specialize (Hc2 i Hi). specialize (Hbox i Hi). lia.
Qed.

Theorem cast_walk_inv (c : caster (T:=R)) :
  rc_eidx c = eidx -> rc_step c = step -> rc_tdelta c = tdelta ->
  shape (rc_oidx c, rc_tmax c) -> Inv (rc_oidx c, rc_tmax c) ->
  cast_visits c (fun cl => exists tm, Inv (cl, tm)).
Proof.
  intros Ee Es Ed S I. pose proof S as (Lo & _). cbn [fst] in Lo.
  assert (Hn : ncells c = (potential (rc_oidx c) + 1)%Z).
  { unfold ncells. rewrite Ee, fold_abs_sumf, Le by lia. reflexivity. }
  assert (Hp : (0 <= potential (rc_oidx c))%Z) by (apply sumf_nonneg; intros; unfold remaining; lia).
  destruct (walk (Z.to_nat (ncells c - 1)) (rc_oidx c, rc_tmax c) I S ltac:(cbn [fst]; lia)) as (L & C & F & E).
  unfold cast_visits, cast_cells. rewrite Ee, Es, Ed. cbn [hd tl length fst] in *.
  split; [rewrite L; fold (remaining (rc_oidx c)); fold (potential (rc_oidx c)); lia|].
  split; [reflexivity|]. split; [|split; [exact C|split]].
  - rewrite last_cons_default, iter_cast_last. exact E.
  - constructor; [intros; lia|]. eapply Forall_impl; [|exact F]. intros cl Hc. apply Hc.
  - constructor; [exists (rc_tmax c); exact I|]. eapply Forall_impl; [|exact F]. intros cl Hc. apply Hc.
Qed.
End Invariant.

Theorem cast_walk_bounded (J : list Z * list R -> Prop) (B : R) (c : caster (T:=R)) :
  (B < M)%R -> (forall i, i < d -> (0 <= nth i tdelta 0)%R) ->
  (forall st j, J st -> shape st -> minimal_live st j -> J (advance st j)) ->
  rc_eidx c = eidx -> rc_step c = step -> rc_tdelta c = tdelta ->
  shape (rc_oidx c, rc_tmax c) -> bounded B (rc_oidx c, rc_tmax c) -> J (rc_oidx c, rc_tmax c) ->
  cast_visits c (fun cl => exists tm, J (cl, tm)).
Proof.
  intros HB Hdelta HJ Ee Es Ed S Hb Hj.
  destruct (cast_walk_inv (fun st => bounded B st /\ J st)) with (c := c) as (A1 & A2 & A3 & A4 & A5 & A6);
    try assumption.
  - intros st i [Hbs _] _ Hi Hl. assert (Hr : (0 < remaining (fst st) i)%Z) by (unfold live, remaining in *; lia).
    specialize (Hbs i Hi Hr). specialize (Hdelta i Hi).
    assert (0 <= IZR (remaining (fst st) i) * nth i tdelta 0)%R by (apply Rmult_le_pos; [apply IZR_le; lia|exact Hdelta]).
    lra.
  - intros st j [Hbs Hjs] S' Hm. split; [apply bounded_advance; assumption || apply Hm|apply HJ; assumption].
  - split; assumption.
  - repeat (split; [assumption|]). eapply Forall_impl; [|exact A6]. intros cl (tm & _ & Hc). exists tm. exact Hc.
Qed.
End Walk.

Local Open Scope R_scope.

Lemma axis_setup_step (a : axis (T:=R)) o oi dir :
  let st := fst (fst (axis_setup ROps a o oi dir)) in st = 1%Z \/ st = (-1)%Z \/ st = 0%Z.
Proof.
  cbv zeta. unfold axis_setup. destruct (nltb ROps (nzero ROps) dir); [cbn [Z.eqb fst]; auto|].
  destruct (nltb ROps dir (nzero ROps)); cbn [Z.eqb fst]; auto.
Qed.

Lemma gm_index_mono r org p q : 0 < r -> p <= q -> (gm_index ROps r org p <= gm_index ROps r org q)%Z.
Proof.
  intros Hr Hpq. unfold gm_index. cbn [ntruncZ ndiv nsub ROps]. apply Ztrunc_le.
  apply Rmult_le_compat_r; [left; apply Rinv_0_lt_compat; exact Hr|lra].
Qed.

(* the step chosen from the sign of the direction points from the origin index to the end index *)
Lemma axis_step_consistent (a : axis (T:=R)) o e range oi :
  0 < ax_r a -> 0 < range ->
  let step := fst (fst (axis_setup ROps a o oi ((e - o) / range))) in
  let ei := gm_index ROps (ax_r a) (ax_org a) e in
  let oi' := gm_index ROps (ax_r a) (ax_org a) o in
  (ei - oi' = step * Z.abs (ei - oi'))%Z.
Proof.
  intros Hr Hrange. cbv zeta. unfold axis_setup. cbn [nltb nzero ROps].
  assert (Hinv : 0 < / range) by (apply Rinv_0_lt_compat; exact Hrange).
  destruct (Rltb 0 ((e - o) / range)) eqn:E1.
  - apply Rltb_true in E1. cbn [Z.eqb fst]. assert (o <= e) by (unfold Rdiv in E1; nra).
    pose proof (gm_index_mono (ax_r a) (ax_org a) o e Hr H). lia.
  - apply Rltb_false in E1. destruct (Rltb ((e - o) / range) 0) eqn:E2.
    + apply Rltb_true in E2. cbn [Z.eqb fst]. assert (e <= o) by (unfold Rdiv in E2; nra).
      pose proof (gm_index_mono (ax_r a) (ax_org a) e o Hr H). lia.
    + apply Rltb_false in E2. cbn [Z.eqb fst]. assert (e = o) by (unfold Rdiv in *; nra). subst e. lia.
Qed.

Lemma axis_tdelta_nonneg (a : axis (T:=R)) o oi dir : 0 < ax_r a -> 0 < M ->
  0 <= snd (axis_setup ROps a o oi dir).
Proof.
  intros Hr HM. unfold axis_setup. cbn [nltb nzero ROps].
  destruct (Rltb 0 dir) eqn:E1; [apply Rltb_true in E1|apply Rltb_false in E1; destruct (Rltb dir 0) eqn:E2;
     [apply Rltb_true in E2|apply Rltb_false in E2]]; cbn [Z.eqb snd ndiv nabs ROps]; fold M; try lra.
  - apply Rmult_le_pos; [lra|]. left. apply Rinv_0_lt_compat. apply Rabs_pos_lt. lra.
  - apply Rmult_le_pos; [lra|]. left. apply Rinv_0_lt_compat. apply Rabs_pos_lt. lra.
Qed.

Lemma M_big : 10000 < M.
Proof.
  unfold M. cbn [nmaxval ROps].
  assert (A : 16384 <= powerRZ 2 1023).
  { change (powerRZ 2 1023) with (2 ^ Pos.to_nat 1023). replace 16384 with (2 ^ 14) by (cbn; lra).
    apply Rle_pow; [lra|lia]. }
  assert (Bd : 0 < powerRZ 2 (-52) <= 1).
  { change (powerRZ 2 (-52)) with (/ 2 ^ Pos.to_nat 52).
    assert (1 <= 2 ^ Pos.to_nat 52) by (replace 1 with (2 ^ 0) by reflexivity; apply Rle_pow; [lra|lia]).
    split; [apply Rinv_0_lt_compat; lra|]. rewrite <- Rinv_1. apply Rinv_le_contravar; lra. }
  nra.
Qed.
