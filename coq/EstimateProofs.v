(* EstimateProofs.v — lemmas about Ransac::estimateModel (coq/RansacModel.v, Section Estimate). *)
From Coq Require Import ZArith List Bool Lia.
From Romea Require Import Num RansacModel RansacProofs.
Import ListNotations.
Local Open Scope Z_scope.

Definition counts_of (ev : list rcall) : list Z :=
  flat_map (fun e => match e with EvCount c => [c] | _ => [] end) ev.
Definition draws_of (ev : list rcall) : Z :=
  Z.of_nat (length (filter (fun e => match e with EvDraw => true | _ => false end) ev)).
(* the largest value countInliers returned, as seen through the float variable of Ransac.cpp *)
Definition max_rounded (b0 : Z) (cs : list Z) : Z := fold_left (fun b c => Z.max b (f32round c)) cs b0.

Lemma max_rounded_ge cs : forall b0, b0 <= max_rounded b0 cs.
Proof.
  unfold max_rounded. induction cs as [|c r IH]; intros b0; cbn [fold_left]; [lia|].
  specialize (IH (Z.max b0 (f32round c))). lia.
Qed.

Lemma max_rounded_in cs : forall b0, max_rounded b0 cs = b0 \/ exists c, In c cs /\ max_rounded b0 cs = f32round c.
Proof.
  unfold max_rounded. induction cs as [|c r IH]; intros b0; cbn [fold_left]; [left; reflexivity|].
  destruct (IH (Z.max b0 (f32round c))) as [E|(c' & Hin & E)].
  - rewrite E. destruct (Z.max_spec b0 (f32round c)) as [[_ ->]|[_ ->]].
    + right. exists c. split; [left; reflexivity | reflexivity].
    + left. reflexivity.
  - right. exists c'. split; [right; assumption | assumption].
Qed.

Lemma max_rounded_all cs : forall b0 c, In c cs -> f32round c <= max_rounded b0 cs.
Proof.
  induction cs as [|c0 r IH]; intros b0 c []; [subst c0|now apply IH].
  pose proof (max_rounded_ge r (Z.max b0 (f32round c))) as H. unfold max_rounded in *. cbn [fold_left]. lia.
Qed.

Section Est.
  Context {T : Type} (N : NumOps T) {S : Type}.
  Variable draw : S -> S * bool.
  Variable count : S -> S * Z.
  Variable refine : S -> S.
  Variable sdraw : Z.

  Notation loop := (est_loop N draw count sdraw).

  (* one pass through the body of the while loop: the calls it makes and the loop variables after it *)
  Definition est_pass (iter best : Z) (chosen : option Z) (its : iters T) (s : S)
    : list rcall * Z * option Z * iters T * S :=
    let (s1, ok) := draw s in
    if ok then
      let (s2, c) := count s1 in
      if f32round best <? f32round c
      then ([EvDraw; EvCount c], f32round c, Some iter, iters_update N its (f32round c) sdraw, s2)
      else ([EvDraw; EvCount c], best, chosen, its, s2)
    else ([EvDraw], best, chosen, its, s1).

  Lemma est_loop_eq fuel iter best chosen its s :
    loop fuel iter best chosen its s =
    if iter <? it_n its then
      match fuel with
      | O => None
      | Datatypes.S f =>
        let '(ev, best', chosen', its', s') := est_pass iter best chosen its s in
        match loop f (iter + 1) best' chosen' its' s' with
        | Some r => Some (mkLoop (lr_iters r) (lr_best r) (lr_chosen r) (ev ++ lr_events r) (lr_state r))
        | None => None
        end
      end
    else Some (mkLoop iter best chosen [] s).
  Proof.
    destruct fuel; [reflexivity|]. cbn [est_loop]. unfold est_pass.
    destruct (draw s) as [s1 [|]]; [destruct (count s1) as [s2 c]; cbv zeta; destruct (f32round best <? f32round c)|];
      reflexivity.
  Qed.

  Lemma est_pass_its iter best chosen its s :
    let '(_, _, _, its', _) := est_pass iter best chosen its s in it_n its' <= it_n its.
  Proof.
    unfold est_pass. destruct (draw s) as [s1 [|]]; [destruct (count s1) as [s2 c]; destruct (_ <? _)|];
      try apply iters_update_le; lia.
  Qed.

  Lemma est_loop_some fuel : forall iter best chosen its s,
    it_n its <= iter + Z.of_nat fuel -> exists r, loop fuel iter best chosen its s = Some r.
  Proof.
    induction fuel as [|f IH]; intros iter best chosen its s Hf; rewrite est_loop_eq;
      destruct (Z.ltb_spec iter (it_n its)); try (eexists; reflexivity); [lia|].
    pose proof (est_pass_its iter best chosen its s) as Hi.
    destruct (est_pass iter best chosen its s) as [[[[ev b'] ch'] its'] s'].
    destruct (IH (iter + 1) b' ch' its' s') as [r ->]; [lia | eexists; reflexivity].
  Qed.

  (* induction over the passes of a run, last pass first: a relation between the loop variables at a loop head and
     the result holds if it holds when the loop exits and is carried backwards across one pass *)
  Lemma est_loop_ind (Q : Z -> Z -> iters T -> S -> loop_result S -> Prop) :
    (forall iter best chosen its s, it_n its <= iter -> Q iter best its s (mkLoop iter best chosen [] s)) ->
    (forall iter best chosen its s r, iter < it_n its ->
       let '(ev, best', _, its', s') := est_pass iter best chosen its s in
       Q (iter + 1) best' its' s' r ->
       Q iter best its s (mkLoop (lr_iters r) (lr_best r) (lr_chosen r) (ev ++ lr_events r) (lr_state r))) ->
    forall fuel iter best chosen its s r, loop fuel iter best chosen its s = Some r -> Q iter best its s r.
  Proof.
    intros Hexit Hpass. induction fuel as [|f IH]; intros iter best chosen its s r; rewrite est_loop_eq;
      destruct (Z.ltb_spec iter (it_n its)) as [Hlt|Hge]; try discriminate;
      try (intros H; inversion H; apply Hexit; exact Hge).
    specialize (Hpass iter best chosen its s).
    destruct (est_pass iter best chosen its s) as [[[[ev b'] ch'] its'] s'].
    destruct (loop f (iter + 1) b' ch' its' s') as [r'|] eqn:E; [|discriminate].
    intros H; inversion H. apply Hpass; [exact Hlt | exact (IH _ _ _ _ _ _ E)].
  Qed.

  Lemma est_loop_spec fuel iter best chosen its s r :
    loop fuel iter best chosen its s = Some r ->
    f32round best = best ->
    lr_best r = max_rounded best (counts_of (lr_events r)) /\
    ~ In EvRefine (lr_events r) /\
    lr_iters r = iter + draws_of (lr_events r) /\
    lr_iters r <= Z.max iter (it_n its).
  Proof.
    revert fuel iter best chosen its s r.
    apply (est_loop_ind (fun iter best its s r => f32round best = best ->
      lr_best r = max_rounded best (counts_of (lr_events r)) /\ ~ In EvRefine (lr_events r) /\
      lr_iters r = iter + draws_of (lr_events r) /\ lr_iters r <= Z.max iter (it_n its))).
    - intros iter best chosen its s Hge Hb. cbn. repeat split; lia.
    - intros iter best chosen its s r Hlt. unfold est_pass. destruct (draw s) as [s1 [|]].
      + destruct (count s1) as [s2 c].
        destruct (Z.ltb_spec (f32round best) (f32round c)) as [Hc|Hc]; intros IH Hb; rewrite Hb in Hc.
        * pose proof (iters_update_le N its (f32round c) sdraw).
          destruct (IH (f32round_idem c)) as (A & C & D & F). cbn [lr_best lr_events lr_iters app].
          split; [rewrite A; unfold max_rounded; cbn [counts_of flat_map app fold_left]; now rewrite Z.max_r by lia|].
          split; [intros [X|[X|X]]; [discriminate..|exact (C X)]|]. unfold draws_of in *. cbn [filter length]. lia.
        * destruct (IH Hb) as (A & C & D & F). cbn [lr_best lr_events lr_iters app].
          split; [rewrite A; unfold max_rounded; cbn [counts_of flat_map app fold_left]; now rewrite Z.max_l by lia|].
          split; [intros [X|[X|X]]; [discriminate..|exact (C X)]|]. unfold draws_of in *. cbn [filter length]. lia.
      + intros IH Hb. destruct (IH Hb) as (A & C & D & F). cbn [lr_best lr_events lr_iters app].
        split; [exact A|]. split; [intros [X|X]; [discriminate|exact (C X)]|]. unfold draws_of in *. cbn [filter length]. lia.
  Qed.
  Lemma estimate_too_few npoints mininl p maxit s :
    npoints < mininl -> estimate N draw count refine sdraw npoints mininl p maxit s = Some (mkEst false 0 0 None [] s).
  Proof. intros H. unfold estimate. destruct (Z.ltb_spec npoints mininl); [reflexivity | lia]. Qed.

  Lemma estimate_logic_lemma npoints mininl p maxit s :
    mininl <= npoints -> 0 <= maxit ->
    exists r loopev sl,
      estimate N draw count refine sdraw npoints mininl p maxit s = Some r /\
      ~ In EvRefine loopev /\
      er_best r = max_rounded 0 (counts_of loopev) /\
      (er_ok r = true <-> sdraw < er_best r) /\
      er_events r = loopev ++ (if er_ok r then [EvRefine] else []) /\
      er_state r = (if er_ok r then refine sl else sl) /\
      er_iters r = draws_of loopev /\ er_iters r <= maxit.
  Proof.
    intros Hn Hm. unfold estimate. destruct (Z.ltb_spec npoints mininl); [lia|].
    destruct (est_loop_some (Z.to_nat maxit) 0 0 None (iters_init N npoints p maxit) s) as [lr Hlr].
    { cbn [iters_init it_n]. lia. }
    rewrite Hlr. destruct (est_loop_spec _ _ _ _ _ _ _ Hlr eq_refl) as (A & C & D & F). cbn [iters_init it_n] in F.
    destruct (Z.leb_spec (lr_best lr) sdraw); eexists _, (lr_events lr), (lr_state lr); (split; [reflexivity|]); cbn;
      rewrite ?app_nil_r; repeat split; try assumption; try lia; discriminate.
  Qed.

  Lemma est_loop_inv (I : S -> Prop)
    (Hdraw : forall s, I s -> I (fst (draw s))) (Hcount : forall s, I s -> I (fst (count s))) fuel iter best chosen its s r :
    loop fuel iter best chosen its s = Some r -> I s -> I (lr_state r).
  Proof.
    revert fuel iter best chosen its s r. apply (est_loop_ind (fun _ _ _ s r => I s -> I (lr_state r))).
    - intros iter best chosen its s _ Hs. exact Hs.
    - intros iter best chosen its s r _. unfold est_pass.
      pose proof (Hdraw s) as H1. pose proof (Hcount (fst (draw s))) as H2. destruct (draw s) as [s1 [|]]; cbn [fst] in *;
        [destruct (count s1) as [s2 c]; destruct (_ <? _)|]; cbn [fst lr_state] in *; auto.
  Qed.

  Lemma estimate_inv (I : S -> Prop)
    (Hdraw : forall s, I s -> I (fst (draw s))) (Hcount : forall s, I s -> I (fst (count s)))
    (Hrefine : forall s, I s -> I (refine s)) npoints mininl p maxit s r :
    estimate N draw count refine sdraw npoints mininl p maxit s = Some r -> I s -> I (er_state r).
  Proof.
    unfold estimate. intros H Hs. destruct (npoints <? mininl); [inversion H; subst; exact Hs|].
    destruct (loop _ _ _ _ _ s) as [lr|] eqn:E; [|discriminate].
    pose proof (est_loop_inv I Hdraw Hcount _ _ _ _ _ _ _ E Hs) as Hl.
    destruct (lr_best lr <=? sdraw); inversion H; subst; cbn; auto.
  Qed.

  (* a non-decreasing measure that bounds what countInliers returns: positive whenever the best count is *)
  Lemma est_loop_measure (mu : S -> Z)
    (Hdraw : forall s, mu s <= mu (fst (draw s))) (Hcount : forall s, mu s <= mu (fst (count s)))
    (Hret : forall s, snd (count s) <= mu (fst (count s))) fuel iter best chosen its s r :
    loop fuel iter best chosen its s = Some r -> (0 < best -> 0 < mu s) -> (0 < lr_best r -> 0 < mu (lr_state r)).
  Proof.
    revert fuel iter best chosen its s r.
    apply (est_loop_ind (fun _ best _ s r => (0 < best -> 0 < mu s) -> (0 < lr_best r -> 0 < mu (lr_state r)))).
    - intros iter best chosen its s _ Hs. exact Hs.
    - intros iter best chosen its s r _. unfold est_pass.
      pose proof (Hdraw s) as H1. pose proof (Hcount (fst (draw s))) as H2. pose proof (Hret (fst (draw s))) as H3.
      destruct (draw s) as [s1 [|]]; cbn [fst] in *;
        [destruct (count s1) as [s2 c]; destruct (_ <? _)|]; cbn [fst snd lr_best lr_state] in *;
        intros IH Hs; apply IH; intros Hp; try apply f32round_pos_inv in Hp; try specialize (Hs Hp); lia.
  Qed.

  Lemma estimate_measure (mu : S -> Z)
    (Hdraw : forall s, mu s <= mu (fst (draw s))) (Hcount : forall s, mu s <= mu (fst (count s)))
    (Hret : forall s, snd (count s) <= mu (fst (count s))) (Hrefine : forall s, mu s <= mu (refine s))
    npoints mininl p maxit s r :
    estimate N draw count refine sdraw npoints mininl p maxit s = Some r -> 0 <= sdraw ->
    er_ok r = true -> 0 < mu (er_state r).
  Proof.
    unfold estimate. intros H Hsd Hok. destruct (npoints <? mininl); [inversion H; subst; discriminate|].
    destruct (loop _ _ _ _ _ s) as [lr|] eqn:E; [|discriminate].
    pose proof (est_loop_measure mu Hdraw Hcount Hret _ _ _ _ _ _ _ E) as Hl.
    destruct (Z.leb_spec (lr_best lr) sdraw); inversion H; subst; cbn in *; [discriminate|].
    specialize (Hrefine (lr_state lr)). assert (0 < mu (lr_state lr)) by (apply Hl; lia). lia.
  Qed.

  (* a first draw that succeeds with a count above the draw size settles the outcome, whatever the later draws do *)
  Lemma estimate_first_draw_succeeds (I : S -> Prop)
    (Hdraw : forall s, I s -> I (fst (draw s))) (Hcount : forall s, I s -> I (fst (count s)))
    npoints mininl p maxit s s1 s2 c :
    mininl <= npoints -> 1 <= maxit -> draw s = (s1, true) -> count s1 = (s2, c) ->
    0 <= sdraw < f32round c -> I s2 ->
    exists r sl, estimate N draw count refine sdraw npoints mininl p maxit s = Some r /\ er_ok r = true /\
                 er_state r = refine sl /\ I sl.
  Proof.
    intros Hn Hm Hd Hc Hs HI. unfold estimate. destruct (Z.ltb_spec npoints mininl); [lia|].
    destruct (Z.to_nat maxit) as [|f] eqn:Ef; [lia|].
    rewrite est_loop_eq. cbn [iters_init it_n]. destruct (Z.ltb_spec 0 maxit); [|lia].
    unfold est_pass. rewrite Hd, Hc, (f32round_small 0) by reflexivity. destruct (Z.ltb_spec 0 (f32round c)); [|lia].
    destruct (est_loop_some f (0 + 1) (f32round c) (Some 0)
                (iters_update N (iters_init N npoints p maxit) (f32round c) sdraw) s2) as [r' Hr'].
    { pose proof (iters_update_le N (iters_init N npoints p maxit) (f32round c) sdraw) as X. cbn [iters_init it_n] in X. lia. }
    rewrite Hr'. destruct (est_loop_spec _ _ _ _ _ _ _ Hr' (f32round_idem c)) as (A & _).
    pose proof (max_rounded_ge (counts_of (lr_events r')) (f32round c)) as G.
    cbn [lr_best]. destruct (Z.leb_spec (lr_best r') sdraw); [lia|].
    eexists _, (lr_state r'). repeat split. exact (est_loop_inv I Hdraw Hcount _ _ _ _ _ _ _ Hr' HI).
  Qed.
End Est.
