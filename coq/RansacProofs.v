(* RansacProofs.v — lemmas about coq/RansacModel.v (RansacIterations, Ransac::estimateModel). *)
From Coq Require Import Reals ZArith List Bool Lra Lia Sorted Permutation.
From Flocq Require Import Core.Raux.
From Romea Require Import Num NumR RansacModel.
From Romea.gen Require Import RepoConstants.
Import ListNotations.

Local Open Scope Z_scope.

Lemma f32round_small z : z < 2 ^ 24 -> f32round z = z.
Proof. intros H. unfold f32round. destruct (Z.ltb_spec z (2 ^ 24)); [reflexivity | lia]. Qed.

Lemma f32round_pos_inv z : 0 < f32round z -> 0 < z.
Proof.
  unfold f32round. destruct (Z.ltb_spec z (2 ^ 24)) as [H|H]; intros; [assumption|].
  assert (0 < 2 ^ 24) by (apply Z.pow_pos_nonneg; lia). lia.
Qed.

(* a value with at most 24 significant bits is left unchanged *)
Lemma f32round_repr m e : 2 ^ 23 <= m < 2 ^ 24 -> 1 <= e -> f32round (m * 2 ^ e) = m * 2 ^ e.
Proof.
  intros Hm He. unfold f32round.
  assert (P23 : 0 < 2 ^ 23) by (apply Z.pow_pos_nonneg; lia).
  assert (Pe : 0 < 2 ^ e) by (apply Z.pow_pos_nonneg; lia).
  assert (P2e : 2 <= 2 ^ e) by (change 2 with (2 ^ 1) at 1; apply Z.pow_le_mono_r; lia).
  assert (Hbig : 2 ^ 24 <= m * 2 ^ e) by (change (2 ^ 24) with (2 ^ 23 * 2); nia).
  destruct (Z.ltb_spec (m * 2 ^ e) (2 ^ 24)); [lia|].
  assert (Hlog : Z.log2 (m * 2 ^ e) = 23 + e).
  { rewrite Z.log2_mul_pow2 by lia.
    assert (Z.log2 m = 23) by (apply Z.log2_unique; lia). lia. }
  rewrite Hlog. replace (23 + e - 23) with e by lia.
  rewrite Z.div_mul by lia. rewrite Z.mod_mul by lia.
  assert (0 < 2 ^ (e - 1)) by (apply Z.pow_pos_nonneg; lia).
  destruct (Z.ltb_spec 0 (2 ^ (e - 1))); [reflexivity | lia].
Qed.

Lemma f32round_idem z : f32round (f32round z) = f32round z.
Proof.
  unfold f32round at 2 3.
  destruct (Z.ltb_spec z (2 ^ 24)) as [H|H]; [apply f32round_small; assumption|].
  set (e := Z.log2 z - 23).
  assert (P24 : 0 < 2 ^ 24) by (apply Z.pow_pos_nonneg; lia).
  assert (Hl : 24 <= Z.log2 z) by (apply Z.log2_le_pow2; lia).
  assert (He : 1 <= e) by (unfold e; lia).
  assert (Pe : 0 < 2 ^ e) by (apply Z.pow_pos_nonneg; lia).
  pose proof (Z.log2_spec z ltac:(lia)) as [L1 L2].
  assert (Hq : 2 ^ 23 <= z / 2 ^ e < 2 ^ 24).
  { replace (Z.log2 z) with (23 + e) in L1 by (unfold e; lia).
    replace (Z.succ (Z.log2 z)) with (24 + e) in L2 by (unfold e; lia).
    rewrite Z.pow_add_r in L1, L2 by lia.
    split.
    - apply Z.div_le_lower_bound; lia.
    - apply Z.div_lt_upper_bound; lia. }
  set (q := z / 2 ^ e) in *.
  assert (Hcases : forall q', (q' = q \/ q' = q + 1) -> f32round (q' * 2 ^ e) = q' * 2 ^ e).
  { intros q' [->| ->].
    - apply f32round_repr; lia.
    - destruct (Z.eq_dec (q + 1) (2 ^ 24)) as [E|NE].
      + rewrite E. replace (2 ^ 24 * 2 ^ e) with (2 ^ 23 * 2 ^ (e + 1)).
        * apply f32round_repr; [|lia]. split; [lia|]. apply Z.pow_lt_mono_r; lia.
        * rewrite Z.pow_add_r by lia. change (2 ^ 24) with (2 ^ 23 * 2). ring.
      + apply f32round_repr; lia. }
  destruct (z mod 2 ^ e <? 2 ^ (e - 1)); [apply Hcases; left; reflexivity|].
  destruct (2 ^ (e - 1) <? z mod 2 ^ e); [apply Hcases; right; reflexivity|].
  destruct (Z.even q); apply Hcases; [left|right]; reflexivity.
Qed.

Lemma f32round_nonneg z : 0 <= z -> 0 <= f32round z.
Proof.
  intros Hz. unfold f32round. destruct (Z.ltb_spec z (2 ^ 24)) as [H|H]; [assumption|].
  set (e := Z.log2 z - 23).
  assert (0 <= 2 ^ e) by (apply Z.pow_nonneg; lia).
  assert (0 <= z / 2 ^ e).
  { destruct (Z.eq_dec (2 ^ e) 0) as [E|NE]; [rewrite E, Zdiv_0_r; lia | apply Z.div_pos; lia]. }
  destruct (_ <? _); [nia|]. destruct (_ <? _); [nia|]. destruct (Z.even _); nia.
Qed.

Section IterAny.
  Context {T : Type} (N : NumOps T).

  Lemma iters_update_le s k sd : it_n (iters_update N s k sd) <= it_n s.
  Proof. cbn. apply Z.le_min_l. Qed.

  Lemma iters_fold_le ks : forall s sd, it_n (iters_fold N s sd ks) <= it_n s.
  Proof.
    unfold iters_fold. induction ks as [|k r IH]; intros s sd; cbn [fold_left]; [lia|].
    etransitivity; [apply IH | apply iters_update_le].
  Qed.

  Lemma iters_run_spec ks : forall s sd,
    let bounds := iters_run N s sd ks in
    StronglySorted Z.ge bounds /\ Forall (fun b => b <= it_n s) bounds /\ hd 0 bounds = it_n s /\
    last bounds 0 = it_n (iters_fold N s sd ks).
  Proof.
    induction ks as [|k r IH]; intros s sd; cbn [iters_run]; [repeat constructor; lia|].
    destruct (IH (iters_update N s k sd) sd) as (A & B & _ & D). pose proof (iters_update_le s k sd).
    assert (B' : Forall (fun b => b <= it_n s) (iters_run N (iters_update N s k sd) sd r))
      by (eapply Forall_impl; [|exact B]; cbn beta; intros; lia).
    split; [constructor; [exact A | eapply Forall_impl; [|exact B']; cbn beta; intros; lia]|].
    split; [constructor; [lia | exact B']|]. split; [reflexivity|]. etransitivity; [|exact D]. destruct r; reflexivity.
  Qed.
End IterAny.

Local Open Scope R_scope.

Definition Reps : R := powerRZ 2 (-52).

Lemma Reps_bounds : 0 < Reps < / 2.
Proof. unfold Reps, powerRZ. simpl. lra. Qed.

Lemma nmax2_R a b : nmax2 ROps a b = Rmax a b.
Proof.
  unfold nmax2. cbn [nltb ROps]. unfold Rltb, Rmax.
  destruct (Rlt_dec a b), (Rle_dec a b); try reflexivity; lra.
Qed.

Lemma nmin2_R a b : nmin2 ROps a b = Rmin a b.
Proof.
  unfold nmin2. cbn [nltb ROps]. unfold Rltb, Rmin.
  destruct (Rlt_dec b a), (Rle_dec a b); try reflexivity; lra.
Qed.

(* the clamped probability, as the property states it *)
Definition q_clamped (w : R) (sd : nat) : R := Rmin (1 - Reps) (Rmax Reps (1 - w ^ sd)).

Lemma q_clamped_range w sd : Reps <= q_clamped w sd <= 1 - Reps.
Proof.
  pose proof Reps_bounds. unfold q_clamped. split.
  - apply Rmin_glb; [lra | apply Rmax_l].
  - apply Rmin_l.
Qed.

Lemma iters_q_R (s : iters R) npoints k sd :
  it_oneovern s = / IZR npoints -> (1 <= npoints)%Z -> (1 <= k)%Z -> (0 <= sd)%Z ->
  iters_q ROps s k sd = q_clamped (IZR k / IZR npoints) (Z.to_nat sd).
Proof.
  intros Ho Hn Hk Hsd. unfold iters_q, q_clamped. rewrite nmin2_R, nmax2_R.
  cbn [nsub nmul nofZ npow n_one nepsilon ROps]. fold Reps. rewrite Ho.
  assert (0 < IZR k) by (apply IZR_lt; lia).
  assert (0 < IZR npoints) by (apply IZR_lt; lia).
  assert (Hw : 0 < IZR k * / IZR npoints) by (apply Rmult_lt_0_compat; [|apply Rinv_0_lt_compat]; assumption).
  replace (IZR sd) with (INR (Z.to_nat sd)) by (rewrite INR_IZR_INZ, Z2Nat.id by lia; reflexivity).
  rewrite Rpower_pow by exact Hw. reflexivity.
Qed.

Lemma ln_neg x : 0 < x < 1 -> ln x < 0.
Proof. intros [H0 H1]. rewrite <- ln_1. apply ln_increasing; lra. Qed.

Lemma ln_ratio_pos p q : 0 < p < 1 -> 0 < q < 1 -> 0 < ln (1 - p) / ln q.
Proof.
  intros Hp Hq. pose proof (ln_neg q Hq). pose proof (ln_neg (1 - p) ltac:(lra)).
  replace (ln (1 - p) / ln q) with ((- ln (1 - p)) / (- ln q)) by (field; lra). apply Rdiv_lt_0_compat; lra.
Qed.

Lemma iters_formula_R (s : iters R) npoints p k sd :
  it_logopp s = ln (1 - p) -> it_oneovern s = / IZR npoints ->
  0 < p < 1 -> (1 <= npoints)%Z -> (1 <= k)%Z -> (0 <= sd)%Z ->
  let q := q_clamped (IZR k / IZR npoints) (Z.to_nat sd) in
  0 < ln (1 - p) / ln q /\
  it_n (iters_update ROps s k sd) = Z.min (it_n s) (Zfloor (ln (1 - p) / ln q)).
Proof.
  intros Hl Ho Hp Hn Hk Hsd q.
  pose proof (q_clamped_range (IZR k / IZR npoints) (Z.to_nat sd)) as Hq. fold q in Hq. pose proof Reps_bounds as He.
  assert (Hpos : 0 < ln (1 - p) / ln q) by (apply ln_ratio_pos; lra).
  split; [exact Hpos|].
  cbn [iters_update it_n]. unfold iters_ratio. rewrite (iters_q_R s npoints k sd Ho Hn Hk Hsd). fold q.
  cbn [ndiv nln ntruncZ ROps]. rewrite Hl. rewrite Ztrunc_floor by lra. reflexivity.
Qed.

Lemma q_clamped_inactive w sd : Reps <= 1 - w ^ sd <= 1 - Reps -> q_clamped w sd = 1 - w ^ sd.
Proof.
  intros [H1 H2]. unfold q_clamped. rewrite Rmax_right by lra. rewrite Rmin_right by lra. reflexivity.
Qed.

Lemma iters_init_R npoints p maxit :
  it_logopp (iters_init ROps npoints p maxit) = ln (1 - p) /\
  it_oneovern (iters_init ROps npoints p maxit) = / IZR npoints /\
  it_n (iters_init ROps npoints p maxit) = maxit.
Proof. cbn. repeat split. unfold Rdiv. lra. Qed.

Lemma iters_update_fields {T} (N : NumOps T) s k sd :
  it_logopp (iters_update N s k sd) = it_logopp s /\ it_oneovern (iters_update N s k sd) = it_oneovern s.
Proof. split; reflexivity. Qed.

Lemma iters_fold_fields {T} (N : NumOps T) ks : forall s sd,
  it_logopp (iters_fold N s sd ks) = it_logopp s /\ it_oneovern (iters_fold N s sd ks) = it_oneovern s.
Proof.
  unfold iters_fold. induction ks as [|k r IH]; intros s sd; cbn [fold_left]; [split; reflexivity|].
  destruct (IH (iters_update N s k sd) sd) as [A B]. rewrite A, B. split; reflexivity.
Qed.

Lemma iters_fold_nonneg npoints p maxit sd ks :
  0 < p < 1 -> (1 <= npoints)%Z -> (0 <= sd)%Z -> (0 <= maxit)%Z -> Forall (fun k => (1 <= k)%Z) ks ->
  (0 <= it_n (iters_fold ROps (iters_init ROps npoints p maxit) sd ks))%Z.
Proof.
  intros Hp Hn Hsd Hm Hks.
  destruct (iters_init_R npoints p maxit) as (A & B & C).
  revert A B C. generalize (iters_init ROps npoints p maxit) as s. revert maxit Hm.
  unfold iters_fold. induction Hks as [|k r Hk Hr IH]; intros maxit Hm s A B C; cbn [fold_left]; [lia|].
  destruct (iters_formula_R s npoints p k sd A B Hp Hn Hk Hsd) as [Hpos Heq].
  eapply (IH (it_n (iters_update ROps s k sd))).
  - rewrite Heq. apply Z.min_glb; [lia|]. apply Zfloor_lub. simpl. lra.
  - exact A.
  - exact B.
  - reflexivity.
Qed.
