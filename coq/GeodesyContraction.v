(* GeodesyContraction.v — the latitude iteration of ECEFConverter::toWGS84 is a contraction (C01). *)
From Coq Require Import Reals ZArith List Bool Lra Lia Psatz.
From Coquelicot Require Import Coquelicot.
From Romea Require Import Num NumR GeodesyModel GeodesyProofs.
From Romea.gen Require Import RepoConstants.
Local Open Scope R_scope.

Lemma Rabs_mult_le x y X Y : Rabs x <= X -> Rabs y <= Y -> Rabs (x * y) <= X * Y.
Proof. intros Hx Hy. rewrite Rabs_mult. pose proof (Rabs_pos x). pose proof (Rabs_pos y). nra. Qed.

Lemma Rabs_div_le n d N D : Rabs n <= N -> 0 < D <= d -> Rabs (n / d) <= N / D.
Proof.
  intros Hn [HD Hd]. unfold Rdiv. rewrite Rabs_mult, Rabs_inv, (Rabs_pos_eq d) by lra.
  pose proof (Rabs_pos n). assert (/ d <= / D) by (apply Rinv_le_contravar; lra).
  assert (0 < / d) by (apply Rinv_0_lt_compat; lra). nra.
Qed.

Lemma sqrt_1_plus_quot x y : x <> 0 ->
  sqrt (1 + (y / x) * (y / x)) = sqrt (x * x + y * y) / Rabs x.
Proof.
  intros Hx. assert (Ax : 0 < Rabs x) by (apply Rabs_pos_lt; exact Hx).
  replace (1 + y / x * (y / x)) with ((x * x + y * y) / (x * x)) by (field; exact Hx).
  rewrite sqrt_div_alt by nra. f_equal.
  replace (x * x) with (Rsqr x) by reflexivity. apply sqrt_Rsqr_abs.
Qed.

(* mean value theorem: a derivative bounded by k on a segment makes the function k-Lipschitz on it *)
Lemma lipschitz_of_derive (f f' : R -> R) k x y :
  (forall z, Rmin x y <= z <= Rmax x y -> is_derive f z (f' z) /\ Rabs (f' z) <= k) ->
  Rabs (f y - f x) <= k * Rabs (y - x).
Proof.
  intros H. destruct (MVT_gen f x y f') as [c [Hc E]].
  - intros z Hz. apply H. lra.
  - intros z Hz. apply continuity_pt_filterlim. apply (ex_derive_continuous f). exists (f' z). apply H. exact Hz.
  - rewrite E, Rabs_mult. apply Rmult_le_compat_r; [apply Rabs_pos|apply H; exact Hc].
Qed.

Lemma cos_lip x y : Rabs (cos x - cos y) <= Rabs (x - y).
Proof.
  rewrite <- (Rmult_1_l (Rabs (x - y))). apply (lipschitz_of_derive cos (fun z => - sin z)). intros z _. split.
  - auto_derive; [exact I|ring].
  - rewrite Rabs_Ropp. apply Rabs_le. pose proof (SIN_bound z). lra.
Qed.

Lemma sin_lip x y : Rabs (sin x - sin y) <= Rabs (x - y).
Proof.
  rewrite <- (Rmult_1_l (Rabs (x - y))). apply (lipschitz_of_derive sin cos). intros z _. split.
  - auto_derive; [exact I|ring].
  - apply Rabs_le. pose proof (COS_bound z). lra.
Qed.

(* derivative of atan (c / (1 - k h)) for a differentiable h *)
Lemma atan_quot_derive (h : R -> R) (c k x h' : R) : is_derive h x h' -> 1 - k * h x <> 0 ->
  is_derive (fun y => atan (c / (1 - k * h y))) x (c * k * h' / ((1 - k * h x) * (1 - k * h x) + c * c)).
Proof.
  intros Hh HD. auto_derive.
  - split; [exists h'; exact Hh|]. split; [exact HD|exact I].
  - replace (Derive _ x) with h' by (symmetry; exact (is_derive_unique _ _ _ Hh)).
    assert (0 < (1 - k * h x) * (1 - k * h x)) by nra.
    field. split; [nra|lra].
Qed.

Section Body.
Variable el : ellipsoid (T:=R).
Hypothesis Ha : 0 < el_a el.
Hypothesis He2 : 0 <= el_e2 el < 1.
Variables Z rho : R.
Hypothesis Hrho : 0 < rho.

Local Notation a := (el_a el).
Local Notation e2 := (el_e2 el).

Definition Wf (x : R) : R := sqrt (1 - e2 * sin x * sin x).

Lemma Wf_pos x : 0 < Wf x.
Proof. exact (w_pos e2 x He2). Qed.

Lemma Wf_sq x : Wf x * Wf x = 1 - e2 * sin x * sin x.
Proof. exact (w_sq e2 x He2). Qed.

Lemma Wf_le_1 x : Wf x <= 1.
Proof. exact (w_le_1 e2 x He2). Qed.

Lemma Wf_ge x : sqrt (1 - e2) <= Wf x.
Proof. unfold Wf. apply sqrt_le_1_alt. pose proof (sin_sq_le_1 x). nra. Qed.

Lemma cos_le_Wf x : Rabs (cos x) <= Wf x.
Proof.
  unfold Wf. rewrite <- sqrt_Rsqr_abs. apply sqrt_le_1_alt.
  unfold Rsqr. rewrite cos_sq_eq. pose proof (sin_sq_le_1 x). assert (0 <= sin x * sin x) by nra. nra.
Qed.

(* denominator of the loop body: 1 - a e2 cos(lat) / (norm W(lat)) *)
Definition lat_den (x : R) : R := 1 - a * e2 * cos x / (rho * Wf x).

Lemma lat_body_eq x : lat_body ROps el Z rho x = atan ((Z / rho) / lat_den x).
Proof.
  unfold lat_body, lat_den, Wf. cbn.
  replace (1 - e2 * (sin x * sin x)) with (1 - e2 * sin x * sin x) by ring. reflexivity.
Qed.

Lemma altitude_of_eq norm x : altitude_of ROps el norm x = norm / cos x - a / Wf x.
Proof.
  unfold altitude_of, Wf. cbn.
  replace (1 - e2 * (sin x * sin x)) with (1 - e2 * sin x * sin x) by ring. reflexivity.
Qed.

Definition lat_body_deriv (x : R) : R :=
  - (Z * (e2 * a * (1 - e2)) * sin x) / (Wf x * Wf x * Wf x * ((rho * lat_den x) * (rho * lat_den x) + Z * Z)).

(* (cos / W)' = - (1 - e2) sin / W^3, because W^2 - e2 cos^2 = 1 - e2 *)
Lemma cos_over_Wf_derive x :
  is_derive (fun y => cos y / Wf y) x (- ((1 - e2) * sin x) / (Wf x * Wf x * Wf x)).
Proof.
  pose proof (Wf_pos x) as Wp. pose proof (Wf_sq x) as Ws. pose proof (w2_pos e2 x He2).
  unfold Wf in *. auto_derive.
  - replace (1 + - (e2 * sin x * sin x)) with (1 - e2 * sin x * sin x) by ring.
    split; [lra|]. split; [lra|exact I].
  - replace (1 + - (e2 * sin x * sin x)) with (1 - e2 * sin x * sin x) by ring.
    pose proof (cos_sq_eq x) as Cs. set (w := sqrt (1 - e2 * sin x * sin x)) in *.
    replace (1 - e2) with (w * w - e2 * (cos x * cos x)) by (rewrite Ws, Cs; ring).
    field. lra.
Qed.

Lemma lat_den_eq x : lat_den x = 1 - a * e2 / rho * (cos x / Wf x).
Proof. unfold lat_den. pose proof (Wf_pos x). field. split; lra. Qed.

Lemma lat_den_pos x : a * e2 * cos x < rho * Wf x -> 0 < lat_den x.
Proof.
  intros H. pose proof (Wf_pos x). unfold lat_den.
  assert (a * e2 * cos x / (rho * Wf x) < 1); [|lra]. apply Rlt_div_l; [apply Rmult_lt_0_compat; lra|lra].
Qed.

Lemma lat_den_le_1 x : 0 <= cos x -> lat_den x <= 1.
Proof.
  intros H. pose proof (Wf_pos x). unfold lat_den.
  assert (0 <= a * e2 * cos x / (rho * Wf x)); [|lra]. apply Rdiv_le_0_compat; [apply Rmult_le_pos; nra|apply Rmult_lt_0_compat; lra].
Qed.

Lemma lat_body_is_derive x : lat_den x <> 0 ->
  is_derive (lat_body ROps el Z rho) x (lat_body_deriv x).
Proof.
  intros HD.
  apply (is_derive_ext (fun y => atan (Z / rho / (1 - a * e2 / rho * (cos y / Wf y))))).
  { intros y. rewrite lat_body_eq, lat_den_eq. reflexivity. }
  evar_last.
  { apply (atan_quot_derive _ _ _ _ _ (cos_over_Wf_derive x)). rewrite <- lat_den_eq. exact HD. }
  rewrite <- lat_den_eq. unfold lat_body_deriv. pose proof (Wf_pos x).
  assert (rho * lat_den x <> 0) by nra.
  field. repeat split; nra.
Qed.

Definition rnorm : R := sqrt (rho * rho + Z * Z).
(* contraction factor for the point (rho, Z): e2 a / (sqrt(1-e2) (|p| - e2 a)) *)
Definition lat_q : R := e2 * a / (sqrt (1 - e2) * (rnorm - e2 * a)).

Lemma rnorm_sq : rnorm * rnorm = rho * rho + Z * Z.
Proof. unfold rnorm. apply sqrt_sqrt. nra. Qed.

Lemma rnorm_ge_rho : rho <= rnorm.
Proof.
  unfold rnorm. rewrite <- (sqrt_square rho) at 1 by lra. apply sqrt_le_1_alt. nra.
Qed.

Hypothesis Hfar : e2 * a < rnorm.

Lemma lat_q_nonneg : 0 <= lat_q.
Proof.
  unfold lat_q. assert (0 < sqrt (1 - e2)) by (apply sqrt_lt_R0; lra).
  apply Rmult_le_pos; [nra|]. left. apply Rinv_0_lt_compat. nra.
Qed.

Lemma cos_over_Wf_le_1 x : Rabs (cos x / Wf x) <= 1.
Proof.
  pose proof (Wf_pos x). apply Rle_trans with (Wf x / Wf x); [|right; field; lra].
  apply Rabs_div_le; [apply cos_le_Wf|lra].
Qed.

(* triangle inequality: (rho D, Z) = p - (a e2 cos/W, 0) is at least |p| - e2 a from the centre *)
Lemma body_den_lower x :
  (rnorm - e2 * a) * (rnorm - e2 * a) <= (rho * lat_den x) * (rho * lat_den x) + Z * Z.
Proof.
  pose proof rnorm_sq as Rs. pose proof rnorm_ge_rho as Rr. pose proof (Wf_pos x).
  replace (rho * lat_den x) with (rho - e2 * a * (cos x / Wf x)) by (rewrite lat_den_eq; field; split; lra).
  assert (Hg : Rabs (e2 * a * (cos x / Wf x)) <= e2 * a * 1).
  { apply Rabs_mult_le; [rewrite Rabs_pos_eq; nra|apply cos_over_Wf_le_1]. }
  set (g := e2 * a * (cos x / Wf x)) in *. set (r := rnorm) in *. set (m := e2 * a) in *.
  assert (0 <= m) by (unfold m; nra). clearbody g r m.
  pose proof (Rle_abs g). pose proof (Rabs_pos g).
  assert (T : Rabs g * Rabs g = g * g) by (rewrite <- Rabs_mult; apply Rabs_pos_eq; nra).
  set (t := Rabs g) in *. clearbody t.
  assert (S1 : rho * g <= r * t) by nra.
  assert (S2 : 0 <= (m - t) * (2 * r - m - t)) by (apply Rmult_le_pos; lra).
  nra.
Qed.

(* W^3 >= sqrt(1-e2)^3 and (rho D)^2 + Z^2 >= max (Z^2, (|p| - e2 a)^2) >= |Z| (|p| - e2 a) *)
Lemma lat_body_deriv_bound x : Rabs (lat_body_deriv x) <= lat_q.
Proof.
  pose proof (Wf_pos x) as Wp. pose proof (Wf_ge x) as Wk. pose proof (body_den_lower x) as Q.
  assert (Kp : 0 < sqrt (1 - e2)) by (apply sqrt_lt_R0; lra).
  assert (Ks : sqrt (1 - e2) * sqrt (1 - e2) = 1 - e2) by (apply sqrt_sqrt; lra).
  unfold lat_body_deriv, lat_q.
  set (w := Wf x) in *. set (k := sqrt (1 - e2)) in *. set (m := rnorm - e2 * a) in *.
  set (QQ := rho * lat_den x * (rho * lat_den x) + Z * Z) in *.
  assert (Mp : 0 < m) by (unfold m; lra).
  assert (ZQ : Rabs Z * m <= QQ).
  { pose proof (Rabs_pos Z). assert (Rabs Z * Rabs Z <= QQ) by (rewrite <- Rabs_mult, Rabs_pos_eq; unfold QQ; nra).
    destruct (Rle_dec (Rabs Z) m); nra. }
  assert (W3 : k * (1 - e2) <= w * w * w).
  { rewrite <- Ks. assert (k * k <= w * w) by nra. nra. }
  assert (Ae : 0 <= e2 * a * (1 - e2)) by (apply Rmult_le_pos; nra). assert (Qp : 0 < QQ) by nra.
  clearbody w k m QQ.
  apply Rle_trans with (Rabs Z * (e2 * a * (1 - e2)) * 1 / (k * (1 - e2) * QQ)).
  - apply Rabs_div_le; [|split; [apply Rmult_lt_0_compat; nra|apply Rmult_le_compat_r; lra]]. rewrite Rabs_Ropp.
    apply Rabs_mult_le; [|apply Rabs_le; pose proof (SIN_bound x); lra].
    apply Rabs_mult_le; [lra|rewrite Rabs_pos_eq; lra].
  - rewrite Rmult_1_r. apply Rle_div_l; [apply Rmult_lt_0_compat; nra|].
    replace (e2 * a / (k * m) * (k * (1 - e2) * QQ)) with (e2 * a * (1 - e2) * (QQ / m)) by (field; lra).
    assert (Rabs Z <= QQ / m) by (apply Rle_div_r; lra). nra.
Qed.

Lemma lat_body_lipschitz x y :
  (forall z, Rmin x y <= z <= Rmax x y -> lat_den z <> 0) ->
  Rabs (lat_body ROps el Z rho y - lat_body ROps el Z rho x) <= lat_q * Rabs (y - x).
Proof.
  intros HD. apply (lipschitz_of_derive _ lat_body_deriv). intros z Hz.
  split; [apply lat_body_is_derive; apply HD; exact Hz|apply lat_body_deriv_bound].
Qed.

(* the invariant interval: latitudes between the geocentric latitude atan(Z/rho) and the pole on the side of Z *)
Definition lat_psi : R := atan (Z / rho).
Definition lat_J (x : R) : Prop :=
  - PI / 2 < x < PI / 2 /\ (0 <= Z -> lat_psi <= x) /\ (Z <= 0 -> x <= lat_psi).

Lemma atan_le x y : x <= y -> atan x <= atan y.
Proof. intros [H| ->]; [left; apply atan_increasing; exact H|right; reflexivity]. Qed.

Lemma lat_psi_sign : (0 <= Z -> 0 <= lat_psi) /\ (Z <= 0 -> lat_psi <= 0).
Proof.
  unfold lat_psi. split; intros Hz; rewrite <- atan_0; apply atan_le.
  - apply Rdiv_le_0_compat; lra.
  - apply Rle_div_l; lra.
Qed.

Lemma cos_psi : cos lat_psi = rho / rnorm.
Proof.
  pose proof rnorm_ge_rho as Rr. unfold lat_psi, rnorm in *.
  rewrite cos_atan. unfold Rsqr. rewrite sqrt_1_plus_quot, Rabs_pos_eq by lra. field. split; lra.
Qed.

(* on the interval |x| >= |psi|, hence cos x <= cos psi = rho / |p| *)
Lemma lat_J_cos x : lat_J x -> 0 < cos x /\ cos x * rnorm <= rho.
Proof.
  intros [Hx [Hp Hn]]. split; [apply cos_pos_lat; exact Hx|].
  pose proof rnorm_ge_rho. apply Rle_div_r; [lra|]. rewrite <- cos_psi.
  pose proof (atan_bound (Z / rho)) as Pb. fold lat_psi in Pb.
  destruct lat_psi_sign as [Sp Sn]. pose proof PI_RGT_0.
  destruct (Rle_dec 0 Z) as [Hz|Hz].
  - specialize (Hp Hz). specialize (Sp Hz). apply cos_decr_1; lra.
  - assert (Hz' : Z <= 0) by lra. specialize (Hn Hz'). specialize (Sn Hz').
    rewrite <- (cos_neg x), <- (cos_neg lat_psi). apply cos_decr_1; lra.
Qed.

Hypothesis HJ : (e2 * a) * (e2 * a) < rho * rho + (1 - e2) * (Z * Z).

(* on the interval the denominator of the body is in (0, 1]:
   (a e2 c)^2 < c^2 ((1-e2) |p|^2 + e2 rho^2) <= rho^2 (1 - e2 + e2 c^2) = (rho W)^2 since c |p| <= rho *)
Lemma lat_J_den x : lat_J x -> 0 < lat_den x <= 1.
Proof.
  intros HJx. destruct (lat_J_cos x HJx) as [Cp Cr]. split; [|apply lat_den_le_1; lra].
  apply lat_den_pos. pose proof (Wf_pos x) as Wp. pose proof rnorm_sq as Rs. pose proof rnorm_ge_rho as Rr.
  assert (Ws : Wf x * Wf x = 1 - e2 + e2 * (cos x * cos x)) by (rewrite Wf_sq, cos_sq_eq; ring).
  set (w := Wf x) in *. set (c := cos x) in *. set (r := rnorm) in *. clearbody w c r.
  assert (C0 : 0 <= c * r) by nra. assert (C2 : (c * r) * (c * r) <= rho * rho) by nra.
  assert (K1 : c * c * ((e2 * a) * (e2 * a)) < c * c * (rho * rho + (1 - e2) * (Z * Z))).
  { apply Rmult_lt_compat_l; [nra|exact HJ]. }
  assert (K : (a * e2 * c) * (a * e2 * c) < (rho * w) * (rho * w)).
  { replace (rho * w * (rho * w)) with (rho * rho * (w * w)) by ring. rewrite Ws. nra. }
  assert (0 <= a * e2 * c) by (apply Rmult_le_pos; nra). assert (0 < rho * w) by nra. nra.
Qed.

(* a body value computed with a denominator in (0,1] lies in the interval *)
Lemma lat_J_of_quot d : 0 < d <= 1 -> lat_J (atan ((Z / rho) / d)).
Proof.
  intros Hd. split; [apply atan_bound|]. unfold lat_psi.
  split; intros Hz; apply atan_le.
  - assert (0 <= Z / rho) by (apply Rdiv_le_0_compat; lra).
    set (t := Z / rho) in *. clearbody t. apply Rle_div_r; [lra|nra].
  - assert (Z / rho <= 0) by (apply Rle_div_l; lra).
    set (t := Z / rho) in *. clearbody t. apply Rle_div_l; [lra|nra].
Qed.

Lemma lat_J_body x : lat_J x -> lat_J (lat_body ROps el Z rho x).
Proof. intros Hx. rewrite lat_body_eq. apply lat_J_of_quot. apply lat_J_den. exact Hx. Qed.

(* any latitude strictly inside (-PI/2, PI/2) whose denominator is positive is sent into the interval *)
Lemma lat_J_body_pos x : - PI / 2 < x < PI / 2 -> 0 < lat_den x -> lat_J (lat_body ROps el Z rho x).
Proof.
  intros Hx Hd. rewrite lat_body_eq. apply lat_J_of_quot. split; [exact Hd|].
  apply lat_den_le_1. pose proof (cos_pos_lat x Hx). lra.
Qed.

Lemma lat_J_convex x y z : lat_J x -> lat_J y -> Rmin x y <= z <= Rmax x y -> lat_J z.
Proof.
  intros [Hx [Px Nx]] [Hy [Py Ny]] Hz.
  unfold Rmin, Rmax in Hz.
  destruct (Rle_dec x y); (split; [lra|]); split; intros Hs;
    try (specialize (Px Hs); specialize (Py Hs)); try (specialize (Nx Hs); specialize (Ny Hs)); lra.
Qed.

(* the body is lat_q-Lipschitz on the interval *)
Lemma lat_body_contraction_J x y : lat_J x -> lat_J y ->
  Rabs (lat_body ROps el Z rho y - lat_body ROps el Z rho x) <= lat_q * Rabs (y - x).
Proof.
  intros Hx Hy. apply lat_body_lipschitz. intros z Hz.
  pose proof (lat_J_den z (lat_J_convex x y z Hx Hy Hz)). lra.
Qed.

Local Notation g := (lat_body ROps el Z rho).

(* termination: the step shrinks by lat_q at every pass *)
Lemma lat_loop_terminates_from n : forall fuel prev,
  lat_J prev -> Rabs (g prev - prev) * lat_q ^ n <= ecef_eps ROps -> (n <= fuel)%nat ->
  exists r, lat_loop ROps fuel el Z rho (g prev) (Rabs (g prev - prev)) = Some r.
Proof.
  pose proof lat_q_nonneg as Q0.
  induction n as [|n IH]; intros fuel prev Hp Hs Hf; cbn [pow] in Hs.
  - eexists. apply lat_loop_done. lra.
  - destruct fuel as [|f]; [lia|].
    destruct (Rle_or_lt (Rabs (g prev - prev)) (ecef_eps ROps)) as [Hd|Hd]; [eexists; apply lat_loop_done; exact Hd|].
    rewrite lat_loop_step by exact Hd. apply IH; [apply lat_J_body; exact Hp| |lia].
    pose proof (lat_body_contraction_J prev (g prev) Hp (lat_J_body prev Hp)) as L.
    assert (Pn : 0 <= lat_q ^ n) by (apply pow_le; exact Q0).
    apply Rle_trans with (lat_q * Rabs (g prev - prev) * lat_q ^ n); [|lra].
    apply Rmult_le_compat_r; [exact Pn|exact L].
Qed.

(* the first step is at most PI *)
Lemma lat_loop_terminates n fuel lat delta :
  lat_J lat -> PI * lat_q ^ n <= ecef_eps ROps -> (S n <= fuel)%nat ->
  exists r, lat_loop ROps fuel el Z rho lat delta = Some r.
Proof.
  intros Hl Hn Hf. destruct fuel as [|f]; [lia|].
  destruct (Rle_or_lt delta (ecef_eps ROps)) as [Hd|Hd]; [eexists; apply lat_loop_done; exact Hd|].
  rewrite lat_loop_step by exact Hd. apply (lat_loop_terminates_from n); [exact Hl| |lia].
  assert (Pn : 0 <= lat_q ^ n) by (apply pow_le; apply lat_q_nonneg).
  apply Rle_trans with (PI * lat_q ^ n); [|exact Hn].
  apply Rmult_le_compat_r; [exact Pn|].
  destruct Hl as [Hl _]. pose proof (atan_bound (Z / rho / lat_den lat)) as Hg.
  rewrite <- lat_body_eq in Hg. apply Rabs_le. lra.
Qed.

End Body.
