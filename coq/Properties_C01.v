(* Properties_C01.v — C01: ECEF <-> geodetic conversion is an accurate bijection near the Earth.
   Statements about the real-number instance of coq/GeodesyModel.v; the long proofs are in the Geodesy*.v files.
   Hypotheses on the ellipsoid: 0 < a, 0 <= e2 < 1 (every EarthEllipsoid(a,b) with 0 < b <= a meets them:
   C01_ellipsoid_parameters).  Latitudes strictly inside (-PI/2, PI/2), longitudes in (-PI, PI]. *)
From Coq Require Import Reals ZArith List Bool Lra.
From Romea Require Import Num NumR GeodesyModel GeodesyProofs.
From Romea.gen Require Import RepoConstants.
From Coquelicot Require Import Coquelicot.
From Romea Require Import GeodesyContraction GeodesyRoundtrip.
From Romea Require Import GeodesyCartesian.
From Romea Require Import SrcTie SrcTieC01.
From Romea.gen Require Import SrcFunsC01.
Local Open Scope R_scope.

(* EarthEllipsoid(a,b): b^2 = a^2 (1 - e2), 0 <= e2 < 1, e = sqrt e2 *)
Theorem C01_ellipsoid_parameters : forall a b, 0 < b <= a ->
  let el := make_ellipsoid ROps a b in
  el_a el = a /\ a * a * (1 - el_e2 el) = b * b /\ 0 <= el_e2 el < 1 /\ el_e el = sqrt (el_e2 el).
Proof.
  intros a b H el. destruct (make_ellipsoid_b2 a b) as [A B]; [lra|].
  exact (conj A (conj B (conj (make_ellipsoid_e2_range a b H) (make_ellipsoid_e a b)))).
Qed.
Print Assumptions C01_ellipsoid_parameters.

(* toECEF = foot point + h * unit normal, the foot point is on the ellipsoid, and the normal is the
   direction of the outward gradient of the ellipsoid's quadratic form at the foot point *)
Theorem C01_toECEF_on_normal : forall (el : ellipsoid (T:=R)) lat lon h,
  0 < el_a el -> 0 <= el_e2 el < 1 ->
  let a := el_a el in let e2 := el_e2 el in
  let F := foot el lat lon in let n := normal lat lon in
  toECEF ROps el (mkGeo lat lon h) = mkV3 (vx F + h * vx n) (vy F + h * vy n) (vz F + h * vz n) /\
  (vx F * vx F + vy F * vy F) / (a * a) + vz F * vz F / (a * a * (1 - e2)) = 1 /\
  vx n * vx n + vy n * vy n + vz n * vz n = 1 /\
  n = mkV3 (cos lat * cos lon) (cos lat * sin lon) (sin lat) /\
  exists k, 0 < k /\ 2 * vx F / (a * a) = k * vx n /\ 2 * vy F / (a * a) = k * vy n /\
            2 * vz F / (a * a * (1 - e2)) = k * vz n.
Proof.
  intros el lat lon h Ha He2 a e2 F n.
  split; [exact (toECEF_foot_plus_normal el lat lon h)|].
  split; [exact (foot_on_ellipsoid el Ha He2 lat lon)|].
  split; [exact (normal_unit lat lon)|].
  split; [reflexivity|].
  exists (2 * primeVertical ROps el lat / (a * a)). exact (foot_gradient_parallel el Ha He2 lat lon).
Qed.
Print Assumptions C01_toECEF_on_normal.

(* longitude is recovered exactly on (-PI, PI] (atan2) *)
Theorem C01_longitude_recovered : forall (el : ellipsoid (T:=R)) lat lon h,
  0 < el_a el -> 0 <= el_e2 el < 1 ->
  - PI / 2 < lat < PI / 2 -> - PI < lon <= PI -> - el_a el < h ->
  let p := toECEF ROps el (mkGeo lat lon h) in longitude_of ROps (vx p) (vy p) = lon.
Proof. intros el lat lon h Ha He2. exact (longitude_recovered el Ha He2 lat lon h). Qed.
Print Assumptions C01_longitude_recovered.

(* the true latitude is a fixed point of the loop body of toWGS84 *)
Theorem C01_latitude_fixed_point : forall (el : ellipsoid (T:=R)) lat lon h,
  0 < el_a el -> 0 <= el_e2 el < 1 ->
  - PI / 2 < lat < PI / 2 -> - el_a el * (1 - el_e2 el) < h ->
  let p := toECEF ROps el (mkGeo lat lon h) in
  lat_body ROps el (vz p) (hnorm ROps (vx p) (vy p)) lat = lat.
Proof.
  intros el lat lon h Ha He2 Hl Hh p.
  assert (Hh' : - el_a el < h) by nra.
  unfold p. rewrite (hnorm_toECEF el Ha He2 lat lon h Hl Hh').
  exact (lat_body_fixed_point el Ha He2 lat h Hl Hh).
Qed.
Print Assumptions C01_latitude_fixed_point.

(* geodetic -> ECEF -> geodetic, whenever the loop returns: longitude exact, latitude in range, and the
   height is exact as soon as the latitude is.   _partial: on this wide domain (any 0 <= e2 < 1, any height above
   -a(1-e2)) neither the return of the loop nor the 1e-9 rad / 1 mm accuracy is proved; both ARE proved on the
   near-Earth domain by C01_roundtrip_geodetic_accuracy / C01_latitude_loop_terminates / C01_roundtrip_geodetic below. *)
Theorem C01_roundtrip_geodetic_partial : forall (el : ellipsoid (T:=R)) fuel lat lon h g,
  0 < el_a el -> 0 <= el_e2 el < 1 ->
  - PI / 2 < lat < PI / 2 -> - PI < lon <= PI -> - el_a el * (1 - el_e2 el) < h ->
  toWGS84 ROps fuel el (toECEF ROps el (mkGeo lat lon h)) = Some g ->
  g_lon g = lon /\ - PI / 2 < g_lat g < PI / 2 /\ (g_lat g = lat -> g_alt g = h).
Proof.
  intros el fuel lat lon h g Ha He2 Hl Ho Hh H. assert (Hh' : - el_a el < h) by nra.
  destruct (toWGS84_ranges _ _ _ _ H) as [Hr _].
  destruct (toWGS84_exit fuel el _ g (fun _ => True) (fun _ _ => I) I H) as [Elon [Ealt _]].
  rewrite (hnorm_toECEF el Ha He2 lat lon h Hl Hh') in Ealt.
  split; [rewrite Elon; exact (longitude_recovered el Ha He2 lat lon h Hl Ho Hh')|]. split; [exact Hr|].
  intros E. rewrite Ealt, E. exact (height_recovered el He2 lat h Hl).
Qed.
Print Assumptions C01_roundtrip_geodetic_partial.

(* the exact solution is reproduced: the loop of toWGS84 started at the true latitude makes one pass and
   returns it, and longitude and height computed from it are the original ones *)
Theorem C01_roundtrip_at_fixed_point : forall (el : ellipsoid (T:=R)) fuel lat lon h,
  0 < el_a el -> 0 <= el_e2 el < 1 ->
  - PI / 2 < lat < PI / 2 -> - PI < lon <= PI -> - el_a el * (1 - el_e2 el) < h ->
  let p := toECEF ROps el (mkGeo lat lon h) in
  let norm := hnorm ROps (vx p) (vy p) in
  lat_loop ROps (S fuel) el (vz p) norm lat (nofDec ROps ecef_initial_delta_m ecef_initial_delta_e) = Some lat /\
  longitude_of ROps (vx p) (vy p) = lon /\
  altitude_of ROps el norm lat = h.
Proof.
  intros el fuel lat lon h Ha He2 Hl Ho Hh p norm. assert (Hh' : - el_a el < h) by nra.
  unfold norm, p. rewrite (hnorm_toECEF el Ha He2 lat lon h Hl Hh').
  split; [|split].
  - apply lat_loop_from_fixed_point; [exact (lat_body_fixed_point el Ha He2 lat h Hl Hh)|exact ecef_initial_delta_gt_eps].
  - exact (longitude_recovered el Ha He2 lat lon h Hl Ho Hh').
  - exact (height_recovered el He2 lat h Hl).
Qed.
Print Assumptions C01_roundtrip_at_fixed_point.

(* exit of the loop: the last pass moved the latitude by at most EPSILON <= 1e-11 (constant read from the source) *)
Theorem C01_loop_exit : forall (el : ellipsoid (T:=R)) fuel Z norm lat delta r,
  lat_loop ROps fuel el Z norm lat delta = Some r ->
  (r = lat /\ delta <= ecef_eps ROps) \/
  (exists prev, r = lat_body ROps el Z norm prev /\ Rabs (r - prev) <= ecef_eps ROps).
Proof.
  intros el fuel Z norm lat delta r H.
  destruct (lat_loop_exit el Z norm (fun _ => True) (fun _ _ => I) fuel lat delta r I H) as [E|[prev [_ E]]];
    [left; exact E|right; exists prev; exact E].
Qed.
Print Assumptions C01_loop_exit.

Theorem C01_epsilon_from_source : 0 < ecef_eps ROps <= / 100000000000.
Proof. rewrite ecef_eps_eq. lra. Qed.
Print Assumptions C01_epsilon_from_source.

(* conditional accuracy of the exit: q-Lipschitz body between the last iterate and the fixed point
   ==> error <= q*eps/(1-q).   _partial: abstract lemma in which q is a premise; the premise is discharged with
   q = 1.04 e2 on the near-Earth domain by C01_latitude_contraction, and the combination is
   C01_roundtrip_latitude_accuracy below. *)
Theorem C01_latitude_exit_error_partial : forall (g : R -> R) q eps x fx,
  0 <= q < 1 -> g fx = fx -> Rabs (g x - g fx) <= q * Rabs (x - fx) -> Rabs (g x - x) <= eps ->
  Rabs (g x - fx) <= q * eps / (1 - q).
Proof. exact contraction_exit_error. Qed.
Print Assumptions C01_latitude_exit_error_partial.

(* every result is in range: latitude in (-PI/2,PI/2), longitude in [-PI,PI]; the asserts of
   makeGeodeticCoordinates hold *)
Theorem C01_result_ranges : forall fuel (el : ellipsoid (T:=R)) p g,
  toWGS84 ROps fuel el p = Some g ->
  - PI / 2 < g_lat g < PI / 2 /\ - PI <= g_lon g <= PI /\ geodetic_in_range ROps g = true.
Proof. exact toWGS84_ranges. Qed.
Print Assumptions C01_result_ranges.

(* ---- the code before the repair (longitude = 2*atan(Y/(X+norm))) ---- *)
(* the formula is undefined (0/0) exactly on the antimeridian ray ... *)
Theorem C01_half_angle_undefined_iff : forall X Y,
  longitude_half_angle ROps X Y = None <-> (Y = 0 /\ X <= 0).
Proof. exact longitude_half_angle_none_iff. Qed.
Print Assumptions C01_half_angle_undefined_iff.

(* ... and agrees with the longitude elsewhere *)
Theorem C01_half_angle_value : forall r lon, 0 < r -> - PI < lon < PI ->
  longitude_half_angle ROps (r * cos lon) (r * sin lon) = Some lon.
Proof. exact longitude_half_angle_value. Qed.
Print Assumptions C01_half_angle_value.

(* "every result is finite" is false of the unrepaired code: witness replayed on the implementation
   (checks/C01.py, first case of the group "cartesian") *)
Theorem C01_half_angle_total_refuted : exists p : vec3 (T:=R),
  forall fuel el, toWGS84_half_angle ROps fuel el p = None.
Proof.
  exists (mkV3 (-5000000) 0 3000000). intros fuel el. unfold toWGS84_half_angle. cbn [vx vy].
  rewrite (proj2 (longitude_half_angle_none_iff (-5000000) 0)); [reflexivity|split; lra].
Qed.
Print Assumptions C01_half_angle_total_refuted.

(* ---- non-vacuity: GRS80 at (45 deg, 3 deg, 365 m) meets every hypothesis ---- *)
Example C01_hypotheses_satisfiable :
  let el := grs80 ROps in
  0 < el_a el /\ 0 <= el_e2 el < 1 /\
  - PI / 2 < PI / 4 < PI / 2 /\ - PI < PI / 60 <= PI /\ - el_a el * (1 - el_e2 el) < 365.
Proof.
  assert (R : 0 < 6356752314 * / 1000 <= 6378137) by lra.
  pose proof (make_ellipsoid_e2_range 6378137 (6356752314 * / 1000) R) as E.
  cbv zeta. rewrite grs80_eq. pose proof PI_RGT_0.
  split; [cbn; lra|]. split; [exact E|]. split; [lra|]. split; [lra|].
  change (el_a (make_ellipsoid ROps 6378137 (6356752314 * / 1000))) with 6378137. nra.
Qed.

(* ================================================================== convergence of the latitude iteration
   Loop body (ECEFConverter.cpp:70-75), Z and norm fixed:  g(lat) = atan((Z/norm)/D(lat)),
   D(lat) = 1 - a e2 cos(lat)/(norm W(lat)),  W(lat) = sqrt(1 - e2 sin^2 lat).
   Near-Earth domain of the theorems below: 0 < a, 0 <= e2 <= 1/100 (GRS80: 0.0067), -PI/2 < lat < PI/2, h >= -a/100
   (a superset of the property's domain: flattening <= 1/290 gives e2 < 0.0069, h >= -11 km > -a/100). *)

(* 1. derivative of the body wherever its denominator does not vanish (at D = 0 the C++ evaluates atan(+-inf) and the
   map jumps between +-PI/2: it is not even continuous there) *)
Theorem C01_latitude_body_derivative : forall (el : ellipsoid (T:=R)) Z norm lat,
  0 <= el_e2 el < 1 -> 0 < norm ->
  let a := el_a el in let e2 := el_e2 el in
  let W := sqrt (1 - e2 * sin lat * sin lat) in
  let D := 1 - a * e2 * cos lat / (norm * W) in
  D <> 0 ->
  is_derive (lat_body ROps el Z norm) lat
    (- (Z * (e2 * a * (1 - e2)) * sin lat) / (W * W * W * ((norm * D) * (norm * D) + Z * Z))).
Proof. intros el Z norm lat He2 Hn. exact (lat_body_is_derive el He2 Z norm Hn lat). Qed.
Print Assumptions C01_latitude_body_derivative.

(* its absolute value is at most e2 a / (sqrt(1-e2) (|p| - e2 a)) at EVERY latitude, for every Cartesian point
   p = (norm, Z) farther than e2 a (43 km) from the centre *)
Theorem C01_latitude_body_derivative_bound : forall (el : ellipsoid (T:=R)) Z norm lat,
  0 < el_a el -> 0 <= el_e2 el < 1 -> 0 < norm -> el_e2 el * el_a el < sqrt (norm * norm + Z * Z) ->
  Rabs (lat_body_deriv el Z norm lat)
  <= el_e2 el * el_a el / (sqrt (1 - el_e2 el) * (sqrt (norm * norm + Z * Z) - el_e2 el * el_a el)).
Proof. intros el Z norm lat Ha He2 Hn Hf. exact (lat_body_deriv_bound el Ha He2 Z norm Hn Hf lat). Qed.
Print Assumptions C01_latitude_body_derivative_bound.

(* the interval the iterates live in: between the geocentric latitude atan(Z/norm) and the pole on the side of Z *)
Theorem C01_invariant_interval : forall Z norm x,
  lat_J Z norm x <->
  (- PI / 2 < x < PI / 2 /\ (0 <= Z -> atan (Z / norm) <= x) /\ (Z <= 0 -> x <= atan (Z / norm))).
Proof. intros Z norm x. exact (iff_refl _). Qed.
Print Assumptions C01_invariant_interval.

(* 2. contraction with q = 1.04 e2 <= 0.0104: for p = toECEF(lat0, lon0, h) in the domain the interval contains the true
   latitude (a fixed point) and the first guess of toWGS84, is mapped into itself by the body, the denominator D stays
   in (0,1] on it, and the body is q-Lipschitz on it (mean value theorem).  No neighbourhood of the poles is excluded. *)
Theorem C01_latitude_contraction : forall (el : ellipsoid (T:=R)) lat0 lon0 h,
  0 < el_a el -> 0 <= el_e2 el <= / 100 -> - PI / 2 < lat0 < PI / 2 -> - el_a el / 100 <= h ->
  let p := toECEF ROps el (mkGeo lat0 lon0 h) in
  let Z := vz p in let norm := hnorm ROps (vx p) (vy p) in
  let g := lat_body ROps el Z norm in
  let q := 26 / 25 * el_e2 el in
  q <= 13 / 1250 /\
  lat_J Z norm lat0 /\ g lat0 = lat0 /\
  lat_J Z norm (lat_first_guess ROps el (vx p) (vy p) Z) /\
  (forall x, lat_J Z norm x -> lat_J Z norm (g x)) /\
  (forall x, lat_J Z norm x -> 0 < lat_den el norm x <= 1) /\
  (forall x y, lat_J Z norm x -> lat_J Z norm y -> Rabs (g y - g x) <= q * Rabs (y - x)).
Proof. intros el lat0 lon0 h Ha He Hl Hh. exact (ne_contraction el Ha He lat0 lon0 h Hl Hh). Qed.
Print Assumptions C01_latitude_contraction.

(* away from the poles (cos lat0 >= 1/97, i.e. |lat0| <= 89.4 deg: the point is farther than a e2 from the axis) the
   denominator is positive at every latitude and the bound holds for ALL pairs of reals.  Closer to the axis this is
   false: D changes sign at some latitude between the equator and atan(Z/norm), where the body jumps. *)
Theorem C01_latitude_contraction_global : forall (el : ellipsoid (T:=R)) lat0 lon0 h,
  0 < el_a el -> 0 <= el_e2 el <= / 100 -> - PI / 2 < lat0 < PI / 2 -> / 97 <= cos lat0 -> - el_a el / 100 <= h ->
  let p := toECEF ROps el (mkGeo lat0 lon0 h) in
  let Z := vz p in let norm := hnorm ROps (vx p) (vy p) in
  let g := lat_body ROps el Z norm in
  el_a el * el_e2 el < norm /\
  (forall x, 0 < lat_den el norm x) /\
  forall x y, Rabs (g y - g x) <= 26 / 25 * el_e2 el * Rabs (y - x).
Proof. intros el lat0 lon0 h Ha He Hl Hc Hh. exact (ne_contraction_global el Ha He lat0 lon0 h Hl Hh Hc). Qed.
Print Assumptions C01_latitude_contraction_global.

(* 3a. unconditional exit accuracy of the latitude: whenever toWGS84 returns, q eps/(1-q) <= 1.1e-13 rad *)
Theorem C01_roundtrip_latitude_accuracy : forall (el : ellipsoid (T:=R)) fuel lat lon h g,
  0 < el_a el -> 0 <= el_e2 el <= / 100 -> - PI / 2 < lat < PI / 2 -> - el_a el / 100 <= h ->
  toWGS84 ROps fuel el (toECEF ROps el (mkGeo lat lon h)) = Some g ->
  let q := 26 / 25 * el_e2 el in
  Rabs (g_lat g - lat) <= q * ecef_eps ROps / (1 - q) /\
  q * ecef_eps ROps / (1 - q) <= 11 / 100 * / 1000000000000.
Proof. intros el fuel lat lon h g Ha He Hl Hh. exact (ne_latitude_accuracy el Ha He lat lon h Hl Hh fuel g). Qed.
Print Assumptions C01_roundtrip_latitude_accuracy.

(* 3b. geodetic -> ECEF -> geodetic within 1e-9 rad and 1 mm, longitude exact.  The height norm/cos(lat) - N(lat) has
   sensitivity (N+h) tan(lat) to the latitude error, hence the bounds a <= 7e6 m, h <= 100 km and cos lat >= 1/600
   (|lat| <= 89.904 deg; the property asks 89.9 deg).  At the poles themselves (norm = 0) the C++ divides by zero. *)
Theorem C01_roundtrip_geodetic_accuracy : forall (el : ellipsoid (T:=R)) fuel lat lon h g,
  0 < el_a el <= 7000000 -> 0 <= el_e2 el <= / 100 ->
  - PI / 2 < lat < PI / 2 -> / 600 <= cos lat -> - PI < lon <= PI -> - el_a el / 100 <= h <= 100000 ->
  toWGS84 ROps fuel el (toECEF ROps el (mkGeo lat lon h)) = Some g ->
  g_lon g = lon /\ Rabs (g_lat g - lat) <= / 1000000000 /\ Rabs (g_alt g - h) <= / 1000.
Proof.
  intros el fuel lat lon h g [Ha Ha7] He Hl Hc Hlon [Hh Hh5].
  exact (ne_roundtrip_accuracy el Ha He lat lon h Hl Hh Ha7 Hh5 Hc fuel g Hlon).
Qed.
Print Assumptions C01_roundtrip_geodetic_accuracy.

(* 4. termination: the C++ loop `while (delta > EPSILON)` has no iteration cap; the model's fuel counts passes and
   None means "more than fuel passes".  Over the reals the step shrinks by q at every pass from at most PI, and
   PI * 0.0104^6 <= 1e-11 = EPSILON: at most 7 passes on the whole domain. *)
Theorem C01_latitude_loop_terminates : forall (el : ellipsoid (T:=R)) fuel lat lon h,
  0 < el_a el -> 0 <= el_e2 el <= / 100 -> - PI / 2 < lat < PI / 2 -> - el_a el / 100 <= h ->
  (7 <= fuel)%nat ->
  exists g, toWGS84 ROps fuel el (toECEF ROps el (mkGeo lat lon h)) = Some g.
Proof. intros el fuel lat lon h Ha He Hl Hh. exact (ne_terminates el Ha He lat lon h Hl Hh fuel). Qed.
Print Assumptions C01_latitude_loop_terminates.

(* 3 + 4: the round trip geodetic -> ECEF -> geodetic of the property statement, over the reals *)
Theorem C01_roundtrip_geodetic : forall (el : ellipsoid (T:=R)) fuel lat lon h,
  0 < el_a el <= 7000000 -> 0 <= el_e2 el <= / 100 ->
  - PI / 2 < lat < PI / 2 -> / 600 <= cos lat -> - PI < lon <= PI -> - el_a el / 100 <= h <= 100000 ->
  (7 <= fuel)%nat ->
  exists g, toWGS84 ROps fuel el (toECEF ROps el (mkGeo lat lon h)) = Some g /\
    g_lon g = lon /\ Rabs (g_lat g - lat) <= / 1000000000 /\ Rabs (g_alt g - h) <= / 1000.
Proof.
  intros el fuel lat lon h [Ha Ha7] He Hl Hc Hlon [Hh Hh5] Hf.
  destruct (ne_terminates el Ha He lat lon h Hl Hh fuel Hf) as [g Hg]. exists g. split; [exact Hg|].
  exact (ne_roundtrip_accuracy el Ha He lat lon h Hl Hh Ha7 Hh5 Hc fuel g Hlon Hg).
Qed.
Print Assumptions C01_roundtrip_geodetic.

(* non-vacuity of the near-Earth domain: GRS80 at latitude 89.9 deg, height -11 km *)
Example C01_near_earth_domain_satisfiable :
  let el := grs80 ROps in
  0 < el_a el <= 7000000 /\ 0 <= el_e2 el <= / 100 /\
  - PI / 2 < 899 / 1800 * PI < PI / 2 /\ / 600 <= cos (899 / 1800 * PI) /\
  - el_a el / 100 <= -11000 <= 100000.
Proof. exact grs80_in_domain. Qed.

(* 5. the reverse composition Cartesian -> geodetic -> Cartesian of the property statement, over the reals, for an
   ARBITRARY point (no geodetic pre-image assumed) with |p| >= 0.98 a inside the cone |Z| <= 600 norm (geocentric
   latitude <= 89.904 deg): toWGS84 returns within 7 passes and toECEF of the result reproduces X and Y exactly
   (the height formula norm/cos(lat) - N makes the horizontal part exact for ANY latitude) and Z within 1 mm
   (Z' - Z = Z (D(lat) - D(prev))/D(prev) with |lat - prev| <= EPSILON at the exit and D >= 0.98 on the interval). *)

Theorem C01_roundtrip_cartesian : forall (el : ellipsoid (T:=R)) fuel X Y Z,
  0 < el_a el <= 7000000 -> 0 <= el_e2 el <= / 100 ->
  let norm := hnorm ROps X Y in
  0 < norm -> 98 / 100 * el_a el <= sqrt (norm * norm + Z * Z) -> Rabs Z <= 600 * norm ->
  (7 <= fuel)%nat ->
  exists g, toWGS84 ROps fuel el (mkV3 X Y Z) = Some g /\
    let p' := toECEF ROps el g in vx p' = X /\ vy p' = Y /\ Rabs (vz p' - Z) <= / 1000.
Proof.
  intros el fuel X Y Z [Ha Ha7] He norm Hn Hr Hc Hf.
  destruct (near_terminates el Ha He (mkV3 X Y Z) Hn Hr fuel Hf) as [g Hg]. exists g. split; [exact Hg|].
  exact (cart_roundtrip el Ha He X Y Z Hn Hr Ha7 Hc fuel g Hg).
Qed.
Print Assumptions C01_roundtrip_cartesian.

(* every Cartesian point produced from the geodetic domain (|lat| <= 89.904 deg, h >= -a/100) meets the hypotheses of
   C01_roundtrip_cartesian *)
Theorem C01_cartesian_domain_covers_geodetic : forall (el : ellipsoid (T:=R)) lat lon h,
  0 < el_a el -> 0 <= el_e2 el <= / 100 -> - PI / 2 < lat < PI / 2 -> / 600 <= cos lat -> - el_a el / 100 <= h ->
  let p := toECEF ROps el (mkGeo lat lon h) in let norm := hnorm ROps (vx p) (vy p) in
  0 < norm /\ 98 / 100 * el_a el <= sqrt (norm * norm + vz p * vz p) /\ Rabs (vz p) <= 600 * norm.
Proof. intros el lat lon h. exact (toECEF_in_cartesian_domain el lat lon h). Qed.
Print Assumptions C01_cartesian_domain_covers_geodetic.

Example C01_cartesian_domain_satisfiable :
  let el := grs80 ROps in let norm := hnorm ROps 6000000 0 in
  0 < norm /\ 98 / 100 * el_a el <= sqrt (norm * norm + 2000000 * 2000000) /\ Rabs 2000000 <= 600 * norm.
Proof. exact cartesian_domain_example. Qed.

(* syntactic tie of the ellipsoid constructor, the forward map and the inverse map to the current source
   (gen/SrcFunsC01.v is regenerated from the clang AST of src/geodesy/EarthEllipsoid.cpp and ECEFConverter.cpp on
   every run) *)

Theorem C01_source_tie_ellipsoid : forall (T : Type) (N : NumOps T) (A B : T),
  src_makeEllipsoid N A B = (let el := make_ellipsoid N A B in (el_a el, el_b el, el_e2 el, el_e el)).
Proof. exact tie_makeEllipsoid. Qed.
Print Assumptions C01_source_tie_ellipsoid.

Theorem C01_source_tie_toECEF : forall (el : ellipsoid (T:=R)) (g : geodetic (T:=R)),
  src_toECEF ROps (el_a el) (el_e2 el) (g_alt g) (g_lat g) (g_lon g)
  = (vx (toECEF ROps el g), vy (toECEF ROps el g), vz (toECEF ROps el g)).
Proof. exact tie_toECEF. Qed.
Print Assumptions C01_source_tie_toECEF.

(* the INVERSE map, loop included: ECEFConverter::toWGS84 regenerated from the clang AST (the while loop becomes a local
   fix on the fuel argument) is the model's toWGS84 for every fuel; None = the loop is still running after `fuel` passes *)
Theorem C01_source_tie_toWGS84 : forall fuel (el : ellipsoid (T:=R)) (p : vec3 (T:=R)),
  src_ecefToWGS84 ROps fuel (vx p) (vy p) (vz p) (el_a el) (el_e2 el)
  = match toWGS84 ROps fuel el p with None => None | Some g => Some (g_lat g, g_lon g, g_alt g) end.
Proof. exact tie_ecefToWGS84. Qed.
Print Assumptions C01_source_tie_toWGS84.
