(* PoseJacProofs.v — C12, what the Jacobian theorem needs beside the derivatives, and the algebra of the covariances (read
   after Atan2Deriv, DerivProofs; before PoseJacDeriv, PoseJacCharts): J*C*J^T keeps symmetry and positive
   semi-definiteness, the local derivative matrices of the repaired operator*(Affine3d, Pose3D) are the true ones, the
   original Jacobian is refuted at the identity, and the least-squares covariance formula for a diagonal preconditioner. *)
From Coq Require Import Reals ZArith Lra Lia Psatz Nsatz Arith Bool.
From Coquelicot Require Import Coquelicot.
From Romea Require Import Num NumR AnglesModel AnglesProofs AnglesRoundtrip PoseCovModel PoseCovProofs DerivProofs.
Local Open Scope R_scope.

(* ---------------- J*C*J^T ---------------- *)
Definition jt_apply (n : nat) (j : mat R) (x : vec R) : vec R := fun l => rsum n (fun i => j i l * x i).

Lemma quad_as_rows n m x : quad n m x = rsum n (fun i => x i * rsum n (fun j => m i j * x j)).
Proof.
  unfold quad. apply rsum_ext. intros i _. rewrite <- rsum_scal. apply rsum_ext. intros j _. ring.
Qed.

Lemma congruence_quad n j c x :
  quad n (gmul ROps n (gmul ROps n j c) (gtrans j)) x = quad n c (jt_apply n j x).
Proof.
  set (y := jt_apply n j x). set (a := gmul ROps n j c).
  (* rows of (a j^T) x = a y *)
  assert (S2 : forall i, rsum n (fun q => gmul ROps n a (gtrans j) i q * x q) = rsum n (fun k => a i k * y k)).
  { intros i. unfold gmul at 1, gtrans.
    transitivity (rsum n (fun q => rsum n (fun k => a i k * (j q k * x q)))).
    { apply rsum_ext. intros q _. rewrite <- rsum_scal_r. apply rsum_ext. intros k _. rcbn. ring. }
    rewrite rsum_swap. apply rsum_ext. intros k _. rewrite rsum_scal. reflexivity. }
  (* x^T a = y^T c *)
  assert (S4 : forall k, rsum n (fun i => x i * a i k) = rsum n (fun m => y m * c m k)).
  { intros k. unfold a, gmul.
    transitivity (rsum n (fun i => rsum n (fun m => (j i m * x i) * c m k))).
    { apply rsum_ext. intros i _. rewrite <- rsum_scal. apply rsum_ext. intros m _. rcbn. ring. }
    rewrite rsum_swap. apply rsum_ext. intros m _. rewrite rsum_scal_r. reflexivity. }
  rewrite quad_as_rows.
  transitivity (rsum n (fun i => rsum n (fun k => (x i * a i k) * y k))).
  { apply rsum_ext. intros i _. fold a. rewrite S2, <- rsum_scal. apply rsum_ext. intros k _. ring. }
  rewrite rsum_swap.
  transitivity (rsum n (fun k => rsum n (fun m => y m * c m k * y k))).
  { apply rsum_ext. intros k _. rewrite rsum_scal_r, S4, <- rsum_scal_r. reflexivity. }
  unfold quad. rewrite rsum_swap. reflexivity.
Qed.

Lemma congruence_psd n j c : gpsd n c -> gpsd n (gmul ROps n (gmul ROps n j c) (gtrans j)).
Proof. intros H x. rewrite congruence_quad. apply H. Qed.

Lemma congruence_sym n j c : gsym n c -> gsym n (gmul ROps n (gmul ROps n j c) (gtrans j)).
Proof.
  intros H p q Hp Hq. unfold gmul, gtrans. rcbn.
  transitivity (rsum n (fun k => rsum n (fun l => j p l * c l k * j q k))).
  { apply rsum_ext. intros k _. rewrite <- rsum_scal_r. reflexivity. }
  rewrite rsum_swap. apply rsum_ext. intros l Hl. rewrite <- rsum_scal_r. apply rsum_ext. intros k Hk.
  rewrite (H l k Hl Hk). ring.
Qed.

(* ---------------- the derivative matrices built at the call site are the true ones ----------------
   dS/dx = S*[ex]x, dS/dy = [Rz ey]x*S, dS/dz = [ez]x*S (PoseCovModel.v), and the derivative of an elementary rotation is
   that rotation times the skew matrix of its axis, on either side.  In S = Rz*Ry*Rx the skew matrices of x and z stand
   next to their rotations; that of y gets there through [Rz ey]x * Rz = Rz * [ey]x.  The rest is associativity. *)
Definition skewX : mat3 R := mkM3 0 0 0  0 0 (-1)  0 1 0.
Definition skewY : mat3 R := mkM3 0 0 1  0 0 0  (-1) 0 0.
Definition skewZ : mat3 R := mkM3 0 (-1) 0  1 0 0  0 0 0.
Definition skewN (z : R) : mat3 R := mkM3 0 0 (cos z)  0 0 (sin z)  (- cos z) (- sin z) 0.

Lemma dSdX_of_mul s : dSdX_of ROps s = mmul3 ROps s skewX.
Proof. destruct s as [a b c d e f g h i]. unfold dSdX_of, mcols3, mcol3, vneg3, mmul3, skewX. cbn [v0 v1 v2 m00 m01 m02 m10 m11 m12 m20 m21 m22]. rcbn. f_equal; ring. Qed.
Lemma dSdY_of_mul s z : dSdY_of ROps s z = mmul3 ROps (skewN z) s.
Proof. destruct s as [a b c d e f g h i]. unfold dSdY_of, mcols3, mcol3, cross3, mmul3, skewN. cbn [v0 v1 v2 m00 m01 m02 m10 m11 m12 m20 m21 m22]. rcbn. f_equal; ring. Qed.
Lemma dSdZ_of_mul s : dSdZ_of ROps s = mmul3 ROps skewZ s.
Proof. destruct s as [a b c d e f g h i]. unfold dSdZ_of, mmul3, skewZ. cbn [m00 m01 m02 m10 m11 m12 m20 m21 m22]. rcbn. f_equal; ring. Qed.

Lemma dRX_mul x : dRX x = mmul3 ROps (RX x) skewX.
Proof. unfold dRX, RX, Rx_of, mmul3, skewX. rcbn. f_equal; ring. Qed.
Lemma dRY_mul y : dRY y = mmul3 ROps skewY (RY y).
Proof. unfold dRY, RY, Ry_of, mmul3, skewY. rcbn. f_equal; ring. Qed.
Lemma dRZ_mul z : dRZ z = mmul3 ROps skewZ (RZ z).
Proof. unfold dRZ, RZ, Rz_of, mmul3, skewZ. rcbn. f_equal; ring. Qed.
Lemma skewN_RZ z : mmul3 ROps (skewN z) (RZ z) = mmul3 ROps (RZ z) skewY.
Proof. pose proof (sc1 z). unfold RZ, Rz_of, mmul3, skewN, skewY. rcbn. f_equal; nra. Qed.

Lemma dSd_of_true x y z :
  dSdX_of ROps (rot_zyx x y z) = dRdX_true x y z /\
  dSdY_of ROps (rot_zyx x y z) z = dRdY_true x y z /\
  dSdZ_of ROps (rot_zyx x y z) = dRdZ_true x y z.
Proof.
  unfold rot_zyx, dRdX_true, dRdY_true, dRdZ_true. split; [|split].
  - rewrite dSdX_of_mul, mmul3_assoc, <- dRX_mul. reflexivity.
  - rewrite dSdY_of_mul, <- !mmul3_assoc, skewN_RZ, (mmul3_assoc (RZ z)), <- dRY_mul. reflexivity.
  - rewrite dSdZ_of_mul, <- !mmul3_assoc, <- dRZ_mul. reflexivity.
Qed.

(* ---------------- refutation of the original Jacobian ---------------- *)
Definition J0 : mat R := pose_J_v0 ROps (mid3 ROps) (mkV3 0 0 0).

Lemma smart0 : smart_init ROps 0 0 0 =
  mkSmart (mkM3 1 0 0  0 1 0  0 0 1) (mkM3 1 0 0  0 0 (-1)  0 1 0) (mkM3 0 0 1  0 1 0  (-1) 0 0) (mkM3 0 (-1) 0  1 0 0  0 0 1).
Proof.
  unfold smart_init. rcbn. rewrite sin_0, cos_0. unfold Rx_of, Ry_of, Rz_of, dRx_of, dRy_of, dRz_of. rcbn. rewrite Ropp_0.
  change (mkM3 1 0 0  0 1 0  0 0 1) with (mid3 ROps). rewrite !mmul3_id_l, !mmul3_id_r. reflexivity.
Qed.

Lemma J0_angular : pose_J_angular_v0 ROps (mid3 ROps) (mkV3 0 0 0) = mkM3 1 0 0  0 (-1) 0  0 0 1.
Proof.
  unfold pose_J_angular_v0. cbn [v0 v1 v2]. rewrite smart0. cbn [sR sdX sdY sdZ]. rewrite mmul3_id_l. unfold mid3.
  cbn [m00 m01 m02 m10 m11 m12 m20 m21 m22 v0 v1 v2]. rcbn. f_equal; field.
Qed.

Ltac eval_J0 := unfold J0, pose_J_v0, block6; cbn [Nat.ltb Nat.leb Nat.sub]; rewrite ?J0_angular; cbn [mget3 m00 m01 m02 m10 m11 m12 m20 m21 m22];
  try reflexivity.

Lemma J0_row3 : J0 3%nat 0%nat = 0 /\ J0 3%nat 1%nat = 0 /\ J0 3%nat 2%nat = 0 /\
                J0 3%nat 3%nat = 1 /\ J0 3%nat 4%nat = 0 /\ J0 3%nat 5%nat = 0.
Proof. repeat split; eval_J0. Qed.
Lemma J0_row4 : J0 4%nat 0%nat = 0 /\ J0 4%nat 1%nat = 0 /\ J0 4%nat 2%nat = 0 /\
                J0 4%nat 3%nat = 0 /\ J0 4%nat 4%nat = -1 /\ J0 4%nat 5%nat = 0.
Proof. repeat split; eval_J0. Qed.

(* the covariance with unit variances and a (roll, pitch) cross term 1/2 *)
Definition Cwit : mat R := fun i j =>
  if Nat.eqb i j then 1 else if (Nat.eqb i 3 && Nat.eqb j 4) || (Nat.eqb i 4 && Nat.eqb j 3) then / 2 else 0.

Lemma Cwit_sym_psd : gsym 6 Cwit /\ gpsd 6 Cwit.
Proof.
  split.
  - intros i j _ _. unfold Cwit.
    rewrite (Nat.eqb_sym i j), orb_comm, (andb_comm (Nat.eqb i 4)), (andb_comm (Nat.eqb i 3)). reflexivity.
  - intros x. unfold quad, Cwit. cbn. nra.
Qed.

Lemma pose_cov_identity_refuted :
  J0 4%nat 4%nat <> 1 /\
  pose_cov ROps J0 Cwit 3%nat 4%nat = - / 2 /\ Cwit 3%nat 4%nat = / 2.
Proof.
  destruct J0_row3 as [A0 [A1 [A2 [A3 [A4 A5]]]]]. destruct J0_row4 as [B0 [B1 [B2 [B3 [B4 B5]]]]].
  split; [rewrite B4; lra|]. split; [|reflexivity].
  unfold pose_cov, gmul, gtrans. cbn [nsum]. rcbn.
  rewrite A0, A1, A2, A3, A4, A5, B0, B1, B2, B3, B4, B5. unfold Cwit. cbn. lra.
Qed.

(* ---------------- least squares: covariance through a diagonal preconditioner ---------------- *)
Definition gdiagonal (n : nat) (a : mat R) : Prop := forall i j, (i < n)%nat -> (j < n)%nat -> i <> j -> a i j = 0.

Lemma ls_covariance_diag n a inv v i j : gdiagonal n a -> (i < n)%nat -> (j < n)%nat ->
  ls_covariance ROps n a inv v i j = v * (a i i * inv i j * a j j) /\
  ls_covariance ROps n a inv v i j = gscale ROps (gmul ROps n (gmul ROps n a inv) (gtrans a)) v i j.
Proof.
  intros Hd Hi Hj. unfold ls_covariance, gscale, gmul, gtrans. rcbn.
  assert (M : rsum n (fun k => rsum n (fun l => a i l * inv l k) * a j k) = a i i * inv i j * a j j).
  { rewrite (rsum_single n j) by (try assumption; intros k Hk Hne; rewrite (Hd j k) by auto; ring).
    rewrite (rsum_single n i) by (try assumption; intros k Hk Hne; rewrite (Hd i k) by auto; ring).
    reflexivity. }
  rewrite M. split; ring.
Qed.
