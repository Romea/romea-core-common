(* PoseJacMrot.v — C12: the matrix l * Rz*Ry*Rx whose entries PoseJacDeriv.v differentiate (dM_x, dM_y, dM_z). *)
From Coq Require Import Reals.
From Romea Require Import Num NumR AnglesModel AnglesProofs PoseCovModel.
Local Open Scope R_scope.

Definition Mrot (l : mat3 R) (x y z : R) : mat3 R := mmul3 ROps l (rot_zyx x y z).

