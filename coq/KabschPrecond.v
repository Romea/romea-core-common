(* KabschPrecond.v — C04: isotropic preconditioning (the same scale c <> 0 on both sets, PreconditionedPointSet(points, c))
   followed by the division of the translation column by the scale: the matrix returned by the preconditioned [find]
   overloads is again a least-squares optimal proper rigid motion FOR THE ORIGINAL pairs, and on exact data of rank >= d-1 it
   is (R0, tau0) — the same matrix as without preconditioning. *)
From Coq Require Import Reals List Arith ZArith Lia Lra Bool Psatz.
From Romea Require Import Num NumR LinAlgBModel LinAlgBProofs LsProofs KabschModel KabschProofs KabschProper KabschLists.
Import ListNotations.
Local Open Scope R_scope.

Local Notation mg := (mget ROps).
Local Notation vg := (vget ROps).

Definition scale_pt (c : R) (p : list R) : list R := map (fun x => x * c) p.
Definition scale_pairs (c : R) (pairs : list (list R * list R)) : list (list R * list R) :=
  map (fun st => (scale_pt c (fst st), scale_pt c (snd st))) pairs.

Lemma vg_scale_pt c p i : vg (scale_pt c p) i = vg p i * c.
Proof.
  unfold vget, scale_pt. rsimpl. revert i. induction p as [|x p IH]; intros [|i]; cbn [map nth]; try ring. apply IH.
Qed.

Lemma nth_scale_pairs c pairs n :
  nth n (scale_pairs c pairs) ([], []) = (scale_pt c (fst (nth n pairs ([], []))), scale_pt c (snd (nth n pairs ([], [])))).
Proof.
  unfold scale_pairs.
  change (@nil R, @nil R) with ((fun st : list R * list R => (scale_pt c (fst st), scale_pt c (snd st))) ([], [])) at 1.
  now rewrite map_nth.
Qed.

Lemma p_N_scale c pairs : p_N (scale_pairs c pairs) = p_N pairs.
Proof. unfold p_N, scale_pairs. apply map_length. Qed.
Lemma p_src_scale c pairs n i : p_src (scale_pairs c pairs) n i = p_src pairs n i * c.
Proof. unfold p_src. rewrite nth_scale_pairs. cbn [fst]. apply vg_scale_pt. Qed.
Lemma p_tgt_scale c pairs n i : p_tgt (scale_pairs c pairs) n i = p_tgt pairs n i * c.
Proof. unfold p_tgt. rewrite nth_scale_pairs. cbn [snd]. apply vg_scale_pt. Qed.

Lemma p_sm_scale c ps pairs i : (i < ps)%nat -> vg (p_sm ps (scale_pairs c pairs)) i = vg (p_sm ps pairs) i * c.
Proof.
  intros Hi. rewrite !p_sm_get by exact Hi. rewrite p_N_scale.
  rewrite (Rsum_ext (p_N pairs) _ (fun n => p_src pairs n i * c)) by (intros; apply p_src_scale).
  rewrite Rsum_scal_r. unfold Rdiv. ring.
Qed.

Lemma Sc_scale c ps pairs n i : (i < ps)%nat -> Sc ps (scale_pairs c pairs) n i = Sc ps pairs n i * c.
Proof. intros Hi. unfold Sc. rewrite p_src_scale, p_sm_scale by exact Hi. ring. Qed.

(* the cost of (Q, t) on the scaled pairs is c^2 times the cost of (Q, t / c) on the original pairs *)
Lemma fcost_scale d c pairs Q t : c <> 0 ->
  fcost d (scale_pairs c pairs) Q t = c * c * fcost d pairs Q (fun i => t i / c).
Proof.
  intros Hc. unfold fcost. rewrite p_N_scale. rewrite <- Rsum_scal_l. apply Rsum_ext. intros n _.
  rewrite <- Rsum_scal_l. apply Rsum_ext. intros i _.
  rewrite (Rsum_ext d (fun j => Q i j * p_src (scale_pairs c pairs) n j) (fun j => Q i j * p_src pairs n j * c))
    by (intros; rewrite p_src_scale; ring).
  rewrite Rsum_scal_r, p_tgt_scale. field. exact Hc.
Qed.

Lemma rank_scale d c ps pairs : (d <= ps)%nat -> c <> 0 ->
  rank_ge_dm1 d (p_N pairs) (Sc ps pairs) -> rank_ge_dm1 d (p_N (scale_pairs c pairs)) (Sc ps (scale_pairs c pairs)).
Proof.
  intros Hps Hc. rewrite p_N_scale. destruct d as [|[|[|[|d]]]]; try (intros Hf; cbn in Hf; contradiction).
  - cbn [rank_ge_dm1]. intros (n & k & Hn & Hk & Hnz). exists n, k. repeat split; try assumption.
    rewrite Sc_scale by lia. intros Hz. apply Rmult_integral in Hz. tauto.
  - cbn [rank_ge_dm1]. intros (n1 & n2 & k & Hn1 & Hn2 & Hk & Hnz). exists n1, n2, k. repeat split; try assumption.
    assert (E : cross3 ROps (Sc ps (scale_pairs c pairs) n1) (Sc ps (scale_pairs c pairs) n2) k
              = c * c * cross3 ROps (Sc ps pairs n1) (Sc ps pairs n2) k).
    { unfold cross3. rsimpl. rewrite !Sc_scale by lia. destruct k as [|[|k]]; ring. }
    rewrite E. intros Hz. apply Rmult_integral in Hz. destruct Hz as [Hz|Hz]; [|tauto].
    apply Rmult_integral in Hz. tauto.
Qed.

(* ---- H.block(0,d,d,1) /= m00 ---- *)
Lemma unscale_block d Hm m i j : (i < d)%nat -> (j < d)%nat -> mg (unscale_translation ROps d Hm m) i j = mg Hm i j.
Proof.
  intros Hi Hj. unfold unscale_translation. rewrite mget_mtab by lia.
  replace (Nat.eqb j d) with false by (symmetry; apply Nat.eqb_neq; lia). reflexivity.
Qed.
Lemma unscale_col d Hm m i : (i < d)%nat -> mg (unscale_translation ROps d Hm m) i d = mg Hm i d / m.
Proof.
  intros Hi. unfold unscale_translation. rewrite mget_mtab by lia.
  rewrite Nat.eqb_refl. replace (Nat.ltb i d) with true by (symmetry; apply Nat.ltb_lt; lia). reflexivity.
Qed.

Section Precond.
Variable svd_of : nat -> list (list R) -> (list (list R) * list R) * list (list R).
Variables (d ps : nat) (pairs : list (list R * list R)) (c : R).
Hypothesis Hd : (d = 2 \/ d = 3)%nat.
Hypothesis Hps : (d <= ps)%nat.
Hypothesis Hne : pairs <> [].
Hypothesis Hc0 : c <> 0.

Let spairs := scale_pairs c pairs.
Let cov' := cross_cov ROps d spairs (p_sm ps spairs) (p_tm ps spairs).
Let H' := estimate_pairs ROps svd_of true d ps spairs.
Let H := unscale_translation ROps d H' (precond_matrix00 ROps c).
Hypothesis Hc : svd_contract d cov' (svd_of d cov').

Lemma spairs_ne : spairs <> [].
Proof. unfold spairs, scale_pairs. destruct pairs; [congruence|discriminate]. Qed.

Theorem precond_estimate_is_proper_rotation : is_orth d (mg H) /\ fdet ROps d (mg H) = 1.
Proof.
  destruct (estimate_is_proper_rotation svd_of d ps spairs Hd Hc) as (Ho & Hdet). split.
  - intros a b Ha Hb. rewrite (Rsum_ext d _ (fun l => mg H' l a * mg H' l b)) by (intros l Hl; unfold H; now rewrite !unscale_block).
    now apply Ho.
  - rewrite (fdet_ext d (mg H) (mg H') Hd) by (intros; now apply unscale_block). exact Hdet.
Qed.

(* the matrix returned after preconditioning is least-squares optimal on the ORIGINAL pairs *)
Theorem precond_estimate_optimal Q tau : is_orth d Q -> fdet ROps d Q = 1 ->
  fcost d pairs (mg H) (fun i => mg H i d) <= fcost d pairs Q tau.
Proof.
  intros HQ HdQ.
  rewrite (fcost_ext d pairs (mg H) (mg H') (fun i => mg H i d) (fun i => mg H' i d / c)).
  2:{ intros; now apply unscale_block. }
  2:{ intros i Hi. unfold H. rewrite unscale_col by exact Hi. unfold precond_matrix00. rsimpl. f_equal. ring. }
  pose proof (estimate_optimal svd_of d ps spairs Hd Hps spairs_ne Hc Q (fun i => tau i * c) HQ HdQ) as Hopt.
  fold H' in Hopt. unfold spairs in Hopt. rewrite !fcost_scale in Hopt by exact Hc0.
  rewrite (fcost_ext d pairs Q Q (fun i => tau i * c / c) tau (fun _ _ _ _ => eq_refl)) in Hopt by (intros; field; exact Hc0).
  assert (0 < c * c) by nra. nra.
Qed.

(* exact data of rank >= d-1: (R0, tau0) is recovered, with or without preconditioning *)
Theorem precond_estimate_exact_recovery R0 tau0 : is_orth d R0 -> fdet ROps d R0 = 1 ->
  rank_ge_dm1 d (p_N pairs) (Sc ps pairs) ->
  (forall n i, (n < p_N pairs)%nat -> (i < d)%nat ->
     p_tgt pairs n i = Rsum d (fun j => R0 i j * p_src pairs n j) + tau0 i) ->
  (forall i j, (i < d)%nat -> (j < d)%nat -> mg H i j = R0 i j) /\ (forall i, (i < d)%nat -> mg H i d = tau0 i).
Proof.
  intros H0 Hd0 Hr Hex.
  destruct (estimate_exact_recovery svd_of d ps spairs Hd Hps spairs_ne Hc R0 (fun i => tau0 i * c) H0 Hd0) as (HB & HT).
  - now apply rank_scale.
  - intros n i Hn Hi. unfold spairs in *. rewrite p_N_scale in Hn. rewrite p_tgt_scale, (Hex n i Hn Hi).
    rewrite (Rsum_ext d (fun j => R0 i j * p_src (scale_pairs c pairs) n j) (fun j => R0 i j * p_src pairs n j * c))
      by (intros; rewrite p_src_scale; ring).
    rewrite Rsum_scal_r. ring.
  - split.
    + intros i j Hi Hj. unfold H. rewrite unscale_block by assumption. unfold H'. now apply HB.
    + intros i Hi. unfold H. rewrite unscale_col by exact Hi. unfold H'. rewrite (HT i Hi).
      unfold precond_matrix00. rsimpl. field. exact Hc0.
Qed.

End Precond.

(* ---- the preconditioned [find] overloads with the same scale on both sets reduce to the above ---- *)
Lemma precondition_is_scale c pts : precondition ROps c pts = map (scale_pt c) pts.
Proof. reflexivity. Qed.

Lemma combine_scale c (src tgt : list (list R)) :
  combine (map (scale_pt c) src) (map (scale_pt c) tgt) = scale_pairs c (combine src tgt).
Proof.
  revert tgt. induction src as [|s src IH]; intros [|t tgt]; cbn [map combine scale_pairs]; try reflexivity.
  f_equal. apply IH.
Qed.

Lemma nth_scale_pts c pts k : nth k (map (scale_pt c) pts) [] = scale_pt c (nth k pts []).
Proof. change (@nil R) with (scale_pt c []) at 1. apply map_nth. Qed.

Theorem find_corr_pre_eq svd_of fixed d ps c src tgt corr prs : pairs_of_corr src tgt corr = Some prs ->
  find_corr_pre ROps svd_of fixed d ps c c src tgt corr
  = Some (unscale_translation ROps d (estimate_pairs ROps svd_of fixed d ps (scale_pairs c prs)) (precond_matrix00 ROps c)).
Proof.
  unfold find_corr_pre, estimate_corr, pairs_of_corr. rewrite !precondition_is_scale, !map_length.
  destruct (forallb _ corr); [|discriminate]. intros E. injection E as <-.
  do 3 f_equal. unfold scale_pairs. rewrite map_map. apply map_ext. intros k. cbn [fst snd].
  now rewrite !nth_scale_pts.
Qed.
