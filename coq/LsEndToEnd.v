(* LsEndToEnd.v — C07 stated on the caller's data, through the state machine.
   After ANY history on one solver object (estimate size k kept), loading a problem
       setDataSize n; rows 0..n-1 of J / Y / W taken from the lists rows / ys / ws; setPreconditionner(A, b)
   and calling one of the three estimate functions returns A z + b where z is the unique minimiser of the cost of
   THAT problem, written on rows / ys / ws themselves (not on the buffers of the object): leftovers of earlier, larger
   problems, earlier in-place weightings and earlier estimates do not enter.  Real-number instance; Eigen's LDLT /
   JacobiSVD are the contract-bound oracles of LsProofs.v. *)
From Coq Require Import Reals List Arith Lia Lra Bool Psatz.
From Romea Require Import Num NumR LinAlgBModel LinAlgBProofs LsModel LsProofs LsHistoryProofs LsWeighted.
Import ListNotations.
Local Open Scope R_scope.

Section EndToEnd.
Variable inverse_of : nat -> list (list R) -> list (list R).
Variable svd_of : nat -> list (list R) -> (list (list R) * list R) * list (list R).
Variable fill : R.
Variable svd_fixed : bool.
Local Notation run := (ls_run ROps inverse_of svd_of fill svd_fixed).

Theorem ls_problem_after_any_history k hist s outs n rows ys ws A b :
  forallb keeps_estimate_size hist = true ->
  run hist (ls_new1 ROps k) = Some (s, outs) ->
  (1 <= n)%nat -> (forall i, (i < n)%nat -> length (nth i rows []) = k) ->
  let J := mget ROps rows in let Y := vget ROps ys in let W := vget ROps ws in
  exists t o, run (load_ops ROps n rows ys ws ++ [OpSetPrecond A b]) s = Some (t, o) /\
    (* what the oracles are called on: J^T J resp. J^T W^2 J of the caller's rows *)
    (forall i j, (i < k)%nat -> (j < k)%nat -> mget ROps (ls_JtJ ROps t) i j = nM n J i j) /\
    (forall i j, (i < k)%nat -> (j < k)%nat -> mget ROps (ls_JtJ ROps (ls_weight ROps t)) i j = wnM n J W i j) /\
    (* estimateUsingCholeskyDecomposition *)
    (inv_contract k (ls_JtJ ROps t) (inverse_of k (ls_JtJ ROps t)) ->
     exists st x z, ls_estimate_chol ROps inverse_of t = Some (st, x) /\
       (forall i, (i < k)%nat -> vget ROps x i = Rsum k (fun l => mget ROps A i l * z l) + vget ROps b i) /\
       (forall a, (a < k)%nat -> grad n k J Y z a = 0) /\
       (forall y, cost n k J Y z <= cost n k J Y y) /\
       (forall y, cost n k J Y y = cost n k J Y z -> forall i, (i < k)%nat -> y i = z i)) /\
    (* estimateUsingSVD (repaired threshold) *)
    (svd_contract k (ls_JtJ ROps t) (svd_of k (ls_JtJ ROps t)) -> svd_all_above svd_of t ->
     exists st x z, ls_estimate_svd ROps svd_of t = Some (st, x) /\
       (forall i, (i < k)%nat -> vget ROps x i = Rsum k (fun l => mget ROps A i l * z l) + vget ROps b i) /\
       (forall a, (a < k)%nat -> grad n k J Y z a = 0) /\
       (forall y, cost n k J Y z <= cost n k J Y y) /\
       (forall y, cost n k J Y y = cost n k J Y z -> forall i, (i < k)%nat -> y i = z i)) /\
    (* weightedEstimate *)
    (inv_contract k (ls_JtJ ROps (ls_weight ROps t)) (inverse_of k (ls_JtJ ROps (ls_weight ROps t))) ->
     exists st x z, ls_weighted_estimate ROps inverse_of t = Some (st, x) /\
       (forall i, (i < k)%nat -> vget ROps x i = Rsum k (fun l => mget ROps A i l * z l) + vget ROps b i) /\
       (forall a, (a < k)%nat -> wgrad n k J Y W z a = 0) /\
       (forall y, wcost n k J Y W z <= wcost n k J Y W y) /\
       (forall y, wcost n k J Y W y = wcost n k J Y W z -> forall i, (i < k)%nat -> y i = z i)).
Proof.
  intros Hkeep Hrun Hn Hrows J Y W.
  pose proof (run_ready ROps inverse_of svd_of fill svd_fixed k hist _ s outs (ready_new1 ROps k) Hkeep Hrun) as Rd.
  destruct (run_problem ROps inverse_of svd_of fill svd_fixed k n rows ys ws A b s Rd Hn Hrows)
    as (t & o & Hr & Wt & En & Ek & EA & Eb & Ok & D).
  exists t, o. split; [exact Hr|]. subst n k A b.
  (* the first rows of the buffers are the caller's, whatever the history left behind them *)
  assert (HJ : forall r a, (r < ls_n t)%nat -> Jf t r a = J r a).
  { intros r a Hlt. unfold Jf, J, mget. now destruct (D r Hlt) as (-> & _). }
  assert (HY : forall r, (r < ls_n t)%nat -> Yf t r = Y r) by (intros r Hlt; exact (proj1 (proj2 (D r Hlt)))).
  assert (HW : forall r, (r < ls_n t)%nat -> Wf t r = W r) by (intros r Hlt; exact (proj2 (proj2 (D r Hlt)))).
  split; [|split; [|split; [|split]]].
  - intros i j Hi Hj. rewrite ls_JtJ_get by assumption. apply nM_ext. exact HJ.
  - intros i j Hi Hj. rewrite weighted_JtJ_get by assumption. apply wnM_ext; assumption.
  - intros Hc. pose proof (apply_on_rows t _ J Y HJ HY Hc) as H.
    unfold ls_estimate_chol. rewrite Ok. eauto.
  - intros Hc Hab. pose proof (apply_on_rows t _ J Y HJ HY (svd_pinv_is_inverse svd_of t Hc Hab)) as H.
    unfold ls_estimate_svd. rewrite Ok. eauto.
  - intros Hc.
    assert (He : exists st x, ls_weighted_estimate ROps inverse_of t = Some (st, x)).
    { unfold ls_weighted_estimate, ls_estimate_chol. rewrite Ok, est_ok_weight, Ok. eauto. }
    destruct He as (st & x & He). destruct (ls_weighted_correct inverse_of t st x Hc He) as (H1 & H2 & H4 & H5 & _).
    exists st, x. eexists. split; [exact He|]. split; [exact H1|]. split; [|split].
    + intros a Ha. rewrite <- (wgrad_ext _ _ (Jf t) (Yf t) (Wf t) J Y W HJ HY HW). now apply H2.
    + intros y. rewrite <- !(wcost_ext _ _ (Jf t) (Yf t) (Wf t) J Y W HJ HY HW). apply H4.
    + intros y. rewrite <- !(wcost_ext _ _ (Jf t) (Yf t) (Wf t) J Y W HJ HY HW). apply H5.
Qed.

End EndToEnd.
