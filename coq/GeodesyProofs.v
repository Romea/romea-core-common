(* GeodesyProofs.v — lemmas about GeodesyModel.v at the real-number instance (C01; reused by C02, C03). *)
From Coq Require Import Reals ZArith List Bool Lra Lia.
From Romea Require Import Num NumR GeodesyModel.
From Romea.gen Require Import RepoConstants.
Local Open Scope R_scope.

(* evaluates decimal literals [nofDec ROps m e] after the constants have been unfolded *)
Ltac eval_dec :=
  cbn;
  repeat match goal with
         | |- context [Pos.to_nat ?p] =>
           let n := eval vm_compute in (Pos.to_nat p) in change (Pos.to_nat p) with n
         end;
  cbn [pow].

Lemma sin_sq_le_1 x : sin x * sin x <= 1.
Proof. pose proof (sin2_cos2 x) as H. unfold Rsqr in H. nra. Qed.

Lemma cos_sq_eq x : cos x * cos x = 1 - sin x * sin x.
Proof. pose proof (sin2_cos2 x) as H. unfold Rsqr in H. lra. Qed.

Lemma cos_pos_lat x : - PI / 2 < x < PI / 2 -> 0 < cos x.
Proof. intros H. apply cos_gt_0; lra. Qed.

(* W^2 = 1 - e2 sin^2 lat is positive for 0 <= e2 < 1 *)
Lemma w2_pos e2 x : 0 <= e2 < 1 -> 0 < 1 - e2 * sin x * sin x.
Proof. intros H. pose proof (sin_sq_le_1 x). nra. Qed.

Lemma w_pos e2 x : 0 <= e2 < 1 -> 0 < sqrt (1 - e2 * sin x * sin x).
Proof. intros H. apply sqrt_lt_R0. apply w2_pos; assumption. Qed.

Lemma w_le_1 e2 x : 0 <= e2 < 1 -> sqrt (1 - e2 * sin x * sin x) <= 1.
Proof.
  intros H. rewrite <- sqrt_1 at 2. apply sqrt_le_1_alt. assert (0 <= sin x * sin x) by nra. nra.
Qed.

Lemma w_sq e2 x : 0 <= e2 < 1 ->
  sqrt (1 - e2 * sin x * sin x) * sqrt (1 - e2 * sin x * sin x) = 1 - e2 * sin x * sin x.
Proof. intros H. apply sqrt_sqrt. left. apply w2_pos; assumption. Qed.

Lemma make_ellipsoid_b2 a b : 0 < a ->
  el_a (make_ellipsoid ROps a b) = a /\
  a * a * (1 - el_e2 (make_ellipsoid ROps a b)) = b * b.
Proof. intros Ha. cbn. split; [reflexivity|]. field. lra. Qed.

Lemma make_ellipsoid_e2_range a b : 0 < b <= a ->
  0 <= el_e2 (make_ellipsoid ROps a b) < 1.
Proof.
  intros [Hb Hab]. cbn.
  assert (Ha2 : 0 < a * a) by nra.
  split.
  - apply Rmult_le_pos; [nra|]. left. apply Rinv_0_lt_compat. exact Ha2.
  - apply (Rmult_lt_reg_r (a * a)); [exact Ha2|].
    unfold Rdiv. rewrite Rmult_assoc, Rinv_l by lra. nra.
Qed.

Lemma make_ellipsoid_e a b : el_e (make_ellipsoid ROps a b) = sqrt (el_e2 (make_ellipsoid ROps a b)).
Proof. reflexivity. Qed.

Lemma grs80_eq : grs80 ROps = make_ellipsoid ROps 6378137 (6356752314 * / 1000).
Proof. unfold grs80, grs80_a_m, grs80_a_e, grs80_b_m, grs80_b_e. f_equal; eval_dec; lra. Qed.

Section OnEllipsoid.
Variable el : ellipsoid (T:=R).
Hypothesis Ha : 0 < el_a el.
Hypothesis He2 : 0 <= el_e2 el < 1.

Local Notation a := (el_a el).
Local Notation e2 := (el_e2 el).

Lemma primeVertical_eq lat :
  primeVertical ROps el lat = a / sqrt (1 - e2 * sin lat * sin lat).
Proof. reflexivity. Qed.

Lemma primeVertical_ge_a lat : a <= primeVertical ROps el lat.
Proof.
  rewrite primeVertical_eq.
  pose proof (w_pos e2 lat He2) as Wp. pose proof (w_le_1 e2 lat He2) as Wl.
  set (w := sqrt (1 - e2 * sin lat * sin lat)) in *.
  assert (E : a / w - a = a * (1 - w) * / w) by (field; lra).
  assert (P : 0 <= a * (1 - w) * / w).
  { apply Rmult_le_pos; [nra|]. left. apply Rinv_0_lt_compat. exact Wp. }
  lra.
Qed.

Lemma primeVertical_pos lat : 0 < primeVertical ROps el lat.
Proof. pose proof (primeVertical_ge_a lat). lra. Qed.

(* forward map: foot point on the ellipsoid + h * unit normal *)
Definition normal (lat lon : R) : vec3 (T:=R) := mkV3 (cos lat * cos lon) (cos lat * sin lon) (sin lat).
Definition foot (lat lon : R) : vec3 (T:=R) :=
  let Nn := primeVertical ROps el lat in
  mkV3 (Nn * cos lat * cos lon) (Nn * cos lat * sin lon) (Nn * (1 - e2) * sin lat).

Lemma toECEF_foot_plus_normal lat lon h :
  toECEF ROps el (mkGeo lat lon h) =
  mkV3 (vx (foot lat lon) + h * vx (normal lat lon))
       (vy (foot lat lon) + h * vy (normal lat lon))
       (vz (foot lat lon) + h * vz (normal lat lon)).
Proof. unfold toECEF, foot, normal. cbn. f_equal; ring. Qed.

Lemma normal_unit lat lon :
  vx (normal lat lon) * vx (normal lat lon) + vy (normal lat lon) * vy (normal lat lon)
  + vz (normal lat lon) * vz (normal lat lon) = 1.
Proof.
  cbn. pose proof (cos_sq_eq lat). pose proof (cos_sq_eq lon). nra.
Qed.

Lemma foot_on_ellipsoid lat lon :
  (vx (foot lat lon) * vx (foot lat lon) + vy (foot lat lon) * vy (foot lat lon)) / (a * a)
  + vz (foot lat lon) * vz (foot lat lon) / (a * a * (1 - e2)) = 1.
Proof.
  unfold foot. cbn [vx vy vz]. rewrite primeVertical_eq.
  pose proof (w_pos e2 lat He2) as Wp. pose proof (w_sq e2 lat He2) as Ws.
  set (w := sqrt (1 - e2 * sin lat * sin lat)) in *.
  pose proof (cos_sq_eq lat) as Cl. pose proof (cos_sq_eq lon) as Co.
  assert (E : 1 - e2 <> 0) by lra. assert (A : a <> 0) by lra.
  assert (Wn : w <> 0) by lra.
  apply (Rmult_eq_reg_r (w * w)); [|nra].
  transitivity ((cos lat * cos lat) * (cos lon * cos lon + sin lon * sin lon) + (1 - e2) * (sin lat * sin lat)).
  - field. repeat split; assumption.
  - rewrite Ws. rewrite Co, Cl. ring.
Qed.

(* the outward gradient of Q(x,y,z) = (x^2+y^2)/a^2 + z^2/(a^2(1-e2)) at the foot is a positive multiple of the normal *)
Lemma foot_gradient_parallel lat lon :
  let k := 2 * primeVertical ROps el lat / (a * a) in
  0 < k /\
  2 * vx (foot lat lon) / (a * a) = k * vx (normal lat lon) /\
  2 * vy (foot lat lon) / (a * a) = k * vy (normal lat lon) /\
  2 * vz (foot lat lon) / (a * a * (1 - e2)) = k * vz (normal lat lon).
Proof.
  intros k. pose proof (primeVertical_pos lat) as Np.
  assert (A : a <> 0) by lra. assert (E : 1 - e2 <> 0) by lra.
  split; [|split; [|split]].
  - unfold k. apply Rmult_lt_0_compat; [lra|]. apply Rinv_0_lt_compat. nra.
  - unfold k, foot, normal. cbn [vx]. field. exact A.
  - unfold k, foot, normal. cbn [vy]. field. exact A.
  - unfold k, foot, normal. cbn [vz]. field. split; assumption.
Qed.

Lemma hnorm_scaled r lon : 0 <= r -> hnorm ROps (r * cos lon) (r * sin lon) = r.
Proof.
  intros Hr. unfold hnorm. cbn.
  replace (r * cos lon * (r * cos lon) + r * sin lon * (r * sin lon)) with (r * r).
  - apply sqrt_square. exact Hr.
  - pose proof (cos_sq_eq lon). nra.
Qed.

Lemma toECEF_horizontal lat lon h :
  let r := (primeVertical ROps el lat + h) * cos lat in
  vx (toECEF ROps el (mkGeo lat lon h)) = r * cos lon /\
  vy (toECEF ROps el (mkGeo lat lon h)) = r * sin lon.
Proof. cbn. split; reflexivity. Qed.

Lemma horizontal_radius_pos lat h : - PI / 2 < lat < PI / 2 -> - a < h ->
  0 < (primeVertical ROps el lat + h) * cos lat.
Proof.
  intros Hl Hh. pose proof (primeVertical_ge_a lat). pose proof (cos_pos_lat lat Hl).
  apply Rmult_lt_0_compat; lra.
Qed.

Lemma longitude_recovered lat lon h :
  - PI / 2 < lat < PI / 2 -> - PI < lon <= PI -> - a < h ->
  let p := toECEF ROps el (mkGeo lat lon h) in
  longitude_of ROps (vx p) (vy p) = lon.
Proof.
  intros Hl Ho Hh p. unfold longitude_of. cbn [natan2 ROps].
  destruct (toECEF_horizontal lat lon h) as [Ex Ey]. unfold p. rewrite Ex, Ey.
  apply Ratan2_spec; [apply horizontal_radius_pos; assumption|exact Ho].
Qed.

Lemma hnorm_toECEF lat lon h : - PI / 2 < lat < PI / 2 -> - a < h ->
  let p := toECEF ROps el (mkGeo lat lon h) in
  hnorm ROps (vx p) (vy p) = (primeVertical ROps el lat + h) * cos lat.
Proof.
  intros Hl Hh p. destruct (toECEF_horizontal lat lon h) as [Ex Ey]. unfold p. rewrite Ex, Ey.
  apply hnorm_scaled. left. apply horizontal_radius_pos; assumption.
Qed.

Lemma lat_body_fixed_point lat h :
  - PI / 2 < lat < PI / 2 -> - a * (1 - e2) < h ->
  let Nn := primeVertical ROps el lat in
  lat_body ROps el ((Nn * (1 - e2) + h) * sin lat) ((Nn + h) * cos lat) lat = lat.
Proof.
  intros Hl Hh. cbv zeta. unfold lat_body. cbn.
  replace (1 - e2 * (sin lat * sin lat)) with (1 - e2 * sin lat * sin lat) by ring.
  pose proof (cos_pos_lat lat Hl) as Cp.
  pose proof (primeVertical_ge_a lat) as Nge. rewrite primeVertical_eq in Nge.
  pose proof (w_pos e2 lat He2) as Wp.
  set (w := sqrt (1 - e2 * sin lat * sin lat)) in *.
  (* a = N w turns the body's denominator into (N (1-e2) + h) / (N + h) *)
  set (Nn := a / w) in *.
  assert (Aw : a = Nn * w) by (unfold Nn; field; lra).
  clearbody Nn.
  assert (Hq : 0 < Nn * (1 - e2) + h) by nra.
  assert (Hp : 0 < Nn + h) by nra.
  rewrite Aw.
  match goal with |- atan ?x = _ => replace x with (sin lat / cos lat) end.
  - apply atan_tan_quot. exact Hl.
  - field. repeat split; lra.
Qed.

Lemma height_recovered lat h : - PI / 2 < lat < PI / 2 ->
  altitude_of ROps el ((primeVertical ROps el lat + h) * cos lat) lat = h.
Proof.
  intros Hl. unfold altitude_of. cbn.
  replace (1 - e2 * (sin lat * sin lat)) with (1 - e2 * sin lat * sin lat) by ring.
  pose proof (cos_pos_lat lat Hl). pose proof (w_pos e2 lat He2). field. repeat split; lra.
Qed.

End OnEllipsoid.

(* EPSILON and the initial delta, read from the source *)
Lemma ecef_eps_eq : ecef_eps ROps = / 100000000000.
Proof. unfold ecef_eps, ecef_epsilon_m, ecef_epsilon_e. eval_dec. lra. Qed.

Lemma ecef_initial_delta_gt_eps :
  ecef_eps ROps < nofDec ROps ecef_initial_delta_m ecef_initial_delta_e.
Proof. rewrite ecef_eps_eq. unfold ecef_initial_delta_m, ecef_initial_delta_e. eval_dec. lra. Qed.

Section Loop.
Variable el : ellipsoid (T:=R).
Variables Z norm : R.
Local Notation g := (lat_body ROps el Z norm).
Local Notation eps := (ecef_eps ROps).

Lemma lat_loop_done fuel lat delta : delta <= eps -> lat_loop ROps fuel el Z norm lat delta = Some lat.
Proof.
  intros H. destruct fuel; cbn [lat_loop nltb ROps]; rewrite (proj2 (Rltb_false _ _) H); reflexivity.
Qed.

Lemma lat_loop_step fuel lat delta : eps < delta ->
  lat_loop ROps (S fuel) el Z norm lat delta = lat_loop ROps fuel el Z norm (g lat) (Rabs (g lat - lat)).
Proof. intros H. cbn [lat_loop nltb ROps]. rewrite (proj2 (Rltb_true _ _) H). reflexivity. Qed.

Lemma lat_loop_out_of_fuel lat delta : eps < delta -> lat_loop ROps O el Z norm lat delta = None.
Proof. intros H. cbn [lat_loop nltb ROps]. rewrite (proj2 (Rltb_true _ _) H). reflexivity. Qed.

(* when the loop exits, the last pass moved the latitude by at most eps (or no pass was made); an invariant of the
   body that holds at the start holds of the last-but-one iterate *)
Lemma lat_loop_exit (P : R -> Prop) : (forall x, P x -> P (g x)) ->
  forall fuel lat delta r, P lat ->
  lat_loop ROps fuel el Z norm lat delta = Some r ->
  (r = lat /\ delta <= eps) \/
  (exists prev, P prev /\ r = g prev /\ Rabs (r - prev) <= eps).
Proof.
  intros HP. induction fuel as [|f IH]; intros lat delta r Hl H;
    destruct (Rle_or_lt delta eps) as [Hd|Hd];
    try (rewrite lat_loop_done in H by exact Hd; injection H as <-; left; split; [reflexivity|exact Hd]).
  - rewrite lat_loop_out_of_fuel in H by exact Hd. discriminate.
  - rewrite lat_loop_step in H by exact Hd.
    destruct (IH _ _ _ (HP _ Hl) H) as [[-> Hs]|Hex]; right; [exists lat; auto|exact Hex].
Qed.

(* started at a fixed point of the body, the loop performs one pass and returns it *)
Lemma lat_loop_from_fixed_point fuel lat delta :
  g lat = lat -> eps < delta -> lat_loop ROps (S fuel) el Z norm lat delta = Some lat.
Proof.
  intros Hfix Hd. rewrite lat_loop_step, Hfix by exact Hd. apply lat_loop_done.
  unfold Rminus. rewrite Rplus_opp_r, Rabs_R0, ecef_eps_eq. lra.
Qed.
End Loop.

(* what toWGS84 returns: longitude and height are computed from the returned latitude, which is the image under the
   loop body of an iterate at most eps away (the initial delta exceeds eps, so at least one pass is made) *)
Lemma toWGS84_exit fuel (el : ellipsoid (T:=R)) p gg (P : R -> Prop) :
  let Z := vz p in let norm := hnorm ROps (vx p) (vy p) in
  (forall x, P x -> P (lat_body ROps el Z norm x)) -> P (lat_first_guess ROps el (vx p) (vy p) Z) ->
  toWGS84 ROps fuel el p = Some gg ->
  g_lon gg = longitude_of ROps (vx p) (vy p) /\ g_alt gg = altitude_of ROps el norm (g_lat gg) /\
  exists prev, P prev /\ g_lat gg = lat_body ROps el Z norm prev /\ Rabs (g_lat gg - prev) <= ecef_eps ROps.
Proof.
  intros Z norm HP H0. unfold toWGS84. fold Z norm.
  destruct (lat_loop _ _ _ _ _ _ _) as [r|] eqn:E; [|discriminate]. intros [= <-]. cbn [g_lat g_lon g_alt].
  split; [reflexivity|]. split; [reflexivity|].
  destruct (lat_loop_exit el Z norm P HP _ _ _ _ H0 E) as [[_ Hc]|Hex]; [|exact Hex].
  pose proof ecef_initial_delta_gt_eps. lra.
Qed.

Lemma toWGS84_ranges fuel (el : ellipsoid (T:=R)) p g :
  toWGS84 ROps fuel el p = Some g ->
  - PI / 2 < g_lat g < PI / 2 /\ - PI <= g_lon g <= PI /\ geodetic_in_range ROps g = true.
Proof.
  intros H.
  destruct (toWGS84_exit fuel el p g (fun _ => True) (fun _ _ => I) I H) as [Elon [_ [prev [_ [Elat _]]]]].
  assert (Hr : - PI / 2 < g_lat g < PI / 2) by (rewrite Elat; apply atan_bound).
  assert (Ho : - PI <= g_lon g <= PI) by (rewrite Elon; apply Ratan2_range).
  split; [exact Hr|]. split; [exact Ho|].
  unfold geodetic_in_range. cbn [nleb nneg ndiv npi ROps ntwo nadd n_one].
  rewrite !andb_true_iff. repeat split; apply Rleb_true; lra.
Qed.

(* If the loop body g is q-Lipschitz (q < 1) between the last iterate and the fixed point, an exit with
   |g x - x| <= eps leaves |g x - fix| <= q*eps/(1-q). *)
Lemma contraction_exit_error (g : R -> R) (q eps x fx : R) :
  0 <= q < 1 -> g fx = fx -> Rabs (g x - g fx) <= q * Rabs (x - fx) -> Rabs (g x - x) <= eps ->
  Rabs (g x - fx) <= q * eps / (1 - q).
Proof.
  intros [Hq0 Hq1] Hfix Hlip Hexit. rewrite Hfix in Hlip.
  assert (T : Rabs (x - fx) <= Rabs (g x - x) + Rabs (g x - fx)).
  { replace (x - fx) with (- (g x - x) + (g x - fx)) by ring.
    eapply Rle_trans; [apply Rabs_triang|]. rewrite Rabs_Ropp. lra. }
  assert (B : (1 - q) * Rabs (g x - fx) <= q * eps) by nra.
  apply (Rmult_le_reg_l (1 - q)); [lra|].
  replace ((1 - q) * (q * eps / (1 - q))) with (q * eps) by (field; lra). exact B.
Qed.

(* the exit error q eps / (1 - q) grows with q *)
Lemma exit_error_mono q q' eps : 0 <= q <= q' -> q' < 1 -> 0 <= eps ->
  q * eps / (1 - q) <= q' * eps / (1 - q').
Proof.
  intros Hq Hq' He. apply (Rmult_le_reg_r ((1 - q) * (1 - q'))); [nra|].
  replace (q * eps / (1 - q) * ((1 - q) * (1 - q'))) with (q * eps * (1 - q')) by (field; lra).
  replace (q' * eps / (1 - q') * ((1 - q) * (1 - q'))) with (q' * eps * (1 - q)) by (field; lra).
  assert (q * eps <= q' * eps) by nra. nra.
Qed.

(* the half-angle longitude 2*atan(Y/(X+norm)): the formula of the code before commit d5a0d4f *)
Lemma hnorm_ge_abs X Y : Rabs X <= hnorm ROps X Y.
Proof.
  unfold hnorm. cbn. rewrite <- sqrt_Rsqr_abs. apply sqrt_le_1_alt. unfold Rsqr. nra.
Qed.

Lemma half_angle_denominator_zero_iff X Y : X + hnorm ROps X Y = 0 <-> (Y = 0 /\ X <= 0).
Proof.
  split.
  - intros H. pose proof (hnorm_ge_abs X Y) as G.
    assert (Hn : hnorm ROps X Y = - X) by lra.
    assert (Hx : X <= 0). { pose proof (Rabs_pos X). lra. }
    split; [|exact Hx].
    assert (Sq : hnorm ROps X Y * hnorm ROps X Y = X * X + Y * Y).
    { unfold hnorm. cbn. apply sqrt_sqrt. nra. }
    rewrite Hn in Sq. nra.
  - intros [-> Hx]. unfold hnorm. cbn.
    replace (X * X + 0 * 0) with (Rsqr X) by (unfold Rsqr; ring).
    rewrite sqrt_Rsqr_abs, Rabs_left1 by exact Hx. ring.
Qed.

(* the formula of the unrepaired code is undefined exactly on the antimeridian ray Y = 0, X <= 0 *)
Lemma longitude_half_angle_none_iff X Y :
  longitude_half_angle ROps X Y = None <-> (Y = 0 /\ X <= 0).
Proof.
  unfold longitude_half_angle. cbn [nadd neqb nzero ROps].
  destruct (Reqb (X + hnorm ROps X Y) 0) eqn:E1; destruct (Reqb Y 0) eqn:E2; cbn [andb].
  - apply Reqb_true in E1. split; [intros _; apply half_angle_denominator_zero_iff; exact E1|reflexivity].
  - split; [discriminate|]. intros [Hy _]. apply Reqb_true in Hy. congruence.
  - split; [discriminate|]. intros HH. apply half_angle_denominator_zero_iff in HH.
    apply Reqb_true in HH. congruence.
  - split; [discriminate|]. intros [Hy _]. apply Reqb_true in Hy. congruence.
Qed.

(* off the ray, for points written in polar form, it agrees with the true longitude *)
Lemma longitude_half_angle_value r lon : 0 < r -> - PI < lon < PI ->
  longitude_half_angle ROps (r * cos lon) (r * sin lon) = Some lon.
Proof.
  intros Hr Hl. unfold longitude_half_angle. rewrite hnorm_scaled by lra.
  cbn [nadd neqb nzero ROps nmul natan ndiv ntwo n_one].
  assert (Hh : - PI / 2 < lon / 2 < PI / 2) by lra.
  pose proof (cos_pos_lat _ Hh) as Ch.
  assert (Ec : cos lon = 2 * cos (lon / 2) * cos (lon / 2) - 1).
  { replace lon with (2 * (lon / 2)) at 1 by field. rewrite cos_2a_cos. ring. }
  assert (Es : sin lon = 2 * sin (lon / 2) * cos (lon / 2)).
  { replace lon with (2 * (lon / 2)) at 1 by field. apply sin_2a. }
  assert (Hd : 0 < r * cos lon + r).
  { rewrite Ec. assert (P : 0 < r * (cos (lon / 2) * cos (lon / 2))) by (apply Rmult_lt_0_compat; [lra|nra]). lra. }
  replace (Reqb (r * cos lon + r) 0) with false.
  2:{ symmetry. destruct (Reqb (r * cos lon + r) 0) eqn:E; [apply Reqb_true in E; lra|reflexivity]. }
  cbn [andb]. f_equal.
  replace (r * sin lon / (r * cos lon + r)) with (sin (lon / 2) / cos (lon / 2)).
  - rewrite atan_tan_quot by exact Hh. field.
  - rewrite Ec in Hd. rewrite Es, Ec. field. split; lra.
Qed.
