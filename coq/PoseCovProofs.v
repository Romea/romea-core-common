(* PoseCovProofs.v — lemmas for C11 (reductions, embedding, SE(3) action, ellipse) at the real-number instance.  They
   are stated over finite sums [rsum], products of n x n matrices given as functions (the gmul_* lemmas) and the
   predicates [gsym], [quad], [gpsd]; PoseJacProofs.v builds the algebra of J*C*J^T for C12 on the same vocabulary. *)
From Coq Require Import Reals ZArith Lra Lia Psatz Nsatz Arith Bool.
From Romea Require Import Num NumR AnglesModel AnglesProofs AnglesRoundtrip PoseCovModel.
Local Open Scope R_scope.

Notation rsum := (nsum ROps).

(* ---------------- finite sums ---------------- *)
Lemma rsum_S n f : rsum (S n) f = rsum n f + f n.
Proof. reflexivity. Qed.
Lemma rsum_ext n f g : (forall i, (i < n)%nat -> f i = g i) -> rsum n f = rsum n g.
Proof. induction n; intros H; [reflexivity|]. rewrite !rsum_S, IHn, H by (intros; try apply H; lia). reflexivity. Qed.
Lemma rsum_plus n f g : rsum n (fun i => f i + g i) = rsum n f + rsum n g.
Proof. induction n; [cbn; lra|]. rewrite !rsum_S, IHn. lra. Qed.
Lemma rsum_scal n c f : rsum n (fun i => c * f i) = c * rsum n f.
Proof. induction n; [cbn; lra|]. rewrite !rsum_S, IHn. lra. Qed.
Lemma rsum_scal_r n c f : rsum n (fun i => f i * c) = rsum n f * c.
Proof. induction n; [cbn; lra|]. rewrite !rsum_S, IHn. lra. Qed.
Lemma rsum_zero n : rsum n (fun _ => 0) = 0.
Proof. induction n; [reflexivity|]. rewrite rsum_S, IHn. lra. Qed.
Lemma rsum_swap n m (f : nat -> nat -> R) :
  rsum n (fun i => rsum m (fun j => f i j)) = rsum m (fun j => rsum n (fun i => f i j)).
Proof.
  induction n.
  - cbn. symmetry. apply rsum_zero.
  - rewrite rsum_S, IHn. rewrite <- rsum_plus. apply rsum_ext. intros. reflexivity.
Qed.
(* a sum with a single non-zero index *)
Lemma rsum_single n k f : (k < n)%nat -> (forall i, (i < n)%nat -> i <> k -> f i = 0) -> rsum n f = f k.
Proof.
  induction n; intros Hk H; [lia|]. rewrite rsum_S.
  destruct (Nat.eq_dec k n) as [->|Hne].
  - rewrite (rsum_ext n f (fun _ => 0)), rsum_zero by (intros; apply H; lia). lra.
  - rewrite IHn by (try lia; intros; apply H; lia). rewrite (H n) by lia. lra.
Qed.

(* ---------------- products of matrices on the function view (all sums run over indices < n) ---------------- *)
Local Notation gm := (gmul ROps).

Lemma gmul_unfold n (a b : mat R) i j : gm n a b i j = rsum n (fun k => a i k * b k j).
Proof. reflexivity. Qed.

Lemma gmul_ext n (a a' b b' : mat R) i j :
  (forall k, (k < n)%nat -> a i k = a' i k) -> (forall k, (k < n)%nat -> b k j = b' k j) -> gm n a b i j = gm n a' b' i j.
Proof. intros Ha Hb. rewrite !gmul_unfold. apply rsum_ext. intros k Hk. rewrite (Ha k Hk), (Hb k Hk). reflexivity. Qed.

Lemma gmul_assoc n (a b c : mat R) i j : gm n (gm n a b) c i j = gm n a (gm n b c) i j.
Proof.
  rewrite (gmul_unfold n (gm n a b) c), (gmul_unfold n a (gm n b c)).
  transitivity (rsum n (fun k => rsum n (fun l => a i l * b l k * c k j))).
  - apply rsum_ext. intros k Hk. rewrite gmul_unfold, <- rsum_scal_r. reflexivity.
  - rewrite rsum_swap. apply rsum_ext. intros l Hl. rewrite gmul_unfold, <- rsum_scal.
    apply rsum_ext. intros k Hk. ring.
Qed.

Lemma gtrans_gmul n (a b : mat R) i j : gtrans (gm n a b) i j = gm n (gtrans b) (gtrans a) i j.
Proof. unfold gtrans. rewrite !gmul_unfold. apply rsum_ext. intros k Hk. ring. Qed.

(* a factor that is the identity on the row / column concerned *)
Lemma gmul_id_l n (e x : mat R) i j :
  (i < n)%nat -> (forall s, (s < n)%nat -> e i s = if Nat.eqb i s then 1 else 0) -> gm n e x i j = x i j.
Proof.
  intros Hi He. rewrite gmul_unfold, (rsum_single n i) by (try assumption; intros s Hs Hne; rewrite (He s Hs), (proj2 (Nat.eqb_neq i s)) by auto; ring).
  rewrite (He i Hi), Nat.eqb_refl. ring.
Qed.

Lemma gmul_id_r n (x e : mat R) i j :
  (j < n)%nat -> (forall s, (s < n)%nat -> e s j = if Nat.eqb s j then 1 else 0) -> gm n x e i j = x i j.
Proof.
  intros Hj He. rewrite gmul_unfold, (rsum_single n j) by (try assumption; intros s Hs Hne; rewrite (He s Hs), (proj2 (Nat.eqb_neq s j)) by auto; ring).
  rewrite (He j Hj), Nat.eqb_refl. ring.
Qed.

Definition gsym (n : nat) (c : mat R) : Prop := forall i j, (i < n)%nat -> (j < n)%nat -> c i j = c j i.
Definition quad (n : nat) (c : mat R) (x : vec R) : R := rsum n (fun i => rsum n (fun j => x i * c i j * x j)).
Definition gpsd (n : nat) (c : mat R) : Prop := forall x, 0 <= quad n c x.

(* ---------------- Matrix.hpp: selection and embedding ---------------- *)
Lemma se2_selects (c : mat R) :
  toSe2Covariance c 0%nat 0%nat = c 0%nat 0%nat /\ toSe2Covariance c 0%nat 1%nat = c 0%nat 1%nat /\ toSe2Covariance c 0%nat 2%nat = c 0%nat 5%nat /\
  toSe2Covariance c 1%nat 0%nat = c 1%nat 0%nat /\ toSe2Covariance c 1%nat 1%nat = c 1%nat 1%nat /\ toSe2Covariance c 1%nat 2%nat = c 1%nat 5%nat /\
  toSe2Covariance c 2%nat 0%nat = c 5%nat 0%nat /\ toSe2Covariance c 2%nat 1%nat = c 5%nat 1%nat /\ toSe2Covariance c 2%nat 2%nat = c 5%nat 5%nat.
Proof. repeat split. Qed.


Lemma se2_of_se3_id (c : mat R) i j : (i < 3)%nat -> (j < 3)%nat ->
  toSe2Covariance (toSe3Covariance ROps c) i j = c i j.
Proof.
  intros Hi Hj. destruct i as [|[|[|?]]], j as [|[|[|?]]]; try lia; reflexivity.
Qed.

Lemma se2_sym c : gsym 6 c -> gsym 3 (toSe2Covariance c).
Proof.
  intros H i j _ _. unfold toSe2Covariance. apply H; [destruct i as [|[|?]]|destruct j as [|[|?]]]; cbn; lia.
Qed.
Lemma se3_sym c : gsym 3 c -> gsym 6 (toSe3Covariance ROps c).
Proof.
  intros H i j _ _. unfold toSe3Covariance. rewrite (andb_comm (is_planar j)).
  destruct (is_planar i && is_planar j); [|reflexivity]. apply H; [destruct i as [|[|?]]|destruct j as [|[|?]]]; cbn; lia.
Qed.

Definition embed3 (x : vec R) : vec R := fun i =>
  match i with 0%nat => x 0%nat | 1%nat => x 1%nat | 5%nat => x 2%nat | _ => 0 end.
Definition pad3 (x : vec R) : vec R := fun i =>
  match i with 0%nat => x 0%nat | 1%nat => x 1%nat | 2%nat => x 2%nat | _ => 0 end.

Lemma se2_quad c x : quad 3 (toSe2Covariance c) x = quad 6 c (embed3 x).
Proof. unfold quad, toSe2Covariance, embed3. cbn. ring. Qed.
Lemma se2_psd c : gpsd 6 c -> gpsd 3 (toSe2Covariance c).
Proof. intros H x. rewrite se2_quad. apply H. Qed.

Lemma se3_quad c x : quad 6 (toSe3Covariance ROps c) x = quad 3 c (fun i => x (sel3 i)).
Proof. unfold quad, toSe3Covariance. cbn. ring. Qed.
Lemma se3_psd c : gpsd 3 c -> gpsd 6 (toSe3Covariance ROps c).
Proof. intros H x. rewrite se3_quad. apply H. Qed.

Lemma block3_quad c x : quad 3 (fun i j => c i j) x = quad 6 c (pad3 x).
Proof. unfold quad, pad3. cbn. ring. Qed.
Lemma position3_sym_psd (p : pose3 (T:=R)) :
  (gsym 6 (p3_cov p) -> gsym 3 (q3_cov (toPosition3D p))) /\ (gpsd 6 (p3_cov p) -> gpsd 3 (q3_cov (toPosition3D p))).
Proof.
  split.
  - intros H i j Hi Hj. cbn. apply H; lia.
  - intros H x. unfold toPosition3D. cbn [q3_cov]. rewrite block3_quad. apply H.
Qed.

(* ---------------- SE(3) action on the mean ---------------- *)
Definition act_mean (l : mat3 R) (t pos ori : vec3 R) := pose_transform_mean ROps ROps idR idR l t pos ori.
Definition rot_of (e : vec3 R) : mat3 R := rot_zyx (v0 e) (v1 e) (v2 e).

Lemma vec3_ext (a b : vec3 R) : v0 a = v0 b -> v1 a = v1 b -> v2 a = v2 b -> a = b.
Proof. destruct a, b; cbn; intros; subst; reflexivity. Qed.

Lemma mtrans3_mul (a b : mat3 R) : mtrans3 (mmul3 ROps a b) = mmul3 ROps (mtrans3 b) (mtrans3 a).
Proof. unfold mtrans3, mmul3. rcbn. f_equal; ring. Qed.
Lemma det3_mul (a b : mat3 R) : det3 ROps (mmul3 ROps a b) = det3 ROps a * det3 ROps b.
Proof. unfold det3, mmul3. rcbn. ring. Qed.

Lemma proper_mul a b : proper_rotation a -> proper_rotation b -> proper_rotation (mmul3 ROps a b).
Proof.
  intros [Ha Da] [Hb Db]. split.
  - rewrite mtrans3_mul, mmul3_assoc, <- (mmul3_assoc (mtrans3 a) a b), Ha, mmul3_id_l. exact Hb.
  - rewrite det3_mul, Da, Db. ring.
Qed.

Lemma proper_id : proper_rotation (mid3 ROps).
Proof. unfold proper_rotation, mmul3, mtrans3, mid3, det3. rcbn. split; [f_equal; ring|ring]. Qed.

(* attitude: the reported angles describe the rotation l * R(angles), off gimbal lock *)
Lemma action_attitude l t pos ori : proper_rotation l -> Rabs (m20 (mmul3 ROps l (rot_of ori))) < 1 ->
  exists e, snd (act_mean l t pos ori) = Some e /\ rot_of e = mmul3 ROps l (rot_of ori).
Proof.
  intros Hl Hg.
  destruct (rotation_roundtrip_lemma (mmul3 ROps l (rot_of ori)) (proper_mul _ _ Hl (rzyx_proper _ _ _)) Hg) as [e [E1 E2]].
  exists e. split; [|exact E2].
  unfold act_mean, pose_transform_mean. cbn [snd].
  change (sR (smart_init ROps (v0 ori) (v1 ori) (v2 ori))) with (rot_of ori).
  exact E1.
Qed.

Lemma action_attitude_compose l t l' t' pos ori :
  proper_rotation l -> proper_rotation l' ->
  Rabs (m20 (mmul3 ROps l (rot_of ori))) < 1 -> Rabs (m20 (mmul3 ROps (mmul3 ROps l' l) (rot_of ori))) < 1 ->
  exists e1 e2 e3,
    snd (act_mean l t pos ori) = Some e1 /\
    snd (act_mean l' t' (fst (act_mean l t pos ori)) e1) = Some e2 /\
    snd (act_mean (mmul3 ROps l' l) (vadd3 ROps (mvmul3 ROps l' t) t') pos ori) = Some e3 /\
    rot_of e2 = rot_of e3 /\ rot_of e3 = mmul3 ROps (mmul3 ROps l' l) (rot_of ori).
Proof.
  intros Hl Hl' G1 G2.
  destruct (action_attitude l t pos ori Hl G1) as [e1 [E1 R1]].
  assert (G2' : Rabs (m20 (mmul3 ROps l' (rot_of e1))) < 1) by (rewrite R1, <- mmul3_assoc; exact G2).
  destruct (action_attitude l' t' (fst (act_mean l t pos ori)) e1 Hl' G2') as [e2 [E2 R2]].
  destruct (action_attitude (mmul3 ROps l' l) (vadd3 ROps (mvmul3 ROps l' t) t') pos ori (proper_mul _ _ Hl' Hl) G2) as [e3 [E3 R3]].
  exists e1, e2, e3. repeat split; try assumption.
  rewrite R2, R1, R3, mmul3_assoc. reflexivity.
Qed.

(* ---------------- ellipse ---------------- *)
Definition svd2_contract (c : mat2 R) (r : (R * R) * mat2 R) : Prop :=
  let '((s0, s1), u) := r in
  0 <= s1 <= s0 /\
  a00 u * a00 u + a10 u * a10 u = 1 /\ a01 u * a01 u + a11 u * a11 u = 1 /\ a00 u * a01 u + a10 u * a11 u = 0 /\
  a00 c = a00 u * s0 * a00 u + a01 u * s1 * a01 u /\
  a01 c = a00 u * s0 * a10 u + a01 u * s1 * a11 u /\
  a10 c = a10 u * s0 * a00 u + a11 u * s1 * a01 u /\
  a11 c = a10 u * s0 * a10 u + a11 u * s1 * a11 u.

Lemma orth2_rows a b c d : a * a + c * c = 1 -> b * b + d * d = 1 -> a * b + c * d = 0 ->
  b * b = c * c /\ d * d = a * a /\ b * d = - (a * c).
Proof. intros H1 H2 H3. repeat split; nsatz. Qed.

Lemma ellipse_reconstructs svd c sigma : 0 < sigma -> svd2_contract c (svd c) ->
  let e := ellipse_of_cov ROps svd c sigma in
  let th := e_orientation e in let mj := e_major e in let mn := e_minor e in
  0 <= mn <= mj /\
  (cos th * cos th * (mj * mj) + sin th * sin th * (mn * mn)) / (sigma * sigma) = a00 c /\
  (cos th * sin th * (mj * mj - mn * mn)) / (sigma * sigma) = a01 c /\
  (cos th * sin th * (mj * mj - mn * mn)) / (sigma * sigma) = a10 c /\
  (sin th * sin th * (mj * mj) + cos th * cos th * (mn * mn)) / (sigma * sigma) = a11 c.
Proof.
  intros Hs. unfold svd2_contract, ellipse_of_cov. destruct (svd c) as [[s0 s1] u].
  intros [Hord [O1 [O2 [O3 [C00 [C01 [C10 C11]]]]]]]. cbn [e_orientation e_major e_minor]. rcbn.
  destruct (orth2_rows _ _ _ _ O1 O2 O3) as [Q1 [Q2 Q3]].
  assert (Hn : a00 u * a00 u + a10 u * a10 u = 1 * 1) by lra.
  destruct (atan2_polar (a00 u) (a10 u) 1 ltac:(lra) Hn) as [_ [Hc Hsn]].
  rewrite Rmult_1_l in Hc, Hsn. rewrite Hc, Hsn.
  assert (Sq : forall s, 0 <= s -> sqrt s * sigma * (sqrt s * sigma) = s * (sigma * sigma))
    by (intros s Hs0; pose proof (sqrt_sqrt s Hs0); nra).
  rewrite !Sq by lra.
  assert (Hss : sigma * sigma <> 0) by nra.
  split.
  - pose proof (sqrt_pos s1). pose proof (sqrt_le_1_alt s1 s0 ltac:(lra)). split; nra.
  - rewrite C00, C01, C10, C11. repeat split.
    + replace (a01 u * s1 * a01 u) with (s1 * (a10 u * a10 u)) by (rewrite <- Q1; ring). field; lra.
    + replace (a01 u * s1 * a11 u) with (s1 * - (a00 u * a10 u)) by (rewrite <- Q3; ring). field; lra.
    + replace (a11 u * s1 * a01 u) with (s1 * - (a00 u * a10 u)) by (rewrite <- Q3; ring). field; lra.
    + replace (a11 u * s1 * a11 u) with (s1 * (a00 u * a00 u)) by (rewrite <- Q2; ring). field; lra.
Qed.
