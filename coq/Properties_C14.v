(* Properties_C14.v — C14: ray casting visits a connected, in-bounds chain of cells covering the segment.
   Over the reals: the walk of cast() (count, end cell, adjacency, index box) and the geometry (every cell meets the
   segment), for a caster given by its fields and end to end for the caster that cast(o, e) builds on a 2D / 3D grid.
   These come three times, under weaker and weaker numeric premises: a bound B < max() on the stored crossing
   parameters, then only |e - o| < max(), then none inside the property's envelope; last, the indexes and the count
   fit int.  Then, for every numeric dictionary, the source tie of next, computeRayNumberOfCells, setOriginPoint,
   setEndPoint and the cast overloads. *)
From Coq Require Import Reals ZArith List Bool Arith Lia Lra.
From Romea Require Import Num NumR GridMapModel GridMapProofs RayCastModel RayCastProofs RayCastMerge RayCastSegment RayCastAssembly RayCastBounds.
From Romea Require Import SrcEigen SrcTieC14 SrcTieC14Cast.
From Romea.gen Require Import SrcRayCast.
Import ListNotations.

(* The walk of cast(), over exact arithmetic, for a 2D or 3D caster whose per-axis steps point from the origin
   index to the end index and whose needed crossing parameters stay below numeric_limits::max():
   - exactly (L1 distance between origin and end cells) + 1 cells,
   - it starts in the origin cell and ENDS IN THE END CELL,
   - consecutive cells are face-adjacent (one coordinate moves by +-1),
   - every visited cell lies in the index box spanned by the origin and end cells (hence inside the grid whenever
     both end points are: C13_index_in_bounds). *)
Theorem C14_cast_walk : forall (c : caster (T:=R)) d B, (d = 2 \/ d = 3) ->
  length (rc_oidx c) = d -> length (rc_eidx c) = d -> length (rc_tmax c) = d ->
  length (rc_step c) = d -> length (rc_tdelta c) = d ->
  (B < M)%R -> (forall i, i < d -> (0 <= nth i (rc_tdelta c) 0)%R) ->
  (forall i, i < d -> (nth i (rc_eidx c) 0 - nth i (rc_oidx c) 0 = nth i (rc_step c) 0 * Z.abs (nth i (rc_eidx c) 0 - nth i (rc_oidx c) 0))%Z) ->
  (forall i, i < d -> (0 < Z.abs (nth i (rc_eidx c) 0 - nth i (rc_oidx c) 0))%Z ->
     (nth i (rc_tmax c) 0 + IZR (Z.abs (nth i (rc_eidx c) 0 - nth i (rc_oidx c) 0)%Z) * nth i (rc_tdelta c) 0 <= B)%R) ->
  let cells := cast_cells ROps c in
  let l1 := RayCastProofs.sumf d (fun i => Z.abs (nth i (rc_eidx c) 0 - nth i (rc_oidx c) 0)%Z) in
  Z.of_nat (length cells) = (l1 + 1)%Z /\
  hd [] cells = rc_oidx c /\
  last cells [] = rc_eidx c /\
  chain d (rc_oidx c) (tl cells) /\
  Forall (fun cl => forall i, i < d ->
            (Z.min (nth i (rc_oidx c) 0) (nth i (rc_eidx c) 0) <= nth i cl 0 <= Z.max (nth i (rc_oidx c) 0) (nth i (rc_eidx c) 0))%Z) cells.
Proof.
  intros c d B Hd Lo Le Lt _ _ HB Hdel Hsign Hbound.
  destruct (cast_walk_bounded d (rc_eidx c) (rc_step c) (rc_tdelta c) Le Hd (fun _ => True) B c HB Hdel
              (fun _ _ _ _ _ => I) eq_refl eq_refl eq_refl (conj Lo (conj Lt Hsign)) Hbound I) as (A1 & A2 & A3 & A4 & A5 & _).
  repeat split; assumption.
Qed.
Print Assumptions C14_cast_walk.

(* the choice made by next() never lands on an axis that already reached the end index while another has not *)
Theorem C14_choice_skips_finished_axes : forall d cell e tmax, (d = 2 \/ d = 3) ->
  length cell = d -> length e = d -> length tmax = d ->
  (forall i, i < d -> nth i cell 0%Z <> nth i e 0%Z -> (nth i tmax 0%R < M)%R) ->
  (exists j, j < d /\ nth j cell 0%Z <> nth j e 0%Z) ->
  let i := pick ROps (eff_tmax ROps cell e tmax) in
  i < d /\ nth i cell 0%Z <> nth i e 0%Z.
Proof.
  intros d cell e tmax Hd Lc Le Lt Hfin Hex.
  destruct (pick_live_min d cell e tmax Hd Lc Le Lt Hfin Hex) as (Hi & Hl & _). split; assumption.
Qed.

(* premises of C14_cast_walk, per axis, for the state that setEndPoint builds *)
Theorem C14_step_points_to_end_index : forall (a : axis (T:=R)) o e range oi,
  (0 < ax_r a)%R -> (0 < range)%R ->
  let step := fst (fst (axis_setup ROps a o oi ((e - o) / range)%R)) in
  let ei := gm_index ROps (ax_r a) (ax_org a) e in
  let oi' := gm_index ROps (ax_r a) (ax_org a) o in
  (ei - oi' = step * Z.abs (ei - oi'))%Z.
Proof. exact axis_step_consistent. Qed.

Theorem C14_increment_nonnegative : forall (a : axis (T:=R)) o oi dir, (0 < ax_r a)%R -> (0 < M)%R ->
  (0 <= snd (axis_setup ROps a o oi dir))%R.
Proof. exact axis_tdelta_nonneg. Qed.

(* start and end cells contain the origin / end point in their closed extent (per axis; from C13) *)
Theorem C14_cell_of_point_contains_it : forall r lo hi p, (0 < r)%R -> (lo <= p <= hi)%R ->
  let org := gm_origin ROps r lo in
  (Rabs (p - gm_centre ROps r org (gm_index ROps r org p)) <= r / 2)%R.
Proof. intros r lo hi p Hr. exact (point_within_half r lo hi Hr p). Qed.

(* a cast that specifies its end point depends only on the grid, the stored origin and the end point: the
   state left behind by earlier casts (advanced crossing parameters, old end indexes, old steps) is not read *)
Theorem C14_cast_end_history_independent : forall (c1 c2 : caster (T:=R)) e,
  rc_axes c1 = rc_axes c2 -> rc_origin c1 = rc_origin c2 -> rc_oidx c1 = rc_oidx c2 ->
  cast_cells ROps (set_end ROps c1 e) = cast_cells ROps (set_end ROps c2 e).
Proof.
  intros c1 c2 e Ha Ho Hi. unfold cast_cells, ncells, set_end. cbn [rc_oidx rc_eidx rc_step rc_tdelta rc_tmax rc_axes rc_origin].
  rewrite Ha, Ho, Hi. reflexivity.
Qed.

Theorem C14_cast_origin_end_history_independent : forall (c1 c2 : caster (T:=R)) o e, rc_axes c1 = rc_axes c2 ->
  cast_cells ROps (set_end ROps (set_origin ROps c1 o) e) = cast_cells ROps (set_end ROps (set_origin ROps c2 o) e).
Proof.
  intros c1 c2 o e Ha. apply C14_cast_end_history_independent; unfold set_origin; cbn; rewrite ?Ha; reflexivity.
Qed.

Theorem C14_operations_keep_the_grid : forall (c : caster (T:=R)) o, rc_axes (fst (rc_step_op ROps c o)) = rc_axes c.
Proof. intros c o. destruct o; reflexivity. Qed.
Print Assumptions C14_cast_origin_end_history_independent.

(* why, in exact arithmetic, the walk advances each axis exactly |delta index| times even without the budget rule:
   the abstract merge of the per-axis crossing sequences (see RayCastMerge.v) *)
Theorem C14_merge_counts : forall (d : nat) (m : nat -> nat) (c : nat -> nat -> R) (range : R) (pick : (nat -> nat) -> nat),
  (forall k, (pick k < d)%nat) ->
  (forall i j, (i < d)%nat -> (1 <= j <= m i)%nat -> (c i j <= range)%R) ->
  (forall i j, (i < d)%nat -> (m i < j)%nat -> (range <= c i j)%R) ->
  (forall k i, (i < d)%nat -> (c (pick k) (S (k (pick k))) <= c i (S (k i)))%R) ->
  ~ tie d m c range -> forall s, (s <= RayCastMerge.sumf d m)%nat ->
  (forall i, (i < d)%nat -> (steps pick s i <= m i)%nat) /\ RayCastMerge.sumf d (steps pick s) = s.
Proof. exact merge_counts. Qed.
Print Assumptions C14_merge_counts.

(* Every cell visited by cast() is met by the segment (closed cell, closed segment), over exact arithmetic.
   org/r: grid origin and resolution per axis; o: origin point; dirv: unit direction; rho: length of the segment, so that
   pos i t = o_i + t * dirv_i is the ray and t in [0, rho] the segment.  Premises: the end point lies in the closed end
   cell (C13), step = sign of the direction and increment * |direction| = r (C14_setup_establishes_invariant), the
   invariant holds at T = 0 (the origin lies in its cell and every stored crossing parameter is where the ray meets the
   border of the origin cell in the direction of travel — C14_setup_establishes_invariant again), plus the premises of
   C14_cast_walk. *)
Theorem C14_cells_meet_segment : forall d, (d = 2 \/ d = 3) ->
  forall (r rho : R) (org o dirv : list R) (eidx step : list Z) (tdelta : list R) (B : R),
  (0 < r)%R -> length eidx = d -> length step = d -> length tdelta = d -> (B < M)%R ->
  (forall i, i < d -> (0 <= nth i tdelta 0)%R) ->
  (forall i, i < d -> (lo r org i (nth i eidx 0%Z) <= pos o dirv i rho <= hi r org i (nth i eidx 0%Z))%R) ->
  (forall i, i < d ->
     (nth i step 0%Z = 1%Z /\ (0 < nth i dirv 0)%R /\ (nth i tdelta 0 * nth i dirv 0 = r)%R) \/
     (nth i step 0%Z = (-1)%Z /\ (nth i dirv 0 < 0)%R /\ (nth i tdelta 0 * nth i dirv 0 = - r)%R) \/
     (nth i step 0%Z = 0%Z /\ nth i dirv 0%R = 0%R)) ->
  forall c : caster (T:=R),
  length (rc_oidx c) = d -> length (rc_tmax c) = d -> rc_eidx c = eidx -> rc_step c = step -> rc_tdelta c = tdelta ->
  (forall i, i < d -> (nth i eidx 0 - nth i (rc_oidx c) 0 = nth i step 0 * Z.abs (nth i eidx 0 - nth i (rc_oidx c) 0))%Z) ->
  (forall i, i < d -> (0 < Z.abs (nth i eidx 0 - nth i (rc_oidx c) 0))%Z ->
     (nth i (rc_tmax c) 0 + IZR (Z.abs (nth i eidx 0 - nth i (rc_oidx c) 0)%Z) * nth i tdelta 0 <= B)%R) ->
  ginv d r rho org o dirv eidx step 0%R (rc_oidx c, rc_tmax c) ->
  Forall (meets d r rho org o dirv) (cast_cells ROps c).
Proof. exact cast_cells_meet_segment. Qed.
Print Assumptions C14_cells_meet_segment.

(* what setEndPoint computes per axis establishes those premises: the sign/increment relation and, for an origin
   inside its cell, a non-negative first crossing parameter at which the ray meets the border of the origin cell *)
Theorem C14_setup_establishes_invariant : forall (a : axis (T:=R)) (oc dirc : R) (oi : Z),
  (0 < ax_r a)%R ->
  (ax_org a + IZR oi * ax_r a <= oc <= ax_org a + (IZR oi + 1) * ax_r a)%R ->
  let '(st, tm, td) := axis_setup ROps a oc oi dirc in
  (st = 1%Z -> (0 < dirc /\ 0 <= tm /\ oc + tm * dirc = ax_org a + (IZR oi + 1) * ax_r a /\ td * dirc = ax_r a)%R) /\
  (st = (-1)%Z -> (dirc < 0 /\ 0 <= tm /\ oc + tm * dirc = ax_org a + IZR oi * ax_r a /\ td * dirc = - ax_r a)%R) /\
  (st = 0%Z -> dirc = 0%R).
Proof. exact axis_setup_crossing. Qed.

(* END TO END, 2D and 3D: for a grid of resolution r > 0 over the extent [lo_i, hi_i], an origin o and an end point e
   inside the extent with o <> e, the caster that cast(o, e) builds — set_end (set_origin (rc_init axes) o) e — visits
   L1+1 cells, from the origin cell to the END CELL, by face-adjacent steps, inside the index box of the two cells, and
   every visited cell is met by the segment [o, e].  The only hypothesis left is that the crossing parameters needed by
   the walk do not exceed numeric_limits::max() (bound B < M on the computed fields). *)
Theorem C14_cast_2d_end_to_end : forall (r lo0 hi0 lo1 hi1 o0 o1 e0 e1 B : R),
  (0 < r)%R -> (lo0 <= o0 <= hi0)%R -> (lo1 <= o1 <= hi1)%R -> (lo0 <= e0 <= hi0)%R -> (lo1 <= e1 <= hi1)%R ->
  (o0 <> e0 \/ o1 <> e1) ->
  let c := caster2 r lo0 hi0 lo1 hi1 o0 o1 e0 e1 in
  (forall i, i < 2 -> (0 < Z.abs (nth i (rc_eidx c) 0 - nth i (rc_oidx c) 0))%Z ->
     (nth i (rc_tmax c) 0 + IZR (Z.abs (nth i (rc_eidx c) 0 - nth i (rc_oidx c) 0)%Z) * nth i (rc_tdelta c) 0 <= B)%R) ->
  (B < M)%R ->
  let cells := cast_cells ROps c in
  let l1 := RayCastProofs.sumf 2 (fun i => Z.abs (nth i (rc_eidx c) 0 - nth i (rc_oidx c) 0)%Z) in
  (Z.of_nat (length cells) = l1 + 1)%Z /\
  hd [] cells = rc_oidx c /\ last cells [] = rc_eidx c /\ chain 2 (rc_oidx c) (tl cells) /\
  Forall (fun cl => forall i, i < 2 ->
            (Z.min (nth i (rc_oidx c) 0) (nth i (rc_eidx c) 0) <= nth i cl 0 <= Z.max (nth i (rc_oidx c) 0) (nth i (rc_eidx c) 0))%Z) cells /\
  Forall (meets 2 r (rho2 o0 o1 e0 e1) (org2 r lo0 lo1) [o0; o1] (dirv2 o0 o1 e0 e1)) cells.
Proof. intros. apply cast2_visits; try assumption. right. exists B. split; assumption. Qed.

Theorem C14_cast_3d_end_to_end : forall (r lo0 hi0 lo1 hi1 lo2 hi2 o0 o1 o2 e0 e1 e2 B : R),
  (0 < r)%R -> (lo0 <= o0 <= hi0)%R -> (lo1 <= o1 <= hi1)%R -> (lo2 <= o2 <= hi2)%R ->
  (lo0 <= e0 <= hi0)%R -> (lo1 <= e1 <= hi1)%R -> (lo2 <= e2 <= hi2)%R ->
  (o0 <> e0 \/ o1 <> e1 \/ o2 <> e2) ->
  let c := caster3 r lo0 hi0 lo1 hi1 lo2 hi2 o0 o1 o2 e0 e1 e2 in
  (forall i, i < 3 -> (0 < Z.abs (nth i (rc_eidx c) 0 - nth i (rc_oidx c) 0))%Z ->
     (nth i (rc_tmax c) 0 + IZR (Z.abs (nth i (rc_eidx c) 0 - nth i (rc_oidx c) 0)%Z) * nth i (rc_tdelta c) 0 <= B)%R) ->
  (B < M)%R ->
  let cells := cast_cells ROps c in
  let l1 := RayCastProofs.sumf 3 (fun i => Z.abs (nth i (rc_eidx c) 0 - nth i (rc_oidx c) 0)%Z) in
  (Z.of_nat (length cells) = l1 + 1)%Z /\
  hd [] cells = rc_oidx c /\ last cells [] = rc_eidx c /\ chain 3 (rc_oidx c) (tl cells) /\
  Forall (fun cl => forall i, i < 3 ->
            (Z.min (nth i (rc_oidx c) 0) (nth i (rc_eidx c) 0) <= nth i cl 0 <= Z.max (nth i (rc_oidx c) 0) (nth i (rc_eidx c) 0))%Z) cells /\
  Forall (meets 3 r (rho3 o0 o1 o2 e0 e1 e2) (org3 r lo0 lo1 lo2) [o0; o1; o2] (dirv3 o0 o1 o2 e0 e1 e2)) cells.
Proof. intros. apply cast3_visits; try assumption. right. exists B. split; assumption. Qed.
Print Assumptions C14_cast_3d_end_to_end.

(* Without the bound B (RayCastSegment.v).
   The premise  tmax_i + |delta index|_i * tdelta_i <= B < max()  of the theorems above bounds the parameter stored AFTER the last
   step of an axis (where the ray leaves the END cell); next() never compares that value, and it is not bounded by the geometry
   (it exceeds r * rho / |e_i - o_i|).  The parameters next() does compare belong to axes that have not reached the end index, and the
   ghost-parameter invariant gives them <= rho.  Proving walk and geometry together needs only  rho < max(). *)

(* generic caster: all six conclusions from the per-axis premises, the invariant at T = 0 and rho < max() *)
Theorem C14_cast_walk_and_segment_without_bound : forall d, (d = 2 \/ d = 3) ->
  forall (r rho : R) (org o dirv : list R) (eidx step : list Z) (tdelta : list R),
  (0 < r)%R -> (rho < M)%R -> length eidx = d -> length step = d -> length tdelta = d ->
  (forall i, i < d -> (0 <= nth i tdelta 0)%R) ->
  (forall i, i < d -> (lo r org i (nth i eidx 0%Z) <= pos o dirv i rho <= hi r org i (nth i eidx 0%Z))%R) ->
  (forall i, i < d ->
     (nth i step 0%Z = 1%Z /\ (0 < nth i dirv 0)%R /\ (nth i tdelta 0 * nth i dirv 0 = r)%R) \/
     (nth i step 0%Z = (-1)%Z /\ (nth i dirv 0 < 0)%R /\ (nth i tdelta 0 * nth i dirv 0 = - r)%R) \/
     (nth i step 0%Z = 0%Z /\ nth i dirv 0%R = 0%R)) ->
  forall c : caster (T:=R),
  length (rc_oidx c) = d -> length (rc_tmax c) = d -> rc_eidx c = eidx -> rc_step c = step -> rc_tdelta c = tdelta ->
  (forall i, i < d -> (nth i eidx 0 - nth i (rc_oidx c) 0 = nth i step 0 * Z.abs (nth i eidx 0 - nth i (rc_oidx c) 0))%Z) ->
  ginv d r rho org o dirv eidx step 0%R (rc_oidx c, rc_tmax c) ->
  (Z.of_nat (length (cast_cells ROps c)) = RayCastProofs.sumf d (fun i => Z.abs (nth i (rc_eidx c) 0 - nth i (rc_oidx c) 0)%Z) + 1)%Z /\
  hd [] (cast_cells ROps c) = rc_oidx c /\
  last (cast_cells ROps c) [] = rc_eidx c /\
  chain d (rc_oidx c) (tl (cast_cells ROps c)) /\
  Forall (fun cl => forall i, i < d ->
            (Z.min (nth i (rc_oidx c) 0) (nth i (rc_eidx c) 0) <= nth i cl 0 <= Z.max (nth i (rc_oidx c) 0) (nth i (rc_eidx c) 0))%Z)
         (cast_cells ROps c) /\
  Forall (meets d r rho org o dirv) (cast_cells ROps c).
Proof.
  intros d Hd r rho org o dirv eidx step tdelta Hr HM Le _ _ Hdel Hend Hstep c Lo Lt Ee Es Ed Hsign.
  exact (cast_walk_geo d Hd r rho org o dirv eidx step tdelta Hr Le Hdel Hend Hstep c HM Ee Es Ed (conj Lo (conj Lt Hsign))).
Qed.
Print Assumptions C14_cast_walk_and_segment_without_bound.

(* END TO END without the bound: the only numeric premise is |e - o| < numeric_limits::max() *)
Theorem C14_cast_2d_end_to_end_without_bound : forall (r lo0 hi0 lo1 hi1 o0 o1 e0 e1 : R),
  (0 < r)%R -> (lo0 <= o0 <= hi0)%R -> (lo1 <= o1 <= hi1)%R -> (lo0 <= e0 <= hi0)%R -> (lo1 <= e1 <= hi1)%R ->
  (o0 <> e0 \/ o1 <> e1) -> (rho2 o0 o1 e0 e1 < M)%R ->
  let c := caster2 r lo0 hi0 lo1 hi1 o0 o1 e0 e1 in
  let cells := cast_cells ROps c in
  let l1 := RayCastProofs.sumf 2 (fun i => Z.abs (nth i (rc_eidx c) 0 - nth i (rc_oidx c) 0)%Z) in
  (Z.of_nat (length cells) = l1 + 1)%Z /\
  hd [] cells = rc_oidx c /\ last cells [] = rc_eidx c /\ chain 2 (rc_oidx c) (tl cells) /\
  Forall (fun cl => forall i, i < 2 ->
            (Z.min (nth i (rc_oidx c) 0) (nth i (rc_eidx c) 0) <= nth i cl 0 <= Z.max (nth i (rc_oidx c) 0) (nth i (rc_eidx c) 0))%Z) cells /\
  Forall (meets 2 r (rho2 o0 o1 e0 e1) (org2 r lo0 lo1) [o0; o1] (dirv2 o0 o1 e0 e1)) cells.
Proof. intros. apply cast2_visits; try assumption. left. assumption. Qed.

Theorem C14_cast_3d_end_to_end_without_bound : forall (r lo0 hi0 lo1 hi1 lo2 hi2 o0 o1 o2 e0 e1 e2 : R),
  (0 < r)%R -> (lo0 <= o0 <= hi0)%R -> (lo1 <= o1 <= hi1)%R -> (lo2 <= o2 <= hi2)%R ->
  (lo0 <= e0 <= hi0)%R -> (lo1 <= e1 <= hi1)%R -> (lo2 <= e2 <= hi2)%R ->
  (o0 <> e0 \/ o1 <> e1 \/ o2 <> e2) -> (rho3 o0 o1 o2 e0 e1 e2 < M)%R ->
  let c := caster3 r lo0 hi0 lo1 hi1 lo2 hi2 o0 o1 o2 e0 e1 e2 in
  let cells := cast_cells ROps c in
  let l1 := RayCastProofs.sumf 3 (fun i => Z.abs (nth i (rc_eidx c) 0 - nth i (rc_oidx c) 0)%Z) in
  (Z.of_nat (length cells) = l1 + 1)%Z /\
  hd [] cells = rc_oidx c /\ last cells [] = rc_eidx c /\ chain 3 (rc_oidx c) (tl cells) /\
  Forall (fun cl => forall i, i < 3 ->
            (Z.min (nth i (rc_oidx c) 0) (nth i (rc_eidx c) 0) <= nth i cl 0 <= Z.max (nth i (rc_oidx c) 0) (nth i (rc_eidx c) 0))%Z) cells /\
  Forall (meets 3 r (rho3 o0 o1 o2 e0 e1 e2) (org3 r lo0 lo1 lo2) [o0; o1; o2] (dirv3 o0 o1 o2 e0 e1 e2)) cells.
Proof. intros. apply cast3_visits; try assumption. left. assumption. Qed.
Print Assumptions C14_cast_3d_end_to_end_without_bound.

(* the property's envelope (at most 2000 cells of resolution <= 1 per axis, so an extent of side <= 2000): NO numeric premise left *)
Theorem C14_cast_2d_end_to_end_envelope : forall (r lo0 hi0 lo1 hi1 o0 o1 e0 e1 : R),
  (0 < r)%R -> (lo0 <= o0 <= hi0)%R -> (lo1 <= o1 <= hi1)%R -> (lo0 <= e0 <= hi0)%R -> (lo1 <= e1 <= hi1)%R ->
  (o0 <> e0 \/ o1 <> e1) -> (hi0 - lo0 <= 2000)%R -> (hi1 - lo1 <= 2000)%R ->
  let c := caster2 r lo0 hi0 lo1 hi1 o0 o1 e0 e1 in
  let cells := cast_cells ROps c in
  let l1 := RayCastProofs.sumf 2 (fun i => Z.abs (nth i (rc_eidx c) 0 - nth i (rc_oidx c) 0)%Z) in
  (Z.of_nat (length cells) = l1 + 1)%Z /\
  hd [] cells = rc_oidx c /\ last cells [] = rc_eidx c /\ chain 2 (rc_oidx c) (tl cells) /\
  Forall (fun cl => forall i, i < 2 ->
            (Z.min (nth i (rc_oidx c) 0) (nth i (rc_eidx c) 0) <= nth i cl 0 <= Z.max (nth i (rc_oidx c) 0) (nth i (rc_eidx c) 0))%Z) cells /\
  Forall (meets 2 r (rho2 o0 o1 e0 e1) (org2 r lo0 lo1) [o0; o1] (dirv2 o0 o1 e0 e1)) cells.
Proof.
  intros r lo0 hi0 lo1 hi1 o0 o1 e0 e1 Hr Ho0 Ho1 He0 He1 Hne D0 D1. apply cast2_visits; try assumption.
  apply (envelope_no_overflow 2 [e0 - o0; e1 - o1]%R); [cbn; lia|repeat (apply Forall_cons; [apply Rabs_le; lra|]); apply Forall_nil].
Qed.

Theorem C14_cast_3d_end_to_end_envelope : forall (r lo0 hi0 lo1 hi1 lo2 hi2 o0 o1 o2 e0 e1 e2 : R),
  (0 < r)%R -> (lo0 <= o0 <= hi0)%R -> (lo1 <= o1 <= hi1)%R -> (lo2 <= o2 <= hi2)%R ->
  (lo0 <= e0 <= hi0)%R -> (lo1 <= e1 <= hi1)%R -> (lo2 <= e2 <= hi2)%R ->
  (o0 <> e0 \/ o1 <> e1 \/ o2 <> e2) -> (hi0 - lo0 <= 2000)%R -> (hi1 - lo1 <= 2000)%R -> (hi2 - lo2 <= 2000)%R ->
  let c := caster3 r lo0 hi0 lo1 hi1 lo2 hi2 o0 o1 o2 e0 e1 e2 in
  let cells := cast_cells ROps c in
  let l1 := RayCastProofs.sumf 3 (fun i => Z.abs (nth i (rc_eidx c) 0 - nth i (rc_oidx c) 0)%Z) in
  (Z.of_nat (length cells) = l1 + 1)%Z /\
  hd [] cells = rc_oidx c /\ last cells [] = rc_eidx c /\ chain 3 (rc_oidx c) (tl cells) /\
  Forall (fun cl => forall i, i < 3 ->
            (Z.min (nth i (rc_oidx c) 0) (nth i (rc_eidx c) 0) <= nth i cl 0 <= Z.max (nth i (rc_oidx c) 0) (nth i (rc_eidx c) 0))%Z) cells /\
  Forall (meets 3 r (rho3 o0 o1 o2 e0 e1 e2) (org3 r lo0 lo1 lo2) [o0; o1; o2] (dirv3 o0 o1 o2 e0 e1 e2)) cells.
Proof.
  intros r lo0 hi0 lo1 hi1 lo2 hi2 o0 o1 o2 e0 e1 e2 Hr Ho0 Ho1 Ho2 He0 He1 He2 Hne D0 D1 D2.
  apply cast3_visits; try assumption.
  apply (envelope_no_overflow 3 [e0 - o0; e1 - o1; e2 - o2]%R); [cbn; lia|repeat (apply Forall_cons; [apply Rabs_le; lra|]); apply Forall_nil].
Qed.
Print Assumptions C14_cast_3d_end_to_end_envelope.

(* ---- the integer side.  C++: indexes are size_t, computeRayNumberOfCells casts them to int and sums |difference| in int, next()
   adds an int step (+-1) to a size_t index.  If the grid has n_i cells on axis i and sum n_i <= 2^31 - 1, every index visited by the
   model's (unbounded Z) walk lies in [0, n_i) and below 2^31, every partial sum of the count is in [0, 2^31 - 2], and the count
   is in [1, 2^31 - 1] and equals the number of cells returned: no cast, sum or modular step of the C++ can differ from the model. *)
Theorem C14_indexes_and_count_fit_int : forall (d : nat) (oidx eidx : list Z) (nc : nat -> Z) (cells : list (list Z)),
  (forall i, i < d -> (0 <= nth i oidx 0 < nc i)%Z) ->
  (forall i, i < d -> (0 <= nth i eidx 0 < nc i)%Z) ->
  (RayCastProofs.sumf d nc <= 2147483647)%Z ->
  Forall (fun cl => forall i, i < d ->
            (Z.min (nth i oidx 0) (nth i eidx 0) <= nth i cl 0 <= Z.max (nth i oidx 0) (nth i eidx 0))%Z) cells ->
  Forall (fun cl => forall i, i < d -> (0 <= nth i cl 0 < nc i)%Z /\ (nth i cl 0 <= 2147483647)%Z) cells /\
  (forall m, m <= d ->
     (0 <= RayCastProofs.sumf m (fun i => Z.abs (nth i eidx 0 - nth i oidx 0)) <= 2147483647 - 1)%Z) /\
  (1 <= RayCastProofs.sumf d (fun i => Z.abs (nth i eidx 0 - nth i oidx 0)) + 1 <= 2147483647)%Z.
Proof. exact cast_indexes_fit_int. Qed.

Theorem C14_cast_2d_indexes_fit : forall (r lo0 hi0 lo1 hi1 o0 o1 e0 e1 : R),
  (0 < r)%R -> (lo0 <= o0 <= hi0)%R -> (lo1 <= o1 <= hi1)%R -> (lo0 <= e0 <= hi0)%R -> (lo1 <= e1 <= hi1)%R ->
  (o0 <> e0 \/ o1 <> e1) -> (rho2 o0 o1 e0 e1 < M)%R ->
  (gm_ncells ROps r lo0 hi0 + gm_ncells ROps r lo1 hi1 <= 2147483647)%Z ->
  let c := caster2 r lo0 hi0 lo1 hi1 o0 o1 e0 e1 in
  Forall (fun cl => forall i, i < 2 -> (0 <= nth i cl 0 < nc2 r lo0 hi0 lo1 hi1 i)%Z /\ (nth i cl 0 <= 2147483647)%Z)
         (cast_cells ROps c) /\
  (forall m, m <= 2 ->
     (0 <= RayCastProofs.sumf m (fun i => Z.abs (nth i (rc_eidx c) 0 - nth i (rc_oidx c) 0)) <= 2147483647 - 1)%Z) /\
  ncells c = Z.of_nat (length (cast_cells ROps c)) /\ (1 <= ncells c <= 2147483647)%Z.
Proof.
  intros r lo0 hi0 lo1 hi1 o0 o1 e0 e1 Hr Ho0 Ho1 He0 He1 Hne HM Hn c.
  apply (cast_fits_int 2 c (nc2 r lo0 hi0 lo1 hi1) _
           (cast2_visits r lo0 hi0 lo1 hi1 o0 o1 e0 e1 Hr Ho0 Ho1 He0 He1 Hne (or_introl HM))); try reflexivity.
  - apply below_2; [exact (index_in_bounds r lo0 hi0 Hr o0 Ho0)|exact (index_in_bounds r lo1 hi1 Hr o1 Ho1)].
  - apply below_2; [exact (index_in_bounds r lo0 hi0 Hr e0 He0)|exact (index_in_bounds r lo1 hi1 Hr e1 He1)].
  - cbn [RayCastProofs.sumf nc2]. lia.
Qed.

Theorem C14_cast_3d_indexes_fit : forall (r lo0 hi0 lo1 hi1 lo2 hi2 o0 o1 o2 e0 e1 e2 : R),
  (0 < r)%R -> (lo0 <= o0 <= hi0)%R -> (lo1 <= o1 <= hi1)%R -> (lo2 <= o2 <= hi2)%R ->
  (lo0 <= e0 <= hi0)%R -> (lo1 <= e1 <= hi1)%R -> (lo2 <= e2 <= hi2)%R ->
  (o0 <> e0 \/ o1 <> e1 \/ o2 <> e2) -> (rho3 o0 o1 o2 e0 e1 e2 < M)%R ->
  (gm_ncells ROps r lo0 hi0 + gm_ncells ROps r lo1 hi1 + gm_ncells ROps r lo2 hi2 <= 2147483647)%Z ->
  let c := caster3 r lo0 hi0 lo1 hi1 lo2 hi2 o0 o1 o2 e0 e1 e2 in
  Forall (fun cl => forall i, i < 3 -> (0 <= nth i cl 0 < nc3 r lo0 hi0 lo1 hi1 lo2 hi2 i)%Z /\ (nth i cl 0 <= 2147483647)%Z)
         (cast_cells ROps c) /\
  (forall m, m <= 3 ->
     (0 <= RayCastProofs.sumf m (fun i => Z.abs (nth i (rc_eidx c) 0 - nth i (rc_oidx c) 0)) <= 2147483647 - 1)%Z) /\
  ncells c = Z.of_nat (length (cast_cells ROps c)) /\ (1 <= ncells c <= 2147483647)%Z.
Proof.
  intros r lo0 hi0 lo1 hi1 lo2 hi2 o0 o1 o2 e0 e1 e2 Hr Ho0 Ho1 Ho2 He0 He1 He2 Hne HM Hn c.
  apply (cast_fits_int 3 c (nc3 r lo0 hi0 lo1 hi1 lo2 hi2) _
           (cast3_visits r lo0 hi0 lo1 hi1 lo2 hi2 o0 o1 o2 e0 e1 e2 Hr Ho0 Ho1 Ho2 He0 He1 He2 Hne (or_introl HM)));
    try reflexivity.
  - apply below_3; [exact (index_in_bounds r lo0 hi0 Hr o0 Ho0)|exact (index_in_bounds r lo1 hi1 Hr o1 Ho1)
                   |exact (index_in_bounds r lo2 hi2 Hr o2 Ho2)].
  - apply below_3; [exact (index_in_bounds r lo0 hi0 Hr e0 He0)|exact (index_in_bounds r lo1 hi1 Hr e1 He1)
                   |exact (index_in_bounds r lo2 hi2 Hr e2 He2)].
  - cbn [RayCastProofs.sumf nc3]. lia.
Qed.
Print Assumptions C14_cast_3d_indexes_fit.

(* What stays outside the theorems: floating-point rounding (the walk of the float instance is observed, and the budget
   rule makes C14_cast_walk independent of the values of the crossing parameters; the parameter stored after the last
   step of an axis is never compared, see above),
   the coincident case o = e (one cell, no step; trivial in the model: ncells = 1), and casts on a caster whose crossing
   parameters were advanced by an earlier cast() (the model's OpCast, outside the property). *)

(* non-vacuity: a 2D caster on a 3-cell axis pair, origin cell (0,0), end cell (2,1) *)
Example C14_ex :
  let c := {| rc_axes := []; rc_origin := []; rc_oidx := [0; 0]%Z; rc_eidx := [2; 1]%Z;
              rc_tmax := [1; 2]%R; rc_tdelta := [2; 4]%R; rc_step := [1; 1]%Z |} in
  length (cast_cells ROps c) = 4 /\ last (cast_cells ROps c) [] = [2; 1]%Z.
Proof.
  intros c.
  assert (HM : (100 < M)%R) by (pose proof M_big; lra).
  destruct (C14_cast_walk c 2 100%R (or_introl eq_refl) eq_refl eq_refl eq_refl eq_refl eq_refl HM) as (L & _ & E & _).
  - intros [|[|i]] Hi; cbn; try lra; lia.
  - intros [|[|i]] Hi; cbn; try lia.
  - intros [|[|i]] Hi Hp; cbn in *; try lra; try lia.
  - split; [|exact E]. apply Nat2Z.inj. rewrite L. reflexivity.
Qed.

(* non-vacuity of the bound-free end-to-end theorem: 3 x 3 grid of resolution 1 over [0,3]^2, from (1/2, 1/2) to (5/2, 3/2) *)
Example C14_ex_without_bound :
  let c := caster2 1 0 3 0 3 (1/2) (1/2) (5/2) (3/2) in
  last (cast_cells ROps c) [] = rc_eidx c /\ Forall (fun cl => forall i, i < 2 -> (nth i cl 0 <= 2147483647)%Z) (cast_cells ROps c).
Proof.
  intros c.
  destruct (C14_cast_2d_end_to_end_envelope 1 0 3 0 3 (1/2) (1/2) (5/2) (3/2)) as (_ & _ & E & _); try lra.
  split; [exact E|].
  assert (HM : (rho2 (1/2) (1/2) (5/2) (3/2) < M)%R).
  { unfold rho2. pose proof M_big.
    pose proof (norm_le [5/2 - 1/2; 3/2 - 1/2]%R 3
                  ltac:(repeat (apply Forall_cons; [apply Rabs_le; lra|]); apply Forall_nil) ltac:(lra)) as N.
    cbn [length INR] in N. lra. }
  assert (Hn : (gm_ncells ROps 1%R 0%R 3%R + gm_ncells ROps 1%R 0%R 3%R <= 2147483647)%Z).
  { assert (gm_ncells ROps 1%R 0%R 3%R = 4%Z) as ->; [|lia].
    unfold gm_ncells. cbn [ntruncZ nadd nsub nceil nfloor ndiv n_one ROps].
    replace (3 / 1)%R with 3%R by lra. replace (0 / 1)%R with 0%R by lra.
    rewrite Raux.Zceil_IZR, Raux.Zfloor_IZR. replace (3 - 0 + 1)%R with 4%R by lra.
    apply Raux.Ztrunc_IZR. }
  destruct (C14_cast_2d_indexes_fit 1 0 3 0 3 (1/2) (1/2) (5/2) (3/2)) as (F & _); try lra; try assumption.
  eapply Forall_impl; [|exact F]. cbn. intros cl H i Hi. apply (H i Hi).
Qed.

(* ====================================================================================================
   SYNTACTIC SOURCE TIE.  gen/SrcRayCast.v is regenerated on every run from the clang AST of the current
   src/containers/grid/RayTracing.cpp (+ GridIndexMapping.cpp for the calls into the grid) by symbolic execution of the
   instantiated member functions (translate/tr_C14_raycast.py, translate/eigsym.py).  The theorems below say that the
   generated terms ARE the functions of RayCastModel.v that every theorem above is about — for every numeric dictionary
   N (hence at ROps, the instance of the theorems, and at the float dictionaries the correspondence run executes), by
   computation and case analysis only: the source and the model perform the same operations in the same order.
   Integers: IdealInt reads size_t / int conversions as the identity (the model's unbounded Z); MachInt wraps.
   ==================================================================================================== *)

(* the four hand-written specialisations RayCasting<float|double, 2|3>::next, each translated separately, are the model's
   [next] on 2- resp. 3-element lists: outputs (cellIndexes, rayTMax_) *)
Theorem C14_source_tie_next : forall (T : Type) (N : NumOps T) (c0 c1 c2 e0 e1 e2 s0 s1 s2 : Z) (d0 d1 d2 t0 t1 t2 : T),
  src_next_f2 N IdealInt c0 c1 e0 e1 s0 s1 d0 d1 t0 t1 = next N [e0; e1] [s0; s1] [d0; d1] ([c0; c1], [t0; t1]) /\
  src_next_d2 N IdealInt c0 c1 e0 e1 s0 s1 d0 d1 t0 t1 = next N [e0; e1] [s0; s1] [d0; d1] ([c0; c1], [t0; t1]) /\
  src_next_f3 N IdealInt c0 c1 c2 e0 e1 e2 s0 s1 s2 d0 d1 d2 t0 t1 t2
    = next N [e0; e1; e2] [s0; s1; s2] [d0; d1; d2] ([c0; c1; c2], [t0; t1; t2]) /\
  src_next_d3 N IdealInt c0 c1 c2 e0 e1 e2 s0 s1 s2 d0 d1 d2 t0 t1 t2
    = next N [e0; e1; e2] [s0; s1; s2] [d0; d1; d2] ([c0; c1; c2], [t0; t1; t2]).
Proof. intros. repeat split; [apply tie_next_f2|apply tie_next_d2|apply tie_next_f3|apply tie_next_d3]; reflexivity. Qed.
Print Assumptions C14_source_tie_next.

(* with machine integers (size_t += int wraps modulo 2^64) the same holds whenever the advanced index is a size_t value —
   which C14_cast_2d_indexes_fit / C14_cast_3d_indexes_fit prove for every index of a walk *)
Theorem C14_source_tie_next_machine_integers : forall (T : Type) (N : NumOps T) (c0 c1 c2 e0 e1 e2 s0 s1 s2 : Z) (d0 d1 d2 t0 t1 t2 : T),
  (0 <= c0 + s0 < 2 ^ 64)%Z -> (0 <= c1 + s1 < 2 ^ 64)%Z -> (0 <= c2 + s2 < 2 ^ 64)%Z ->
  src_next_f2 N MachInt c0 c1 e0 e1 s0 s1 d0 d1 t0 t1 = next N [e0; e1] [s0; s1] [d0; d1] ([c0; c1], [t0; t1]) /\
  src_next_d2 N MachInt c0 c1 e0 e1 s0 s1 d0 d1 t0 t1 = next N [e0; e1] [s0; s1] [d0; d1] ([c0; c1], [t0; t1]) /\
  src_next_f3 N MachInt c0 c1 c2 e0 e1 e2 s0 s1 s2 d0 d1 d2 t0 t1 t2
    = next N [e0; e1; e2] [s0; s1; s2] [d0; d1; d2] ([c0; c1; c2], [t0; t1; t2]) /\
  src_next_d3 N MachInt c0 c1 c2 e0 e1 e2 s0 s1 s2 d0 d1 d2 t0 t1 t2
    = next N [e0; e1; e2] [s0; s1; s2] [d0; d1; d2] ([c0; c1; c2], [t0; t1; t2]).
Proof.
  intros. repeat split; [apply tie_next_f2|apply tie_next_d2|apply tie_next_f3|apply tie_next_d3];
    apply cu64_add_step; assumption.
Qed.

(* computeRayNumberOfCells (DIM = 2, 3; float and double instantiations give the same term) is the model's [ncells] *)
Theorem C14_source_tie_ncells : forall (T : Type) (c : caster (T:=T)),
  (forall e0 e1 o0 o1, rc_eidx c = [e0; e1] -> rc_oidx c = [o0; o1] -> src_ncells_2 IdealInt e0 e1 o0 o1 = ncells c) /\
  (forall e0 e1 e2 o0 o1 o2, rc_eidx c = [e0; e1; e2] -> rc_oidx c = [o0; o1; o2] ->
     src_ncells_3 IdealInt e0 e1 e2 o0 o1 o2 = ncells c).
Proof. intros T c. split; intros; [apply (tie_ncells_2 c)|apply (tie_ncells_3 c)]; assumption. Qed.

(* ... and with machine integers (cast<int>(), int arithmetic, conversion of the count to size_t) as soon as the indexes fit int *)
Theorem C14_source_tie_ncells_machine_integers : forall e0 e1 e2 o0 o1 o2,
  (0 <= e0 < 2 ^ 31)%Z -> (0 <= e1 < 2 ^ 31)%Z -> (0 <= e2 < 2 ^ 31)%Z ->
  (0 <= o0 < 2 ^ 31)%Z -> (0 <= o1 < 2 ^ 31)%Z -> (0 <= o2 < 2 ^ 31)%Z ->
  src_ncells_2 MachInt e0 e1 o0 o1 = src_ncells_2 IdealInt e0 e1 o0 o1 /\
  src_ncells_3 MachInt e0 e1 e2 o0 o1 o2 = src_ncells_3 IdealInt e0 e1 e2 o0 o1 o2.
Proof. intros. split; [apply ncells_2_machine | apply ncells_3_machine]; assumption. Qed.

(* setOriginPoint, with gridIndexMapping_->computeCellIndexes inlined from GridIndexMapping.cpp: outputs
   (rayOriginIndexes_, rayOriginPoint_) are those of the model's [set_origin].  The C++ grid has one resolution r. *)
Theorem C14_source_tie_set_origin_2d : forall (T : Type) (N : NumOps T) (c : caster (T:=T)) a0 a1 r p0 p1,
  rc_axes c = [a0; a1] -> ax_r a0 = r -> ax_r a1 = r ->
  src_setOrigin_2 N p0 p1 r (ax_org a0) (ax_org a1)
  = (rc_oidx (set_origin N c [p0; p1]), rc_origin (set_origin N c [p0; p1])).
Proof. exact @tie_setOrigin_2. Qed.

Theorem C14_source_tie_set_origin_3d : forall (T : Type) (N : NumOps T) (c : caster (T:=T)) a0 a1 a2 r p0 p1 p2,
  rc_axes c = [a0; a1; a2] -> ax_r a0 = r -> ax_r a1 = r -> ax_r a2 = r ->
  src_setOrigin_3 N p0 p1 p2 r (ax_org a0) (ax_org a1) (ax_org a2)
  = (rc_oidx (set_origin N c [p0; p1; p2]), rc_origin (set_origin N c [p0; p1; p2])).
Proof. exact @tie_setOrigin_3. Qed.

(* setEndPoint (computeCellIndexes, computeCellCenterPosition, getCellResolution inlined; the per-axis loop unrolled):
   outputs (rayDirection_, rayEndIndexes_, rayEndPoint_, rayStep_, rayTDelta_, rayTMax_); the ones the model keeps are those
   of [set_end].  LitOK N: the dictionary reads the literals 0 and 0.5 as nzero and nhalf (true of ROps: LitOK_R, and of
   the rounded dictionaries: C13's LitOK_B64 / LitOK_B32).  tab_i: the cell-centre table of axis i, read at the origin
   index; C13_source_tie_constructor_2d / _3d prove that the constructor stores gm_centre there. *)
Theorem C14_source_tie_set_end_2d : forall (T : Type) (N : NumOps T), LitOK N ->
  forall (c : caster (T:=T)) a0 a1 r o0 o1 oi0 oi1 e0 e1 (tab0 tab1 : Z -> T),
  rc_axes c = [a0; a1] -> rc_origin c = [o0; o1] -> rc_oidx c = [oi0; oi1] -> ax_r a0 = r -> ax_r a1 = r ->
  tab0 oi0 = gm_centre N r (ax_org a0) oi0 -> tab1 oi1 = gm_centre N r (ax_org a1) oi1 ->
  let '(dir, eidx, ep, step, tdelta, tmax) := src_setEnd_2 N e0 e1 tab0 tab1 r (ax_org a0) (ax_org a1) oi0 oi1 o0 o1 in
  let c' := set_end N c [e0; e1] in
  eidx = rc_eidx c' /\ ep = [e0; e1] /\ step = rc_step c' /\ tdelta = rc_tdelta c' /\ tmax = rc_tmax c'.
Proof. exact @tie_setEnd_2. Qed.

Theorem C14_source_tie_set_end_3d : forall (T : Type) (N : NumOps T), LitOK N ->
  forall (c : caster (T:=T)) a0 a1 a2 r o0 o1 o2 oi0 oi1 oi2 e0 e1 e2 (tab0 tab1 tab2 : Z -> T),
  rc_axes c = [a0; a1; a2] -> rc_origin c = [o0; o1; o2] -> rc_oidx c = [oi0; oi1; oi2] ->
  ax_r a0 = r -> ax_r a1 = r -> ax_r a2 = r ->
  tab0 oi0 = gm_centre N r (ax_org a0) oi0 -> tab1 oi1 = gm_centre N r (ax_org a1) oi1 ->
  tab2 oi2 = gm_centre N r (ax_org a2) oi2 ->
  let '(dir, eidx, ep, step, tdelta, tmax) :=
    src_setEnd_3 N e0 e1 e2 tab0 tab1 tab2 r (ax_org a0) (ax_org a1) (ax_org a2) oi0 oi1 oi2 o0 o1 o2 in
  let c' := set_end N c [e0; e1; e2] in
  eidx = rc_eidx c' /\ ep = [e0; e1; e2] /\ step = rc_step c' /\ tdelta = rc_tdelta c' /\ tmax = rc_tmax c'.
Proof. exact @tie_setEnd_3. Qed.
Print Assumptions C14_source_tie_set_end_3d.

(* non-vacuity: the real dictionary reads the literals as the model does *)
Example C14_source_tie_ex : LitOK ROps.
Proof. exact LitOK_R. Qed.

(* cast(): the `while (++n != rayNumberOfCells) { next(cur); ray[n] = cur; }` loop is translated to a local fix on a fuel
   argument (None = the C++ loop would still be running), the returned std::vector to (size, function of the index), with
   computeRayNumberOfCells and the specialisation of next inlined.  With fuel >= number of cells the generated cast() returns
   exactly the model's [cast_cells] (the list C14_cast_walk, C14_cells_meet_segment, ... are about) and leaves rayTMax_ as
   [after_cast] says — for every numeric dictionary. *)
Theorem C14_source_tie_cast_loop_2d : forall (T : Type) (N : NumOps T) (c : caster (T:=T)) e0 e1 o0 o1 s0 s1 d0 d1 t0 t1 fuel,
  rc_eidx c = [e0; e1] -> rc_oidx c = [o0; o1] -> rc_step c = [s0; s1] -> rc_tdelta c = [d0; d1] -> rc_tmax c = [t0; t1] ->
  (Z.to_nat (ncells c) <= fuel)%nat ->
  match src_cast_2 N IdealInt fuel e0 e1 o0 o1 s0 s1 d0 d1 t0 t1 with
  | None => False
  | Some ((k, ray), tmax) =>
      k = ncells c /\ tmax = rc_tmax (after_cast N c) /\
      forall j, (j < length (cast_cells N c))%nat -> ray (Z.of_nat j) = nth j (cast_cells N c) []
  end.
Proof. exact @tie_cast_2. Qed.

Theorem C14_source_tie_cast_loop_3d : forall (T : Type) (N : NumOps T) (c : caster (T:=T))
    e0 e1 e2 o0 o1 o2 s0 s1 s2 d0 d1 d2 t0 t1 t2 fuel,
  rc_eidx c = [e0; e1; e2] -> rc_oidx c = [o0; o1; o2] -> rc_step c = [s0; s1; s2] -> rc_tdelta c = [d0; d1; d2] ->
  rc_tmax c = [t0; t1; t2] -> (Z.to_nat (ncells c) <= fuel)%nat ->
  match src_cast_3 N IdealInt fuel e0 e1 e2 o0 o1 o2 s0 s1 s2 d0 d1 d2 t0 t1 t2 with
  | None => False
  | Some ((k, ray), tmax) =>
      k = ncells c /\ tmax = rc_tmax (after_cast N c) /\
      forall j, (j < length (cast_cells N c))%nat -> ray (Z.of_nat j) = nth j (cast_cells N c) []
  end.
Proof. exact @tie_cast_3. Qed.
Print Assumptions C14_source_tie_cast_loop_3d.

(* cast(origin, end) — the operation the property is about — with setOriginPoint, setEndPoint, cast() and everything they call
   inlined from the two source files, is the model's OpCastOE: the cells are cast_cells of
   set_end (set_origin c origin) end, the state left behind is after_cast of it.  tab_i: contents of the grid's cell-centre
   table of axis i (C13_source_tie_constructor_2d / _3d: the constructor stores gm_centre there). *)
Theorem C14_source_tie_cast_origin_end_2d : forall (T : Type) (N : NumOps T), LitOK N ->
  forall (c : caster (T:=T)) a0 a1 r p0 p1 e0 e1 (tab0 tab1 : Z -> T) fuel,
  rc_axes c = [a0; a1] -> ax_r a0 = r -> ax_r a1 = r ->
  (forall k, tab0 k = gm_centre N r (ax_org a0) k) -> (forall k, tab1 k = gm_centre N r (ax_org a1) k) ->
  let c' := set_end N (set_origin N c [p0; p1]) [e0; e1] in
  (Z.to_nat (ncells c') <= fuel)%nat ->
  match src_castOE_2 N IdealInt fuel p0 p1 e0 e1 tab0 tab1 r (ax_org a0) (ax_org a1) with
  | None => False
  | Some ((k, ray), dir, eidx, ep, oidx, op, step, td, tm) =>
      (k = ncells c' /\ tm = rc_tmax (after_cast N c') /\
       forall j, (j < length (cast_cells N c'))%nat -> ray (Z.of_nat j) = nth j (cast_cells N c') []) /\
      oidx = rc_oidx c' /\ op = rc_origin c' /\ eidx = rc_eidx c' /\ step = rc_step c' /\ td = rc_tdelta c'
  end.
Proof.
  intros T N L c a0 a1 r p0 p1 e0 e1 tab0 tab1 fuel Ha R0 R1 T0 T1 c' Hf.
  pose proof (tie_castOE_2 N L c a0 a1 r p0 p1 e0 e1 tab0 tab1 fuel Ha R0 R1 T0 T1 Hf) as H.
  unfold castOE_result, cast_result in H.
  destruct (src_castOE_2 N IdealInt fuel p0 p1 e0 e1 tab0 tab1 r (ax_org a0) (ax_org a1))
    as [[[[[[[[[[k ray] dir] eidx] ep] oidx] op] step] td] tm]|]; exact H.
Qed.

Theorem C14_source_tie_cast_origin_end_3d : forall (T : Type) (N : NumOps T), LitOK N ->
  forall (c : caster (T:=T)) a0 a1 a2 r p0 p1 p2 e0 e1 e2 (tab0 tab1 tab2 : Z -> T) fuel,
  rc_axes c = [a0; a1; a2] -> ax_r a0 = r -> ax_r a1 = r -> ax_r a2 = r ->
  (forall k, tab0 k = gm_centre N r (ax_org a0) k) -> (forall k, tab1 k = gm_centre N r (ax_org a1) k) ->
  (forall k, tab2 k = gm_centre N r (ax_org a2) k) ->
  let c' := set_end N (set_origin N c [p0; p1; p2]) [e0; e1; e2] in
  (Z.to_nat (ncells c') <= fuel)%nat ->
  match src_castOE_3 N IdealInt fuel p0 p1 p2 e0 e1 e2 tab0 tab1 tab2 r (ax_org a0) (ax_org a1) (ax_org a2) with
  | None => False
  | Some ((k, ray), dir, eidx, ep, oidx, op, step, td, tm) =>
      (k = ncells c' /\ tm = rc_tmax (after_cast N c') /\
       forall j, (j < length (cast_cells N c'))%nat -> ray (Z.of_nat j) = nth j (cast_cells N c') []) /\
      oidx = rc_oidx c' /\ op = rc_origin c' /\ eidx = rc_eidx c' /\ step = rc_step c' /\ td = rc_tdelta c'
  end.
Proof.
  intros T N L c a0 a1 a2 r p0 p1 p2 e0 e1 e2 tab0 tab1 tab2 fuel Ha R0 R1 R2 T0 T1 T2 c' Hf.
  pose proof (tie_castOE_3 N L c a0 a1 a2 r p0 p1 p2 e0 e1 e2 tab0 tab1 tab2 fuel Ha R0 R1 R2 T0 T1 T2 Hf) as H.
  unfold castOE_result, cast_result in H.
  destruct (src_castOE_3 N IdealInt fuel p0 p1 p2 e0 e1 e2 tab0 tab1 tab2 r (ax_org a0) (ax_org a1) (ax_org a2))
    as [[[[[[[[[[k ray] dir] eidx] ep] oidx] op] step] td] tm]|]; exact H.
Qed.
Print Assumptions C14_source_tie_cast_origin_end_3d.

(* cast(end): the model's OpCastEnd *)
Theorem C14_source_tie_cast_end_2d : forall (T : Type) (N : NumOps T), LitOK N ->
  forall (c : caster (T:=T)) a0 a1 r o0 o1 oi0 oi1 e0 e1 (tab0 tab1 : Z -> T) fuel,
  rc_axes c = [a0; a1] -> rc_origin c = [o0; o1] -> rc_oidx c = [oi0; oi1] -> ax_r a0 = r -> ax_r a1 = r ->
  tab0 oi0 = gm_centre N r (ax_org a0) oi0 -> tab1 oi1 = gm_centre N r (ax_org a1) oi1 ->
  (Z.to_nat (ncells (set_end N c [e0; e1])) <= fuel)%nat ->
  castE_result N (set_end N c [e0; e1]) (src_castE_2 N IdealInt fuel e0 e1 tab0 tab1 r (ax_org a0) (ax_org a1) oi0 oi1 o0 o1).
Proof. exact @tie_castE_2. Qed.

Theorem C14_source_tie_cast_end_3d : forall (T : Type) (N : NumOps T), LitOK N ->
  forall (c : caster (T:=T)) a0 a1 a2 r o0 o1 o2 oi0 oi1 oi2 e0 e1 e2 (tab0 tab1 tab2 : Z -> T) fuel,
  rc_axes c = [a0; a1; a2] -> rc_origin c = [o0; o1; o2] -> rc_oidx c = [oi0; oi1; oi2] ->
  ax_r a0 = r -> ax_r a1 = r -> ax_r a2 = r ->
  tab0 oi0 = gm_centre N r (ax_org a0) oi0 -> tab1 oi1 = gm_centre N r (ax_org a1) oi1 ->
  tab2 oi2 = gm_centre N r (ax_org a2) oi2 ->
  (Z.to_nat (ncells (set_end N c [e0; e1; e2])) <= fuel)%nat ->
  castE_result N (set_end N c [e0; e1; e2])
    (src_castE_3 N IdealInt fuel e0 e1 e2 tab0 tab1 tab2 r (ax_org a0) (ax_org a1) (ax_org a2) oi0 oi1 oi2 o0 o1 o2).
Proof. exact @tie_castE_3. Qed.

(* non-vacuity: the generated cast() on the caster of C14_ex, with 4 units of fuel, returns its 4 cells, the last being (2,1) *)
Example C14_source_tie_cast_ex :
  match src_cast_2 ROps IdealInt 4 2 1 0 0 1 1 2%R 4%R 1%R 2%R with
  | None => False
  | Some ((k, ray), _) => k = 4%Z /\ ray 0%Z = [0; 0]%Z /\ ray 3%Z = [2; 1]%Z
  end.
Proof.
  pose (c := {| rc_axes := []; rc_origin := []; rc_oidx := [0; 0]%Z; rc_eidx := [2; 1]%Z;
                rc_tmax := [1; 2]%R; rc_tdelta := [2; 4]%R; rc_step := [1; 1]%Z |}).
  pose proof (C14_source_tie_cast_loop_2d R ROps c 2 1 0 0 1 1 2%R 4%R 1%R 2%R 4 eq_refl eq_refl eq_refl eq_refl eq_refl) as H.
  assert (Hn : ncells c = 4%Z) by reflexivity.
  destruct (src_cast_2 ROps IdealInt 4 2 1 0 0 1 1 2%R 4%R 1%R 2%R) as [[[k ray] tm]|]; [|apply H; rewrite Hn; lia].
  destruct H as (Hk & _ & Hr); [rewrite Hn; lia|].
  destruct C14_ex as (Hlen & Hlast). fold c in Hlen, Hlast.
  split; [rewrite Hk; exact Hn|]. split.
  - replace (ray 0%Z) with (ray (Z.of_nat 0)) by reflexivity. rewrite (Hr 0%nat) by (rewrite Hlen; lia). reflexivity.
  - replace (ray 3%Z) with (ray (Z.of_nat 3)) by reflexivity. rewrite (Hr 3%nat) by (rewrite Hlen; lia).
    rewrite <- Hlast.
    assert (HL : forall (l : list (list Z)), length l = 4%nat -> nth 3 l [] = last l []).
    { intros [|a [|b [|c0 [|d [|x l]]]]] Hl; try discriminate Hl. reflexivity. }
    apply HL. exact Hlen.
Qed.
