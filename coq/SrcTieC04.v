(* SrcTieC04.v — SYNTACTIC SOURCE TIE for C04.  The terms regenerated on every run by translate/tr_C04_kabsch.py from the
   clang AST of the instantiated members of FindRigidTransformationBySVD<P> (coq/gen/SrcKabsch.v; P = Vector2d, Vector3d,
   HomogeneousCoordinates2d, HomogeneousCoordinates3d) equal the functions of KabschModel.v the C04 theorems are about.
   The lemmas are POLYMORPHIC in the numeric dictionary N: they hold for every dictionary satisfying the two literal laws
   KabschLits (SrcMat.v: the source's `0` is nzero, `x * (-1)` is -x) — in particular for ROps (the reals: SrcTieC04R.v).
   The SVD is an oracle on both sides: the generated functions take `jacobi_svd`, instantiated here with the model's
   [svd_of d]; nothing is assumed about it. *)
From Coq Require Import Reals List Arith ZArith Bool Lia Lra.
From Romea Require Import Num NumR LinAlgBModel LinAlgBProofs KabschModel SrcMat SrcFold.
From Romea.gen Require Import SrcKabsch.
Import ListNotations.

Section Generic.
Context {T : Type} (N : NumOps T) (L : KabschLits N).
Variable svd_of : nat -> list (list T) -> (list (list T) * list T) * list (list T).

(* the pairs the correspondence overload works on (the model's [pairs_of_corr] without its range guard) *)
Definition corr_pairs (src tgt : list (list T)) (corr : list (nat * nat)) : list (list T * list T) :=
  map (fun c : nat * nat => (nth (fst c) src [], nth (snd c) tgt [])) corr.

Lemma pairs_of_corr_Some src tgt corr prs : pairs_of_corr src tgt corr = Some prs -> prs = corr_pairs src tgt corr.
Proof. unfold pairs_of_corr. destruct (forallb _ corr); [|discriminate]. now intros [= <-]. Qed.

(* the model after its SVD call, as a function of the oracle's answer *)
Definition rot_from (d : nat) (r : svd_result T) : list (list T) :=
  let '(U, _, V) := r in
  let R0 := mmul N d d d V (mtrans N d d U) in
  if nltb N (fdet N d (mget N R0)) (nzero N) then mmul N d d d (negate_last_col N d V) (mtrans N d d U) else R0.

Lemma estimate_pairs_flat d ps pairs sm tm cov r :
  mean_of N ps (map fst pairs) = sm -> mean_of N ps (map snd pairs) = tm -> cross_cov N d pairs sm tm = cov ->
  svd_of d cov = r ->
  estimate_pairs N svd_of true d ps pairs = assemble N d ps (rot_from d r) sm tm.
Proof. intros <- <- <- <-. reflexivity. Qed.

(* the model on the image of a list [l] (the correspondences): every sum runs over [l] itself, as the source's loops do *)
Lemma estimate_pairs_map {A} d ps (g : A -> list T * list T) l :
  estimate_pairs N svd_of true d ps (map g l) =
  let sm := tab ps (fun c => ndiv N (sum_list N (fun x => vget N (fst (g x)) c) l) (nat_to_T N (length l))) in
  let tm := tab ps (fun c => ndiv N (sum_list N (fun x => vget N (snd (g x)) c) l) (nat_to_T N (length l))) in
  assemble N d ps (rot_from d (svd_of d (mtab d d (fun i j => sum_list N (fun x =>
    nmul N (nsub N (vget N (fst (g x)) i) (vget N sm i)) (nsub N (vget N (snd (g x)) j) (vget N tm j))) l)))) sm tm.
Proof.
  cbv zeta. eapply estimate_pairs_flat; cycle 3; [reflexivity|..]; unfold mean_of, cross_cov, sum_list; rewrite ?map_map, ?map_length.
  - apply tab_ext. intros c _. now rewrite fold_left_map_gen.
  - apply tab_ext. intros c _. now rewrite fold_left_map_gen.
  - apply mtab_ext. intros i j _ _. now rewrite fold_left_map_gen.
Qed.

(* the model on two aligned lists: the means are those of the lists themselves *)
Lemma estimate_pairs_combine d ps src tgt : length src = length tgt ->
  estimate_pairs N svd_of true d ps (combine src tgt) =
  let sm := mean_of N ps src in let tm := mean_of N ps tgt in
  assemble N d ps (rot_from d (svd_of d (cross_cov N d (combine src tgt) sm tm))) sm tm.
Proof.
  intros H. cbv zeta. eapply estimate_pairs_flat; cycle 3; [reflexivity|f_equal; now apply map_fst_combine|f_equal; now apply map_snd_combine|reflexivity].
Qed.

(* the rotation block entry by entry, with the sign correction where the source has it — inside each product of the last
   column — and the source's literals: Eigen evaluates `v.col(d-1) *= -1` lazily, so the generated term tests the flag [c] at
   every use of that column.  In this form the generated matrix and [assemble] agree by computation alone. *)
Lemma rot_from_entries d U sg V c :
  c = nltb N (fdet N d (mget N (mmul N d d d V (mtrans N d d U)))) (nofZ N 0) ->
  rot_from d (U, sg, V) =
  mtab d d (fun i j => sumn N d (fun l =>
    nmul N (if Nat.eqb (S l) d && c then nmul N (mget N V i l) (nofZ N (-1)) else mget N V i l) (mget N U j l))).
Proof using L.
  intros ->. unfold rot_from. cbv zeta. rewrite (kl_zero N L).
  destruct (nltb N _ (nzero N)); apply mtab_ext; intros i j Hi Hj; apply sumn_ext; intros l Hl.
  - unfold negate_last_col, mtrans. rewrite !mget_mtab by assumption. now rewrite andb_true_r, (kl_negone N L).
  - unfold mtrans. rewrite mget_mtab by assumption. now rewrite andb_false_r.
Qed.

(* [loop_over l d]: the first index loop of the goal reads [l] only at the loop index (default element [d]): a fold over [l] *)
Ltac loop_over l d :=
  erewrite (fold_seq_nth_gen l d);
  [| let st := fresh "st" in let n := fresh "n" in intros st n; generalize (nth n l d); intros; reflexivity ].
(* [loop_over2 la lb H]: it reads the aligned lists [la], [lb] (H : length la = length lb) at the loop index: a fold over [combine la lb] *)
Ltac loop_over2 la lb H :=
  erewrite (fold_seq_nth2_gen la lb [] []);
  [| let st := fresh "st" in let n := fresh "n" in intros st n; generalize (nth n la []) (nth n lb []); intros; reflexivity
   | exact H ].
(* [split_state @fold_split<n> l]: the state of the first fold of the goal is an n-tuple of independently accumulated
   components: split it, component by component, and give the component folds (they run over [l]) local names.  The names
   matter for checking, not for the argument: the SVD's argument is let-bound in the generated term and used ~150 times, and
   the kernel compares it at every use whenever a step changes the goal by conversion; with names it is a matrix of
   variables. *)
Ltac split_state split l :=
  erewrite split; [| intros; cbv beta iota; reflexivity ];
  repeat match goal with |- context [fold_left ?f l ?a] => let s := fresh "s" in set (s := fold_left f l a) end;
  cbv beta iota.
(* after the loops: the oracle's answer is abstracted on both sides and the source's determinant test is given a name [c]
   (so that the sides are compared with [c] a variable, not with two forms of the determinant at each of its uses);
   the rest is [rot_from_entries] and computation *)
Ltac tie_tail :=
  match goal with
  | |- (let l := svd_of ?d ?cg in _) = assemble _ _ _ (rot_from _ (svd_of _ ?cm)) _ _ =>
      change cm with cg; generalize (svd_of d cg);
      let U := fresh "U" in let sg := fresh "sg" in let V := fresh "V" in let c := fresh "c" in let E := fresh "E" in
      intros [[U sg] V]; cbv zeta; remember (nltb N _ (nofZ N 0)) as c eqn:E;
      rewrite (rot_from_entries d U sg V c E); reflexivity
  end.
(* Each tie below: the model side first, while the goal is small ([estimate_pairs_map] / [estimate_pairs_combine]); then the
   generated function's loops in the order of the source — the coordinate sums of the means (ps per point set), then the
   outer products accumulated into the covariance (d x d entries for Vector<d>d; for HomogeneousCoordinates the whole
   ps x ps product is accumulated and its d x d block is handed to the SVD) —; then [tie_tail]. *)

Lemma tie_estimate_corr_v2 src tgt corr :
  src_estimate_corr_v2 N (svd_of 2) src tgt corr = estimate_pairs N svd_of true 2 2 (corr_pairs src tgt corr).
Proof using L.
  unfold corr_pairs. rewrite estimate_pairs_map. cbv zeta. cbv delta [src_estimate_corr_v2]. cbv beta.
  loop_over corr (O, O). split_state @fold_split4 corr.
  loop_over corr (O, O). split_state @fold_split4 corr.
  tie_tail.
Qed.
Lemma tie_estimate_corr_v3 src tgt corr :
  src_estimate_corr_v3 N (svd_of 3) src tgt corr = estimate_pairs N svd_of true 3 3 (corr_pairs src tgt corr).
Proof using L.
  unfold corr_pairs. rewrite estimate_pairs_map. cbv zeta. cbv delta [src_estimate_corr_v3]. cbv beta.
  loop_over corr (O, O). split_state @fold_split6 corr.
  loop_over corr (O, O). split_state @fold_split9 corr.
  tie_tail.
Qed.
Lemma tie_estimate_corr_h2 src tgt corr :
  src_estimate_corr_h2 N (svd_of 2) src tgt corr = estimate_pairs N svd_of true 2 3 (corr_pairs src tgt corr).
Proof using L.
  unfold corr_pairs. rewrite estimate_pairs_map. cbv zeta. cbv delta [src_estimate_corr_h2]. cbv beta.
  loop_over corr (O, O). split_state @fold_split6 corr.
  loop_over corr (O, O). split_state @fold_split9 corr.
  tie_tail.
Qed.
Lemma tie_estimate_corr_h3 src tgt corr :
  src_estimate_corr_h3 N (svd_of 3) src tgt corr = estimate_pairs N svd_of true 3 4 (corr_pairs src tgt corr).
Proof using L.
  unfold corr_pairs. rewrite estimate_pairs_map. cbv zeta. cbv delta [src_estimate_corr_h3]. cbv beta.
  loop_over corr (O, O). split_state @fold_split8 corr.
  loop_over corr (O, O). split_state @fold_split16 corr.
  tie_tail.
Qed.

Lemma tie_estimate_aligned_v2 src tgt : length src = length tgt ->
  src_estimate_aligned_v2 N (svd_of 2) src tgt = estimate_pairs N svd_of true 2 2 (combine src tgt).
Proof using L.
  intros H. rewrite (estimate_pairs_combine _ _ _ _ H). cbv zeta. cbv delta [src_estimate_aligned_v2]. cbv beta.
  split_state @fold_split2 src. split_state @fold_split2 tgt.
  loop_over2 src tgt H. split_state @fold_split4 (combine src tgt).
  tie_tail.
Qed.
Lemma tie_estimate_aligned_v3 src tgt : length src = length tgt ->
  src_estimate_aligned_v3 N (svd_of 3) src tgt = estimate_pairs N svd_of true 3 3 (combine src tgt).
Proof using L.
  intros H. rewrite (estimate_pairs_combine _ _ _ _ H). cbv zeta. cbv delta [src_estimate_aligned_v3]. cbv beta.
  split_state @fold_split3 src. split_state @fold_split3 tgt.
  loop_over2 src tgt H. split_state @fold_split9 (combine src tgt).
  tie_tail.
Qed.
Lemma tie_estimate_aligned_h2 src tgt : length src = length tgt ->
  src_estimate_aligned_h2 N (svd_of 2) src tgt = estimate_pairs N svd_of true 2 3 (combine src tgt).
Proof using L.
  intros H. rewrite (estimate_pairs_combine _ _ _ _ H). cbv zeta. cbv delta [src_estimate_aligned_h2]. cbv beta.
  split_state @fold_split3 src. split_state @fold_split3 tgt.
  loop_over2 src tgt H. split_state @fold_split9 (combine src tgt).
  tie_tail.
Qed.
Lemma tie_estimate_aligned_h3 src tgt : length src = length tgt ->
  src_estimate_aligned_h3 N (svd_of 3) src tgt = estimate_pairs N svd_of true 3 4 (combine src tgt).
Proof using L.
  intros H. rewrite (estimate_pairs_combine _ _ _ _ H). cbv zeta. cbv delta [src_estimate_aligned_h3]. cbv beta.
  split_state @fold_split4 src. split_state @fold_split4 tgt.
  loop_over2 src tgt H. split_state @fold_split16 (combine src tgt).
  tie_tail.
Qed.

Lemma estimate_corr_Some d ps src tgt corr H :
  estimate_corr N svd_of true d ps src tgt corr = Some H -> H = estimate_pairs N svd_of true d ps (corr_pairs src tgt corr).
Proof.
  unfold estimate_corr. destruct (pairs_of_corr src tgt corr) as [prs|] eqn:E; [|discriminate].
  intros [= <-]. now rewrite (pairs_of_corr_Some _ _ _ _ E).
Qed.
Lemma estimate_aligned_Some d ps src tgt H :
  estimate_aligned N svd_of true d ps src tgt = Some H ->
  length src = length tgt /\ H = estimate_pairs N svd_of true d ps (combine src tgt).
Proof.
  unfold estimate_aligned. destruct (Nat.eqb_spec (length src) (length tgt)) as [E|E]; [|discriminate].
  intros [= <-]. now split.
Qed.
Lemma find_corr_pre_Some d ps ssrc stgt src tgt corr H :
  find_corr_pre N svd_of true d ps ssrc stgt src tgt corr = Some H ->
  H = unscale_translation N d (estimate_pairs N svd_of true d ps
        (corr_pairs (precondition N ssrc src) (precondition N stgt tgt) corr)) (precond_matrix00 N stgt).
Proof.
  unfold find_corr_pre. destruct (estimate_corr _ _ _ _ _ _ _ _) as [H0|] eqn:E; [|discriminate].
  intros [= <-]. now rewrite (estimate_corr_Some _ _ _ _ _ _ E).
Qed.
Lemma find_aligned_pre_Some d ps ssrc stgt src tgt H :
  find_aligned_pre N svd_of true d ps ssrc stgt src tgt = Some H ->
  length src = length tgt /\
  H = unscale_translation N d (estimate_pairs N svd_of true d ps
        (combine (precondition N ssrc src) (precondition N stgt tgt))) (precond_matrix00 N stgt).
Proof.
  unfold find_aligned_pre. destruct (estimate_aligned _ _ _ _ _ _ _) as [H0|] eqn:E; [|discriminate].
  intros [= <-]. destruct (estimate_aligned_Some _ _ _ _ _ E) as [Hl ->]. split; [|reflexivity].
  unfold precondition in Hl. now rewrite !map_length in Hl.
Qed.

Lemma tie_find_corr_v2 src tgt corr :
  src_find_corr_v2 N (svd_of 2) src tgt corr = estimate_pairs N svd_of true 2 2 (corr_pairs src tgt corr).
Proof using L. exact (tie_estimate_corr_v2 src tgt corr). Qed.
Lemma tie_find_corr_v3 src tgt corr :
  src_find_corr_v3 N (svd_of 3) src tgt corr = estimate_pairs N svd_of true 3 3 (corr_pairs src tgt corr).
Proof using L. exact (tie_estimate_corr_v3 src tgt corr). Qed.
Lemma tie_find_corr_h2 src tgt corr :
  src_find_corr_h2 N (svd_of 2) src tgt corr = estimate_pairs N svd_of true 2 3 (corr_pairs src tgt corr).
Proof using L. exact (tie_estimate_corr_h2 src tgt corr). Qed.
Lemma tie_find_corr_h3 src tgt corr :
  src_find_corr_h3 N (svd_of 3) src tgt corr = estimate_pairs N svd_of true 3 4 (corr_pairs src tgt corr).
Proof using L. exact (tie_estimate_corr_h3 src tgt corr). Qed.
Lemma tie_find_aligned_v2 src tgt : length src = length tgt ->
  src_find_aligned_v2 N (svd_of 2) src tgt = estimate_pairs N svd_of true 2 2 (combine src tgt).
Proof using L. exact (tie_estimate_aligned_v2 src tgt). Qed.
Lemma tie_find_aligned_v3 src tgt : length src = length tgt ->
  src_find_aligned_v3 N (svd_of 3) src tgt = estimate_pairs N svd_of true 3 3 (combine src tgt).
Proof using L. exact (tie_estimate_aligned_v3 src tgt). Qed.
Lemma tie_find_aligned_h2 src tgt : length src = length tgt ->
  src_find_aligned_h2 N (svd_of 2) src tgt = estimate_pairs N svd_of true 2 3 (combine src tgt).
Proof using L. exact (tie_estimate_aligned_h2 src tgt). Qed.
Lemma tie_find_aligned_h3 src tgt : length src = length tgt ->
  src_find_aligned_h3 N (svd_of 3) src tgt = estimate_pairs N svd_of true 3 4 (combine src tgt).
Proof using L. exact (tie_estimate_aligned_h3 src tgt). Qed.

(* find(PreconditionedPointSet, PreconditionedPointSet[, correspondences]).
   Arguments of the generated functions: the data members points_, preconditioningMatrix_ of the two sets (the getters get(),
   getPreconditioningMatrix() are translated from their bodies): the estimate on the stored points, then the first d entries
   of the last column divided by entry (0,0) of the TARGET set's preconditioning matrix *)
Ltac tie_find_pre def lem :=
  cbv delta [def]; cbv beta zeta; rewrite lem;
  match goal with |- context [estimate_pairs ?a ?b ?c ?d ?e ?f] => generalize (estimate_pairs a b c d e f) end;
  intros; reflexivity.
Lemma tie_find_pre_corr_v2 sp sm tp tm corr :
  src_find_pre_corr_v2 N (svd_of 2) sp sm tp tm corr
  = unscale_translation N 2 (estimate_pairs N svd_of true 2 2 (corr_pairs sp tp corr)) (mcomp N tm 0 0).
Proof using L. tie_find_pre (@src_find_pre_corr_v2) tie_estimate_corr_v2. Qed.
Lemma tie_find_pre_corr_v3 sp sm tp tm corr :
  src_find_pre_corr_v3 N (svd_of 3) sp sm tp tm corr
  = unscale_translation N 3 (estimate_pairs N svd_of true 3 3 (corr_pairs sp tp corr)) (mcomp N tm 0 0).
Proof using L. tie_find_pre (@src_find_pre_corr_v3) tie_estimate_corr_v3. Qed.
Lemma tie_find_pre_corr_h2 sp sm tp tm corr :
  src_find_pre_corr_h2 N (svd_of 2) sp sm tp tm corr
  = unscale_translation N 2 (estimate_pairs N svd_of true 2 3 (corr_pairs sp tp corr)) (mcomp N tm 0 0).
Proof using L. tie_find_pre (@src_find_pre_corr_h2) tie_estimate_corr_h2. Qed.
Lemma tie_find_pre_corr_h3 sp sm tp tm corr :
  src_find_pre_corr_h3 N (svd_of 3) sp sm tp tm corr
  = unscale_translation N 3 (estimate_pairs N svd_of true 3 4 (corr_pairs sp tp corr)) (mcomp N tm 0 0).
Proof using L. tie_find_pre (@src_find_pre_corr_h3) tie_estimate_corr_h3. Qed.
Lemma tie_find_pre_aligned_v2 sp sm tp tm : length sp = length tp ->
  src_find_pre_aligned_v2 N (svd_of 2) sp sm tp tm
  = unscale_translation N 2 (estimate_pairs N svd_of true 2 2 (combine sp tp)) (mcomp N tm 0 0).
Proof using L. intros H. tie_find_pre (@src_find_pre_aligned_v2) (tie_estimate_aligned_v2 sp tp H). Qed.
Lemma tie_find_pre_aligned_v3 sp sm tp tm : length sp = length tp ->
  src_find_pre_aligned_v3 N (svd_of 3) sp sm tp tm
  = unscale_translation N 3 (estimate_pairs N svd_of true 3 3 (combine sp tp)) (mcomp N tm 0 0).
Proof using L. intros H. tie_find_pre (@src_find_pre_aligned_v3) (tie_estimate_aligned_v3 sp tp H). Qed.
Lemma tie_find_pre_aligned_h2 sp sm tp tm : length sp = length tp ->
  src_find_pre_aligned_h2 N (svd_of 2) sp sm tp tm
  = unscale_translation N 2 (estimate_pairs N svd_of true 2 3 (combine sp tp)) (mcomp N tm 0 0).
Proof using L. intros H. tie_find_pre (@src_find_pre_aligned_h2) (tie_estimate_aligned_h2 sp tp H). Qed.
Lemma tie_find_pre_aligned_h3 sp sm tp tm : length sp = length tp ->
  src_find_pre_aligned_h3 N (svd_of 3) sp sm tp tm
  = unscale_translation N 3 (estimate_pairs N svd_of true 3 4 (combine sp tp)) (mcomp N tm 0 0).
Proof using L. intros H. tie_find_pre (@src_find_pre_aligned_h3) (tie_estimate_aligned_h3 sp tp H). Qed.

End Generic.
