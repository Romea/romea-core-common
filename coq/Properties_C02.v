(* Properties_C02.v — C02: the local tangent-plane (ENU) frame is a rigid, correctly oriented isometry;
   anchoring state machine.  Statements about coq/EnuModel.v (real-number instance for the geometry, every
   numeric instance for the history theorems); the longer proofs are in EnuProofs.v and EnuAxesProofs.v. *)
From Coq Require Import Reals ZArith List Bool Lra.
From Romea Require Import Num NumR GeodesyModel GeodesyProofs EnuModel EnuProofs EnuAxesProofs.
Import ListNotations.
Local Open Scope R_scope.

(* the frame matrix written by setAnchor is a proper rotation: R^T R = R R^T = I, det R = +1 *)
Theorem C02_frame_proper_rotation : forall lat lon,
  let Rm := frame_rotation ROps lat lon in
  mat3_mul (mat3_transpose Rm) Rm = mat3_id ROps /\
  mat3_mul Rm (mat3_transpose Rm) = mat3_id ROps /\
  mat3_det Rm = 1.
Proof. intros lat lon. exact (conj (frame_orthonormal lat lon) (conj (frame_orthonormal_rows lat lon) (frame_det lat lon))). Qed.
Print Assumptions C02_frame_proper_rotation.

(* Eigen's (cofactor) inverse of the frame matrix, as used by toENU, is its transpose *)
Theorem C02_frame_inverse_is_transpose : forall lat lon,
  mat3_inverse ROps (frame_rotation ROps lat lon) = mat3_transpose (frame_rotation ROps lat lon).
Proof. exact frame_inverse_is_transpose. Qed.
Print Assumptions C02_frame_inverse_is_transpose.

(* columns are east / north / up: the third is the ellipsoid normal of C01; the first and the second are the
   normalised derivatives of toECEF with respect to longitude and latitude (positive factors r and m) *)
Theorem C02_frame_axes : forall (el : ellipsoid (T:=R)) lat lon h,
  0 < el_a el -> 0 <= el_e2 el < 1 -> - PI / 2 < lat < PI / 2 -> - el_a el * (1 - el_e2 el) < h ->
  let Rm := frame_rotation ROps lat lon in
  col Rm 2 = normal lat lon /\
  (exists r, 0 < r /\
     is_derive3 (fun l => toECEF ROps el (mkGeo lat l h)) lon
                (mkV3 (r * vx (col Rm 0)) (r * vy (col Rm 0)) (r * vz (col Rm 0)))) /\
  (exists m, 0 < m /\
     is_derive3 (fun p => toECEF ROps el (mkGeo p lon h)) lat
                (mkV3 (m * vx (col Rm 1)) (m * vy (col Rm 1)) (m * vz (col Rm 1)))).
Proof. exact frame_axes. Qed.
Print Assumptions C02_frame_axes.

(* the anchor maps to the origin (whatever the converter's earlier state s0) *)
Theorem C02_anchor_to_origin : forall g s0,
  ecef_to_enu ROps (set_anchor ROps s0 g) (toECEF ROps (grs80 ROps) g) = mkV3 0 0 0.
Proof. intros g s0. exact (ecef_to_enu_trans (set_anchor ROps s0 g)). Qed.
Print Assumptions C02_anchor_to_origin.

(* a point h above the anchor maps to (0,0,h): it is toECEF of the local point (0,0,h), the third column of the
   frame being the normal *)
Theorem C02_up_to_z : forall g s0 h,
  ecef_to_enu ROps (set_anchor ROps s0 g) (toECEF ROps (grs80 ROps) (mkGeo (g_lat g) (g_lon g) (g_alt g + h)))
  = mkV3 0 0 h.
Proof.
  intros g s0 h. rewrite <- (enu_of_ecef_of_enu _ (set_anchor_rigid s0 g) (mkV3 0 0 h)). f_equal.
  unfold enu_to_ecef. cbn [s_rot s_trans set_anchor]. destruct g as [la lo al]. cbn [g_lat g_lon g_alt].
  rewrite !toECEF_foot_plus_normal. set (F := foot (grs80 ROps) la lo). apply vec3_eq; cbn; ring.
Qed.
Print Assumptions C02_up_to_z.

(* distances are preserved both ways *)
Theorem C02_enu_isometry : forall g s0 p q,
  let s := set_anchor ROps s0 g in
  dist2 (ecef_to_enu ROps s p) (ecef_to_enu ROps s q) = dist2 p q /\
  dist2 (enu_to_ecef ROps s p) (enu_to_ecef ROps s q) = dist2 p q.
Proof.
  intros g s0 p q s. pose proof (set_anchor_rigid s0 g) as H.
  exact (conj (ecef_to_enu_isometry s H p q) (enu_to_ecef_isometry s H p q)).
Qed.
Print Assumptions C02_enu_isometry.

(* to-local and to-ECEF are mutual inverses *)
Theorem C02_enu_ecef_inverse : forall g s0 v,
  let s := set_anchor ROps s0 g in
  ecef_to_enu ROps s (enu_to_ecef ROps s v) = v /\ enu_to_ecef ROps s (ecef_to_enu ROps s v) = v.
Proof.
  intros g s0 v s. pose proof (set_anchor_rigid s0 g) as H.
  exact (conj (enu_of_ecef_of_enu s H v) (ecef_of_enu_of_ecef s H v)).
Qed.
Print Assumptions C02_enu_ecef_inverse.

(* ---- histories: for every numeric instance (so also the executed binary64 one), every op list ---- *)
(* the state after any op sequence is the state determined by the last anchoring event:
   None (fresh) or anchored at g *)
Theorem C02_state_determined_by_last_anchor : forall T (N : NumOps T) fuel ops a,
  fst (run N fuel (state_of N a) ops) = state_of N (abs_run N a ops).
Proof. intros T N fuel ops a. exact (run_state N fuel ops a). Qed.
Print Assumptions C02_state_determined_by_last_anchor.

Theorem C02_anchored_iff : forall T (N : NumOps T) fuel ops,
  s_anchored (fst (run N fuel (enu_init N) ops)) = true <-> abs_run N None ops <> None.
Proof. intros T N. exact (anchored_iff N). Qed.
Print Assumptions C02_anchored_iff.

(* reset() returns the converter to the state of a freshly constructed one, after any history, and everything
   that follows is what a fresh converter would do (proved for the repaired code; refuted below for the old) *)
Theorem C02_reset_equals_init : forall T (N : NumOps T) fuel ops rest,
  run N fuel (fst (run N fuel (enu_init N) (ops ++ [OpReset]))) rest = run N fuel (enu_init N) rest.
Proof. intros T N. exact (reset_after_any_history N). Qed.
Print Assumptions C02_reset_equals_init.

(* re-anchoring fully replaces the old frame: after any history, setAnchor g yields the state g alone determines *)
Theorem C02_reanchoring_replaces_frame : forall T (N : NumOps T) fuel ops g,
  fst (run N fuel (enu_init N) (ops ++ [OpSetAnchor g])) = set_anchor N (enu_init N) g.
Proof. intros T N. exact (set_anchor_after_any_history N). Qed.
Print Assumptions C02_reanchoring_replaces_frame.

(* an un-anchored converter anchors itself on the first geodetic point, which maps to the origin *)
Theorem C02_first_conversion_anchors : forall fuel ops g, abs_run ROps None ops = None ->
  fst (run ROps fuel (enu_init ROps) (ops ++ [OpToEnuGeo g])) = set_anchor ROps (enu_init ROps) g /\
  snd (run ROps fuel (enu_init ROps) (ops ++ [OpToEnuGeo g])) =
  snd (run ROps fuel (enu_init ROps) ops) ++ [OutVec (mkV3 0 0 0)].
Proof.
  intros fuel ops g H.
  exact (conj (first_conversion_anchors ROps fuel ops g H) (first_conversion_returns_origin fuel ops g H)).
Qed.
Print Assumptions C02_first_conversion_anchors.

(* ---- the code before the repair: reset() kept the stored anchor ---- *)
(* "reset equals init" is false of the unrepaired code: anchor at 1000 m, reset, toENU(WGS84 (0,0)):
   the transform differs from the one of a fresh converter (translation x = a + 1000 instead of a).
   The witness is replayed on the implementation (checks/C02.py, first sequences). *)
Theorem C02_reset_keeps_altitude_refuted : exists g lat lon, forall fuel,
  snd (run_old ROps fuel (enu_init ROps) [OpSetAnchor g; OpReset; OpToEnuWgs lat lon; OpGetTransform]) <>
  [OutNone; OutNone] ++ snd (run_old ROps fuel (enu_init ROps) [OpToEnuWgs lat lon; OpGetTransform]).
Proof. exists (mkGeo 0 0 1000), 0, 0. exact reset_old_keeps_altitude. Qed.
Print Assumptions C02_reset_keeps_altitude_refuted.

(* ---- non-vacuity ---- *)
Example C02_history_example :
  abs_run ROps None [OpSetAnchor (mkGeo 1 2 3); OpToEnuGeo (mkGeo 0 0 0); OpReset] = None /\
  abs_run ROps None [OpReset; OpToEnuWgs 1 2; OpToEnuGeo (mkGeo 0 0 0)] = Some (mkGeo 1 2 0).
Proof. split; reflexivity. Qed.

(* SOURCE TIE (translator translate/srcfuns.py): the 3x3 block that ENUConverter::setAnchor writes with its three
   comma initialisers, regenerated from the clang AST of the current source on every run (gen/SrcFunsC02.v), is the
   frame matrix all theorems above are about. *)
From Romea Require Import SrcTie SrcTieC02.
From Romea.gen Require Import SrcFunsC02.
Theorem C02_source_tie_frame : forall lat lon,
  src_enuFrame ROps lat lon =
  (let m := frame_rotation ROps lat lon in
   (m00 m, m01 m, m02 m, m10 m, m11 m, m12 m, m20 m, m21 m, m22 m)).
Proof. exact tie_enuFrame. Qed.
Print Assumptions C02_source_tie_frame.

(* ==== SOURCE TIE OF THE STATE MACHINE (translator translate/tr_C02_enu.py, library translate/imptrans.py) ====
   Every method of ENUConverter — both constructors, setAnchor, reset, isAnchored, getAnchor, getEnuToEcefTransform, the
   four toECEF / toWGS84 overloads, the three toENU overloads — is regenerated on every run from the clang AST of the
   current src/geodesy/ENUConverter.cpp as a transformer st_<m> of the fields (enu2ecef_, isAnchored_, wgs84Anchor_)
   (gen/SrcEnu.v; Eigen vocabulary: EnuVocab.v); the class must have exactly the model's four data members.  The theorems
   below say that these transformers ARE the steps of EnuModel.v (definitions of fields_of, state_of_fields, src_step,
   src_run, src_init, src_init_at, ecefF = toECEF on GRS80, wgsF = toWGS84 on GRS80: SrcTieC02State.v), so the
   operation-sequence theorems above hold of the code as written. *)
From Romea Require Import EnuVocab SrcTieC02State.
From Romea.gen Require Import SrcEnu.

(* constructors: ENUConverter() leaves the model's initial state whatever was in memory; ENUConverter(anchor) is
   ENUConverter() followed by setAnchor(anchor) *)
Theorem C02_source_tie_constructors : forall T (N : NumOps T) F1 F2 st g,
  st_ctor_default N F1 F2 st = fields_of (enu_init N) /\
  st_ctor_anchor N F1 F2 g st = st_setAnchor N F1 F2 g (fields_of (enu_init N)).
Proof. intros T N F1 F2 st g. exact (conj (tie_ctor_default N F1 F2 st) (tie_ctor_anchor N F1 F2 g st)). Qed.
Print Assumptions C02_source_tie_constructors.

(* reset(): the model's reset, and field for field what the default constructor leaves (this is the clause the repaired
   defect violated: a reset() that keeps wgs84Anchor_ or the flag does not satisfy it) *)
Theorem C02_source_tie_reset : forall T (N : NumOps T) F1 F2 s st',
  st_reset N F1 F2 (fields_of s) = fields_of (reset N s) /\
  st_reset N F1 F2 (fields_of s) = st_ctor_default N F1 F2 st'.
Proof. intros T N F1 F2 s st'. exact (conj (tie_reset N F1 F2 s) (tie_reset_is_ctor_default N F1 F2 (fields_of s) st')). Qed.
Print Assumptions C02_source_tie_reset.

(* setAnchor, every dictionary and whatever the 3x3 block is: nothing of the state before survives (st0 is arbitrary),
   translation = toECEF of the new anchor, flag set, anchor stored *)
Theorem C02_source_tie_setAnchor_shape : forall T (N : NumOps T) F1 F2 g st st0,
  st_setAnchor N F1 F2 g st = ((aff_linear (fst (fst (st_setAnchor N F1 F2 g st0))), F1 g), true, g).
Proof. intros T N. exact (tie_setAnchor_shape N). Qed.
Print Assumptions C02_source_tie_setAnchor_shape.

(* setAnchor is the model's set_anchor (frame_rotation, translation toECEF(GRS80) of the anchor); stated at the reals,
   SrcTieC02State.tie_setAnchor is the same equation for every dictionary *)
Theorem C02_source_tie_setAnchor : forall fuel s g,
  state_of_fields (st_setAnchor ROps (toECEF ROps (grs80 ROps)) (toWGS84 ROps fuel (grs80 ROps)) g (fields_of s))
  = set_anchor ROps s g.
Proof. exact (tie_setAnchor ROps). Qed.
Print Assumptions C02_source_tie_setAnchor.

(* the accessors return the fields and leave the state alone *)
Theorem C02_source_tie_accessors : forall T (N : NumOps T) F1 F2 s,
  st_isAnchored N F1 F2 (fields_of s) = (fields_of s, s_anchored s) /\
  st_getAnchor N F1 F2 (fields_of s) = (fields_of s, s_anchor s) /\
  st_getEnuToEcefTransform N F1 F2 (fields_of s) = (fields_of s, (s_rot s, s_trans s)).
Proof.
  intros T N F1 F2 s.
  exact (conj (tie_isAnchored N F1 F2 s) (conj (tie_getAnchor N F1 F2 s) (tie_getEnuToEcefTransform N F1 F2 s))).
Qed.
Print Assumptions C02_source_tie_accessors.

(* toECEF applies the transform, toENU(ecef) its inverse (of the CURRENT fields: no cached copy), toWGS84 is the ECEF
   converter's toWGS84 after toECEF; none changes the state *)
Theorem C02_source_tie_conversions : forall T (N : NumOps T) F1 F2 s v,
  st_toECEF_vec N F1 F2 v (fields_of s) = (fields_of s, enu_to_ecef N s v) /\
  st_toENU_ecef N F1 F2 v (fields_of s) = (fields_of s, ecef_to_enu N s v) /\
  st_toWGS84_vec N F1 F2 v (fields_of s) =
    match F2 (enu_to_ecef N s v) with Some g => Some (fields_of s, g) | None => None end.
Proof.
  intros T N F1 F2 s v.
  exact (conj (tie_toECEF_vec N F1 F2 s v) (conj (tie_toENU_ecef N F1 F2 s v) (tie_toWGS84_vec N F1 F2 s v))).
Qed.
Print Assumptions C02_source_tie_conversions.

(* the three-scalar overloads hand (x, y, z), in this order, to the vector forms *)
Theorem C02_source_tie_three_scalar_overloads : forall T (N : NumOps T) F1 F2 x y z st,
  st_toECEF_xyz N F1 F2 x y z st = st_toECEF_vec N F1 F2 (mkV3 x y z) st /\
  st_toWGS84_xyz N F1 F2 x y z st = st_toWGS84_vec N F1 F2 (mkV3 x y z) st.
Proof. intros T N F1 F2 x y z st. exact (conj (tie_toECEF_xyz N F1 F2 x y z st) (tie_toWGS84_xyz N F1 F2 x y z st)). Qed.
Print Assumptions C02_source_tie_three_scalar_overloads.

(* toENU(geodetic) anchors first iff not anchored and then converts in the current frame; toENU(WGS84) is toENU of the point at
   the altitude of the CURRENT anchor — every dictionary, relative to the source's own setAnchor *)
Theorem C02_source_tie_auto_anchoring : forall T (N : NumOps T) fuel s g lat lon,
  lift (st_toENU_geo N (ecefF N) (wgsF N fuel) g (fields_of s)) OutVec = to_enu_geo_sa N (src_set_anchor N fuel) s g /\
  lift (st_toENU_wgs N (ecefF N) (wgsF N fuel) (mkWgs lat lon) (fields_of s)) OutVec =
    to_enu_geo_sa N (src_set_anchor N fuel) s (mkGeo lat lon (g_alt (s_anchor s))).
Proof. intros T N fuel s g lat lon. exact (conj (tie_toENU_geo N fuel s g) (tie_toENU_wgs N fuel s lat lon)). Qed.
Print Assumptions C02_source_tie_auto_anchoring.

(* ALL OPERATIONS: the step function assembled from the generated transformers is the model's step function *)
Theorem C02_source_tie_state_machine : forall fuel s o, src_step ROps fuel s o = step ROps fuel s o.
Proof. exact (tie_step ROps). Qed.
Print Assumptions C02_source_tie_state_machine.

(* ... for every numeric dictionary (the executed binary64 one included) in which the 3x3 block of the source's setAnchor
   is the model's frame_rotation [setAnchor_tied] *)
Theorem C02_source_tie_state_machine_every_dictionary : forall T (N : NumOps T) fuel,
  setAnchor_tied N fuel -> forall s o, src_step N fuel s o = step N fuel s o.
Proof. intros T N fuel _. exact (tie_step N fuel). Qed.
Print Assumptions C02_source_tie_state_machine_every_dictionary.

(* the hypothesis [setAnchor_tied] of the every-dictionary theorems can be met: shown at the reals; it holds of every
   dictionary by the same computation (SrcTieC02State.tie_setAnchor) *)
Example C02_setAnchor_tied_over_the_reals : forall fuel, setAnchor_tied ROps fuel.
Proof. exact (tie_setAnchor ROps). Qed.

(* ... hence every run of the source's step function is the model's run, from the source's constructors *)
Theorem C02_source_tie_runs : forall fuel ops s g,
  src_run ROps fuel s ops = run ROps fuel s ops /\
  src_init ROps fuel = enu_init ROps /\ src_init_at ROps fuel g = set_anchor ROps (enu_init ROps) g.
Proof. intros fuel ops s g. exact (conj (tie_run ROps fuel ops s) (conj (tie_init ROps fuel) (tie_init_at ROps fuel g))). Qed.
Print Assumptions C02_source_tie_runs.

(* ---- the operation-sequence theorems, stated of the code as written ---- *)
Theorem C02_source_state_determined_by_last_anchor : forall fuel ops a,
  fst (src_run ROps fuel (state_of ROps a) ops) = state_of ROps (abs_run ROps a ops).
Proof. exact (src_run_state ROps). Qed.
Print Assumptions C02_source_state_determined_by_last_anchor.

Theorem C02_source_reset_equals_init : forall fuel ops rest,
  src_run ROps fuel (fst (src_run ROps fuel (src_init ROps fuel) (ops ++ [OpReset]))) rest =
  src_run ROps fuel (src_init ROps fuel) rest.
Proof. exact (src_reset_after_any_history ROps). Qed.
Print Assumptions C02_source_reset_equals_init.

Theorem C02_source_reanchoring_replaces_frame : forall fuel ops g,
  fst (src_run ROps fuel (src_init ROps fuel) (ops ++ [OpSetAnchor g])) = src_init_at ROps fuel g.
Proof. exact (src_set_anchor_after_any_history ROps). Qed.
Print Assumptions C02_source_reanchoring_replaces_frame.

Theorem C02_source_first_conversion_anchors : forall fuel ops g, abs_run ROps None ops = None ->
  fst (src_run ROps fuel (src_init ROps fuel) (ops ++ [OpToEnuGeo g])) = src_init_at ROps fuel g /\
  snd (src_run ROps fuel (src_init ROps fuel) (ops ++ [OpToEnuGeo g])) =
  snd (src_run ROps fuel (src_init ROps fuel) ops) ++ [OutVec (mkV3 0 0 0)].
Proof. exact src_first_conversion_R. Qed.
Print Assumptions C02_source_first_conversion_anchors.

(* the same for every dictionary satisfying [setAnchor_tied] *)
Theorem C02_source_histories_every_dictionary : forall T (N : NumOps T) fuel, setAnchor_tied N fuel -> forall ops rest g a,
  fst (src_run N fuel (state_of N a) ops) = state_of N (abs_run N a ops) /\
  src_run N fuel (fst (src_run N fuel (src_init N fuel) (ops ++ [OpReset]))) rest = src_run N fuel (src_init N fuel) rest /\
  fst (src_run N fuel (src_init N fuel) (ops ++ [OpSetAnchor g])) = src_init_at N fuel g.
Proof.
  intros T N fuel _ ops rest g a.
  exact (conj (src_run_state N fuel ops a)
              (conj (src_reset_after_any_history N fuel ops rest) (src_set_anchor_after_any_history N fuel ops g))).
Qed.
Print Assumptions C02_source_histories_every_dictionary.
