(* Properties_C17.v — C17: rate monitoring and rate check-ups follow the stamped-event history exactly.
   The longer proofs are in RateProofs.v, RateFloat.v, RateFloatHistory.v and SrcTieC17.v.

   Vocabulary (RateProofs.v):  events are [Data stamp | Heartbeat stamp] with stamps in integer nanoseconds;
   [data_stamps evs] = the data stamps in order of arrival;  [diffs 0 ds] = their periods, the first one measured
   from 0 (the code's lastDuration_ starts at Duration::zero(), so the first "period" is the first stamp itself);
   [lastn n l] = the last n entries;  [hist N evs] = (data stamps, stale) where stale is set by a heartbeat that
   finds a stamp seen and the silence > 0.5 s, and cleared by the next data stamp (spelled out by C17_stale_iff). *)
From Coq Require Import Reals ZArith List Bool Lra Lia.
From Romea Require Import Num NumR DiagModel RateModel RateProofs SrcTieC17 GridMapFloat RateFloat RateFloatHistory.
From Romea.gen Require Import RepoConstants SrcRate.
Import ListNotations.
Local Open Scope Z_scope.

(* for every numeric instance (so also for the binary64 instance that is executed), any stamps *)

(* the queue holds the last min(k, W) periods, its integer sum is their sum, the reference stamp is the last one *)
Theorem C17_queue_is_last_periods : forall T (N : NumOps T) r evs,
  let W := window_size N r in let ds := data_stamps evs in
  let s := rm_run N (rm_init N r) evs in
  rm_periods s = lastn (Nat.min (length ds) (Z.to_nat W)) (diffs 0 ds) /\
  rm_sum s = zsum (rm_periods s) /\ rm_last s = last ds 0 /\ rm_window s = W.
Proof. exact @queue_is_last_periods. Qed.
Print Assumptions C17_queue_is_last_periods.

(* once more than W stamps have been seen the sum is stamp_k - stamp_(k-W): the time spanned by the last W periods *)
Theorem C17_sum_is_span : forall T (N : NumOps T) r evs,
  let W := window_size N r in let ds := data_stamps evs in
  (Z.to_nat W < length ds)%nat ->
  rm_sum (rm_run N (rm_init N r) evs) = (last ds 0 - nth (length ds - Z.to_nat W - 1) ds 0)%Z.
Proof. exact @sum_is_span. Qed.
Print Assumptions C17_sum_is_span.

(* the rate is 0 until W+1 stamps have been seen (whatever the heartbeats) *)
Theorem C17_rate_zero_until_full : forall T (N : NumOps T) r evs,
  (Z.of_nat (length (data_stamps evs)) <= window_size N r)%Z -> rm_rate (rm_run N (rm_init N r) evs) = nzero N.
Proof. exact @rate_zero_until_full. Qed.
Print Assumptions C17_rate_zero_until_full.

(* complete description of the published rate after any history *)
Theorem C17_rate_follows_history : forall T (N : NumOps T) r evs,
  rm_rate (rm_run N (rm_init N r) evs) = spec_rate N (window_size N r) (data_stamps evs) (snd (hist N evs)).
Proof. exact @rate_follows_history. Qed.
Print Assumptions C17_rate_follows_history.

Theorem C17_window_in_range : forall T (N : NumOps T) r, (rate_min_window <= window_size N r <= rate_max_window)%Z.
Proof. exact @window_size_range. Qed.

Local Open Scope R_scope.

(* W = clamp(floor(2 * expected rate), 4, 64)  (constants regenerated from the source on every run) *)
Theorem C17_window_size_clamp : forall r, 0 <= r ->
  window_size ROps r = Z.min (Z.max (Raux.Zfloor (2 * r)) 4) 64.
Proof. exact window_size_R. Qed.
Print Assumptions C17_window_size_clamp.

(* strictly increasing stamps, more than W of them, no time-out since the last one:
   rate = W / (time spanned by the last W periods, in seconds), and that span is positive *)
Theorem C17_rate_is_W_over_span : forall r evs,
  let W := window_size ROps r in let ds := data_stamps evs in
  increasing ds -> (W < Z.of_nat (length ds))%Z -> snd (hist ROps evs) = false ->
  let span := (last ds 0 - nth (length ds - Z.to_nat W - 1) ds 0)%Z in
  (0 < span)%Z /\ rm_rate (rm_run ROps (rm_init ROps r) evs) = IZR W / (IZR span / 1000000000).
Proof. exact rate_is_W_over_span. Qed.
Print Assumptions C17_rate_is_W_over_span.

(* the time-out call: fires iff a stamp was seen (queue not empty) and the silence exceeds 0.5 s = 500000000 ns;
   then only the rate changes (to 0); otherwise the state is unchanged *)
Theorem C17_timeout_rule : forall (s : rmon) t,
  let '(s', b) := rm_timeout ROps s t in
  (b = true <-> rm_periods s <> [] /\ (500000000 < t - rm_last s)%Z) /\
  (b = true -> s' = {| rm_window := rm_window s; rm_last := rm_last s; rm_periods := rm_periods s; rm_sum := rm_sum s; rm_rate := 0 |}) /\
  (b = false -> s' = s).
Proof.
  intros s t. rewrite rm_timeout_late, late_R.
  destruct (rm_periods s), (Z.ltb_spec 500000000 (t - rm_last s)); cbn; intuition (congruence || lia).
Qed.
Print Assumptions C17_timeout_rule.

Theorem C17_stamp_seen_iff_queue_nonempty : forall r evs,
  rm_periods (rm_run ROps (rm_init ROps r) evs) <> [] <-> data_stamps evs <> [].
Proof.
  intros r evs. pose proof (mon_of_periods_nil ROps _ (hist ROps evs) (window_size_pos ROps r)) as Hn.
  rewrite <- rm_run_hist, fst_hist in Hn.
  destruct (rm_periods _), (data_stamps evs); simpl in Hn; split; intros; congruence.
Qed.

(* the stale flag of a history: some heartbeat after the last data stamp arrived more than 0.5 s after it *)
Theorem C17_stale_iff : forall evs,
  snd (hist ROps evs) = true <->
  exists pre t post, evs = pre ++ Heartbeat t :: post /\ data_stamps post = [] /\ data_stamps pre <> [] /\
                     (500000000 < t - last (data_stamps pre) 0)%Z.
Proof. exact stale_iff. Qed.
Print Assumptions C17_stale_iff.

(* the report of a rate check-up after any history: "no data received" before the first stamp; STALE / "timeout" /
   empty value (and rate 0) from a time-out until the next stamp; otherwise the value is the current rate and status
   and message are OK / too low / too high by the configured threshold *)
Theorem C17_report_agrees_with_rate : forall k r eps evs, 0 <= eps ->
  let c := cr_final ROps k (cr_init ROps r eps) evs in
  let ds := data_stamps evs in let stale := snd (hist ROps evs) in
  let rate := rm_rate (cr_mon c) in
  rate = spec_rate ROps (window_size ROps r) ds stale /\
  (ds = [] -> c_report (cr_chk c) = no_data_report) /\
  (ds <> [] -> stale = true -> c_report (cr_chk c) = stale_report /\ rate = 0) /\
  (ds <> [] -> stale = false -> verdict_R k r eps rate (c_report (cr_chk c))).
Proof. exact report_agrees_with_rate. Qed.
Print Assumptions C17_report_agrees_with_rate.

(* "after every event": entry i of the per-event log (what the driver prints and the harness is compared with) is the
   rate and report of the state reached after the first i+1 events, to which the theorem above applies *)
Theorem C17_log_is_prefix_states : forall T (N : NumOps T) k evs c i, (i < length evs)%nat ->
  exists o, nth_error (cr_run N k c evs) i =
    Some (o, rm_rate (cr_mon (cr_final N k c (firstn (S i) evs))), c_report (cr_chk (cr_final N k c (firstn (S i) evs)))) /\
    o = snd (cr_step N k (cr_final N k c (firstn i evs)) (nth i evs (Data 0))).
Proof. exact @cr_run_nth. Qed.
Print Assumptions C17_log_is_prefix_states.

Theorem C17_monitor_inside_checkup : forall T (N : NumOps T) k c evs,
  cr_mon (cr_final N k c evs) = rm_run N (cr_mon c) evs.
Proof. exact @cr_mon_final. Qed.

Theorem C17_returned_is_stored : forall T (N : NumOps T) k c d,
  let '(c', o) := cr_step N k c (Data d) in o = OData (d_status (r_diag (c_report (cr_chk c')))).
Proof. intros. cbn [cr_step]. unfold cr_evaluate. rewrite eval_report_indep. reflexivity. Qed.

(* earlier heartbeats change nothing: neither the monitor nor the report *)
Theorem C17_early_heartbeat_changes_nothing : forall T (N : NumOps T) k c t,
  snd (rm_timeout N (cr_mon c) t) = false -> cr_step N k c (Heartbeat t) = (c, OBeat true).
Proof.
  intros T N k c t. cbn [cr_step]. unfold cr_heartbeat. rewrite rm_timeout_late.
  destruct (negb _ && late _ _); [discriminate|]. destruct c; reflexivity.
Qed.
Print Assumptions C17_early_heartbeat_changes_nothing.

Theorem C17_heartbeat_alive_iff_no_timeout : forall T (N : NumOps T) k c t,
  snd (cr_step N k c (Heartbeat t)) = OBeat (negb (snd (rm_timeout N (cr_mon c) t))).
Proof.
  intros. cbn [cr_step]. unfold cr_heartbeat. destruct (rm_timeout N (cr_mon c) t) as [m b]. destruct b; reflexivity.
Qed.
Print Assumptions C17_heartbeat_alive_iff_no_timeout.

(* non-vacuity: a 1 Hz source (W = clamp(2,4,64) = 4), 5 stamps 1 s apart starting at 1 s with an early heartbeat
   in between: rate = 4 / 4 s = 1; a heartbeat 0.6 s after the last stamp then makes the history stale *)
Definition ex_evs : list event :=
  [Data 1000000000; Data 2000000000; Heartbeat 2400000000; Data 3000000000; Data 4000000000; Data 5000000000].
Example C17_ex_window : window_size ROps 1 = 4%Z.
Proof.
  rewrite C17_window_size_clamp by lra. replace (2 * 1) with (IZR 2) by lra.
  rewrite Raux.Zfloor_IZR. reflexivity.
Qed.
Example C17_ex_increasing : increasing (data_stamps ex_evs).
Proof.
  intros i j H. cbn [ex_evs data_stamps length] in *.
  do 5 (destruct i as [|i]; [do 5 (destruct j as [|j]; [cbn [nth]; lia|]); cbn in H; lia|]). cbn in H; lia.
Qed.
Example C17_ex_not_stale : snd (hist ROps ex_evs) = false.
Proof. unfold hist, ex_evs. cbn [fold_left hstep fst snd]. reflexivity. Qed.
Example C17_ex_rate : rm_rate (rm_run ROps (rm_init ROps 1) ex_evs) = 1.
Proof.
  destruct (C17_rate_is_W_over_span 1 ex_evs C17_ex_increasing) as [_ E].
  - rewrite C17_ex_window. cbn. lia.
  - exact C17_ex_not_stale.
  - assert (Hs : (last (data_stamps ex_evs) 0 - nth (length (data_stamps ex_evs) - Z.to_nat 4 - 1) (data_stamps ex_evs) 0)%Z
                 = 4000000000%Z) by reflexivity.
    rewrite E, C17_ex_window, Hs. lra.
Qed.
Example C17_ex_stale : snd (hist ROps (ex_evs ++ [Heartbeat 5600000000])) = true.
Proof.
  apply C17_stale_iff. exists ex_evs, 5600000000%Z, []. repeat split; discriminate.
Qed.

(* SYNTACTIC SOURCE TIE.  gen/SrcRate.v is regenerated on every run by translate/tr_C17_rate.py from the clang AST of the
   current Time.hpp / RateMonitoring.cpp / CheckupRate.cpp; the functions the theorems above are about ARE those generated
   terms, for every numeric dictionary (SrcTieC17.v).  A generated transformer takes the parameters, then the fields it
   reads (by name), and returns the fields it writes (by name) and then the returned value. *)
Local Open Scope Z_scope.

Theorem C17_source_tie_durations : forall T (N : NumOps T) d,
  src_durationToNanoSecond d = d /\ src_durationToSecond N d = duration_to_second N d.
Proof. intros. split; reflexivity. Qed.

(* initialize: windowSize_ = min(max(static_cast<size_t>(2 * expectedRate), MINIMAL), MAXIMAL) *)
Theorem C17_source_tie_initialize : forall T (N : NumOps T) r, src_rm_initialize N r = window_size N r.
Proof. exact @tie_initialize. Qed.
Print Assumptions C17_source_tie_initialize.

(* update: arguments = duration, lastDuration_, periodsSum_, periods_, rate_, windowSize_;
   result = (lastDuration_, lastPeriod_, periodsSum_, periods_, rate_, returned value).  lastPeriod_ is read by no method. *)
Theorem C17_source_tie_update : forall T (N : NumOps T) (s : rmon) d,
  let '(last, lastPeriod, sum, periods, rate, ret) :=
    src_rm_update N d (rm_last s) (rm_sum s) (rm_periods s) (rm_rate s) (rm_window s) in
  {| rm_window := rm_window s; rm_last := last; rm_periods := periods; rm_sum := sum; rm_rate := rate |} = rm_update N s d
  /\ ret = rm_rate (rm_update N s d) /\ lastPeriod = d - rm_last s.
Proof. exact @tie_update. Qed.
Print Assumptions C17_source_tie_update.

(* timeout: arguments = duration, lastDuration_, periods_, rate_; result = (rate_, returned value) *)
Theorem C17_source_tie_timeout : forall T (N : NumOps T) (s : rmon) d,
  (let '(rate, fired) := src_rm_timeout N d (rm_last s) (rm_periods s) (rm_rate s) in
   ({| rm_window := rm_window s; rm_last := rm_last s; rm_periods := rm_periods s; rm_sum := rm_sum s; rm_rate := rate |}, fired))
  = rm_timeout N s d.
Proof. exact @tie_timeout. Qed.
Print Assumptions C17_source_tie_timeout.

Theorem C17_source_tie_getRate : forall T (s : rmon (T:=T)), src_rm_getRate (rm_rate s) = rm_rate s.
Proof. exact @tie_getRate. Qed.

(* CheckupRate<CheckupType>: the member objects are abstract in the generated terms; instantiated with the monitor's and
   the check-up's transformers (themselves tied above and by the C18 source-tie theorems), they are the model's functions *)
Theorem C17_source_tie_checkup_evaluate : forall T (N : NumOps T) (c : crate) stamp,
  (let '(chk, mon, st) := src_cr_evaluate_equal checkup rmon (eval_equal_to N) (mon_update N) stamp (cr_chk c) (cr_mon c) in
   ({| cr_mon := mon; cr_chk := chk |}, st)) = cr_evaluate N KEqual c stamp /\
  (let '(chk, mon, st) := src_cr_evaluate_greater checkup rmon (eval_greater_than N) (mon_update N) stamp (cr_chk c) (cr_mon c) in
   ({| cr_mon := mon; cr_chk := chk |}, st)) = cr_evaluate N KGreater c stamp.
Proof. intros. split. - apply tie_cr_evaluate_equal. - apply tie_cr_evaluate_greater. Qed.
Print Assumptions C17_source_tie_checkup_evaluate.

(* the monitor's update as a member-object method: the generated update packed into the record *)
Theorem C17_source_tie_monitor_method : forall T (N : NumOps T) (m : rmon) d,
  (let '(last, _, sum, periods, rate, ret) :=
     src_rm_update N d (rm_last m) (rm_sum m) (rm_periods m) (rm_rate m) (rm_window m) in
   ({| rm_window := rm_window m; rm_last := last; rm_periods := periods; rm_sum := sum; rm_rate := rate |}, ret))
  = mon_update N m d.
Proof. exact @tie_mon_update. Qed.

Theorem C17_source_tie_heartbeat : forall T (N : NumOps T) (c : crate) stamp,
  (let '(chk, mon, alive) := src_cr_heartbeat_equal checkup rmon checkup_timeout (rm_timeout N) stamp (cr_chk c) (cr_mon c) in
   ({| cr_mon := mon; cr_chk := chk |}, alive)) = cr_heartbeat N c stamp /\
  (let '(chk, mon, alive) := src_cr_heartbeat_greater checkup rmon checkup_timeout (rm_timeout N) stamp (cr_chk c) (cr_mon c) in
   ({| cr_mon := mon; cr_chk := chk |}, alive)) = cr_heartbeat N c stamp.
Proof. intros. split. - apply tie_cr_heartbeat_equal. - apply tie_cr_heartbeat_greater. Qed.
Print Assumptions C17_source_tie_heartbeat.

Theorem C17_source_tie_getReport : forall T (c : crate (T:=T)),
  src_cr_getReport_equal checkup chk_getReport (cr_chk c) = (cr_chk c, c_report (cr_chk c)) /\
  src_cr_getReport_greater checkup chk_getReport (cr_chk c) = (cr_chk c, c_report (cr_chk c)).
Proof. exact @tie_cr_getReport. Qed.

(* BINARY64.  The same model at the rounded dictionary B64Ops (GridMapFloat.v: every C++ double operation is the real
   operation followed by one rounding to nearest-even in FLT(-1074, 53)); by the source tie (every dictionary) this is
   also the generated term at B64Ops.  Stamps, periods and the running sum are integers: only 1e9 / (sum / double(W)),
   2 * expectedRate and count / 1e9 > 0.5 are computed in double. *)
Local Open Scope R_scope.

(* integer sum below 2^53 ns (104 days), W in [4, 64]: two roundings, relative error at most 3 * 2^-53 *)
Theorem C17_rate_binary64_rel_error : forall sum w, (0 < sum < 2 ^ 53)%Z -> (4 <= w <= 64)%Z ->
  rate_of_sum B64Ops sum w = rnd64 (1000000000 / rnd64 (IZR sum / IZR w)) /\
  (exists d, Rabs d <= 3 * Raux.bpow Zaux.radix2 (-53) /\ rate_of_sum B64Ops sum w = (IZR w * 1000000000 / IZR sum) * (1 + d)) /\
  Rabs (rate_of_sum B64Ops sum w - IZR w * 1000000000 / IZR sum) <= 3 * Raux.bpow Zaux.radix2 (-53) * (IZR w * 1000000000 / IZR sum).
Proof.
  intros sum w Hs Hw. exact (conj (rate_b64_unfold sum w Hs Hw) (conj (rate_b64_rel_error sum w Hs Hw) (rate_b64_abs_error sum w Hs Hw))).
Qed.
Print Assumptions C17_rate_binary64_rel_error.

(* W a power of two (4, 8, 16, 32, 64): sum / W is exact, the rate is the CORRECTLY ROUNDED W * 1e9 / sum (one rounding,
   relative error 2^-53), and exactly that quotient when it is a double *)
Theorem C17_rate_binary64_pow2_window : forall sum w, (0 < sum < 2 ^ 53)%Z -> (exists k, (2 <= k <= 6)%Z /\ w = (2 ^ k)%Z) ->
  rate_of_sum B64Ops sum w = rnd64 (IZR w * 1000000000 / IZR sum) /\
  (exists d, Rabs d <= Raux.bpow Zaux.radix2 (-53) /\ rate_of_sum B64Ops sum w = (IZR w * 1000000000 / IZR sum) * (1 + d)) /\
  (b64 (IZR w * 1000000000 / IZR sum) -> rate_of_sum B64Ops sum w = IZR w * 1000000000 / IZR sum).
Proof.
  intros sum w Hs Hw. exact (conj (rate_b64_pow2_window sum w Hs Hw) (conj (rate_b64_pow2_rel_error sum w Hs Hw) (rate_b64_exact sum w Hs Hw))).
Qed.
Print Assumptions C17_rate_binary64_pow2_window.

(* the window size and the time-out test are EXACT in binary64 *)
Theorem C17_rate_binary64_window_exact : forall r, b64 r -> window_size B64Ops r = window_size ROps r.
Proof. exact window_b64_eq_real. Qed.

Theorem C17_rate_binary64_timeout_exact : forall (s : rmon (T:=R)) t, (Z.abs (t - rm_last s) < 2 ^ 53)%Z ->
  rm_timeout B64Ops s t = rm_timeout ROps s t /\
  snd (rm_timeout B64Ops s t) = negb (is_nil (rm_periods s)) && (500000000 <? t - rm_last s)%Z.
Proof.
  intros s t H. split; [|exact (timeout_b64_rule s t H)].
  rewrite !rm_timeout_late, late_b64, late_R by exact H. reflexivity.
Qed.
Print Assumptions C17_rate_binary64_timeout_exact.

(* end to end: the double published after ANY history (strictly increasing stamps, more than W of them, no time-out
   pending, window span below 2^53 ns) is W / (span in seconds) up to 3 * 2^-53 relative *)
Theorem C17_rate_binary64_after_history : forall r evs,
  let W := window_size B64Ops r in let ds := data_stamps evs in
  increasing ds -> (W < Z.of_nat (length ds))%Z -> snd (hist B64Ops evs) = false ->
  let span := (last ds 0 - nth (length ds - Z.to_nat W - 1) ds 0)%Z in
  (span < 2 ^ 53)%Z ->
  (0 < span)%Z /\
  exists d, Rabs d <= 3 * Raux.bpow Zaux.radix2 (-53) /\
            rm_rate (rm_run B64Ops (rm_init B64Ops r) evs) = IZR W / (IZR span / 1000000000) * (1 + d).
Proof. exact rate_b64_history. Qed.
Print Assumptions C17_rate_binary64_after_history.

Theorem C17_rate_binary64_after_history_pow2 : forall r evs,
  let W := window_size B64Ops r in let ds := data_stamps evs in
  increasing ds -> (W < Z.of_nat (length ds))%Z -> snd (hist B64Ops evs) = false ->
  let span := (last ds 0 - nth (length ds - Z.to_nat W - 1) ds 0)%Z in
  (span < 2 ^ 53)%Z -> (exists k, (2 <= k <= 6)%Z /\ W = (2 ^ k)%Z) ->
  rm_rate (rm_run B64Ops (rm_init B64Ops r) evs) = rnd64 (IZR W / (IZR span / 1000000000)).
Proof. exact rate_b64_history_pow2. Qed.

(* non-vacuity in binary64: the 1 Hz history above publishes exactly 1; 0.4 s window of 4 periods publishes exactly 10 *)
Example C17_ex_binary64_rate : rm_rate (rm_run B64Ops (rm_init B64Ops 1) ex_evs) = 1.
Proof. exact ex_rate64. Qed.
Example C17_ex_binary64_values : rate_of_sum B64Ops 4000000000 4 = 1 /\ rate_of_sum B64Ops 400000000 4 = 10.
Proof. exact (conj rate_b64_4s_window4 rate_b64_400ms_window4). Qed.
