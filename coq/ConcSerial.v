(* ConcSerial.v — C19: executions of a well-locked class are serial at critical-section granularity.
   Labelled steps (thread, action) and traces; while a thread holds the lock no other thread can take ANY step
   (every action of every thread is Lock, or lies inside a critical section it does not own), hence every execution
   trace is a sequence of uninterrupted critical sections: the interleaved run IS a sequential ordering of the calls,
   in lock-acquisition order ([serial_trace]; actions carry no values, so nothing is said about the values read). *)
From Coq Require Import List Arith Bool Lia String.
From Romea Require Import Conc.
Import ListNotations.

(* labelled version of Conc.step *)
Inductive lstep : gstate -> nat * action -> gstate -> Prop :=
| l_lock t r st : nth_error (todo st) t = Some (Lock :: r) -> holder st = None ->
    lstep st (t, Lock) {| holder := Some t; todo := upd (todo st) t r |}
| l_unlock t r st : nth_error (todo st) t = Some (Unlock :: r) -> holder st = Some t ->
    lstep st (t, Unlock) {| holder := None; todo := upd (todo st) t r |}
| l_rd t f r st : nth_error (todo st) t = Some (Rd f :: r) ->
    lstep st (t, Rd f) {| holder := holder st; todo := upd (todo st) t r |}
| l_wr t f r st : nth_error (todo st) t = Some (Wr f :: r) ->
    lstep st (t, Wr f) {| holder := holder st; todo := upd (todo st) t r |}.

Lemma lstep_step a l b : lstep a l b -> step a b.
Proof. intros H. destruct H; econstructor; eassumption. Qed.

Inductive run : gstate -> list (nat * action) -> gstate -> Prop :=
| run_nil s : run s [] s
| run_cons a l b tr c : lstep a l b -> run b tr c -> run a (l :: tr) c.

(* a trace is serial when, scanning it with the current lock holder, every entry made while the lock is held
   belongs to the holder, locks are taken only when free, and plain accesses occur only inside a section *)
Fixpoint serial_trace (h : option nat) (tr : list (nat * action)) : bool :=
  match tr with
  | [] => true
  | (t, Lock) :: r => match h with None => serial_trace (Some t) r | Some _ => false end
  | (t, Unlock) :: r => match h with Some u => Nat.eqb u t && serial_trace None r | None => false end
  | (t, _) :: r => match h with Some u => Nat.eqb u t && serial_trace h r | None => false end
  end.

Lemma run_serial : forall st tr st', inv st -> run st tr st' -> serial_trace (holder st) tr = true.
Proof.
  intros st tr st' I R. induction R as [s|a [t act] b tr c S R IH]; [reflexivity|].
  specialize (IH (inv_step a b I (lstep_step _ _ _ S))).
  inversion S as [t0 r st0 H Hh|t0 r st0 H Hh|t0 f r st0 H|t0 f r st0 H]; subst; cbn [serial_trace holder] in *.
  - rewrite Hh. exact IH.
  - rewrite Hh, Nat.eqb_refl. exact IH.
  - rewrite (access_holds _ _ _ _ _ I H eq_refl) in *. rewrite Nat.eqb_refl. exact IH.
  - rewrite (access_holds _ _ _ _ _ I H eq_refl) in *. rewrite Nat.eqb_refl. exact IH.
Qed.
