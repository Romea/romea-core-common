(* GeodesyCartesian.v — the reverse composition Cartesian -> geodetic -> Cartesian (C01), for an arbitrary point
   near the Earth (no geodetic pre-image is assumed). *)
From Coq Require Import Reals ZArith List Bool Lra Lia Psatz.
From Coquelicot Require Import Coquelicot.
From Romea Require Import Num NumR GeodesyModel GeodesyProofs GeodesyContraction GeodesyRoundtrip.
From Romea.gen Require Import RepoConstants.
Local Open Scope R_scope.

Section Cartesian.
Variable el : ellipsoid (T:=R).
Hypothesis Ha : 0 < el_a el.
Hypothesis He : 0 <= el_e2 el <= / 100.
Variables X Y Z : R.
Local Notation a := (el_a el).
Local Notation e2 := (el_e2 el).
Local Notation rho := (hnorm ROps X Y).
Local Notation p := (mkV3 X Y Z).
Hypothesis Hrho : 0 < rho.
Hypothesis Hr : 98 / 100 * a <= rnorm Z rho.

Let He2 : 0 <= e2 < 1. Proof. lra. Qed.
Let Hfar : e2 * a < rnorm Z rho. Proof. exact (near_far el Ha He p Hr). Qed.
Let HJ : (e2 * a) * (e2 * a) < rho * rho + (1 - e2) * (Z * Z). Proof. exact (near_HJ el Ha He p Hrho Hr). Qed.

(* on the invariant interval the denominator of the body is at least 0.98: a cos x <= |p| cos x / 0.98 <= rho / 0.98 *)
Lemma cart_den_lower x : lat_J Z rho x -> 98 / 100 <= lat_den el rho x <= 1.
Proof.
  intros HJx. destruct (lat_J_cos Z rho Hrho x HJx) as [Cp Cr].
  split; [|apply (lat_den_le_1 el Ha He2 rho Hrho); lra].
  pose proof (Wf_range el He x) as Rw. unfold lat_den.
  set (w := Wf el x) in *. set (c := cos x) in *. set (r := rnorm Z rho) in *. clearbody w c r.
  assert (S1 : a * c <= rho * (100 / 98)) by nra.
  assert (Q : a * e2 * c / (rho * w) <= 2 / 100); [|lra].
  apply Rle_div_l; nra.
Qed.

(* X and Y are reproduced exactly (the height formula norm/cos(lat) - N makes the horizontal part exact for any
   latitude); Z' = rho tan(lat) D(lat) and tan(lat) = (Z/rho)/D(prev) for the last two iterates, so
   Z' - Z = (Z/rho) a e2 (cos/W (prev) - cos/W (lat)) / D(prev), with |lat - prev| <= EPSILON at the exit *)
Local Arguments hnorm : simpl never.

Lemma cart_roundtrip_bound fuel gg :
  toWGS84 ROps fuel el p = Some gg ->
  let p' := toECEF ROps el gg in
  vx p' = X /\ vy p' = Y /\
  Rabs (vz p' - Z) <= Rabs Z / rho * (a * e2) * (105 / 100 * ecef_eps ROps) / (98 / 100).
Proof.
  intros H.
  destruct (toWGS84_exit_J el Ha He2 p Hrho Hfar HJ fuel gg H) as [Elon [Ealt [prev [Hp [Er Hs]]]]].
  cbn [vx vy vz] in Elon, Ealt, Er. set (r := g_lat gg) in *.
  assert (HJr : lat_J Z rho r) by (rewrite Er; apply (lat_J_body el Ha He2 Z rho Hrho HJ); exact Hp).
  destruct (lat_J_cos Z rho Hrho r HJr) as [Cp _].
  pose proof (Wf_range el He r) as Rw.
  destruct (atan2_polar X Y rho Hrho) as (_ & PX & PY). { symmetry. apply sqrt_sqrt. nra. }
  unfold toECEF, primeVertical. fold r. rewrite Elon, Ealt, altitude_of_eq. unfold longitude_of.
  cbn [vx vy vz nadd nsub nmul ndiv ncos nsin nsqrt n_one natan2 ROps]. fold (Wf el r).
  set (w := Wf el r) in *. set (c := cos r) in *.
  split; [|split].
  - transitivity (rho * cos (Ratan2 Y X)); [field; split; lra|exact PX].
  - transitivity (rho * sin (Ratan2 Y X)); [field; split; lra|exact PY].
  - pose proof (cart_den_lower prev Hp) as [Dl Du]. pose proof (Wf_range el He prev).
    assert (Et : sin r / c = Z / rho / lat_den el rho prev).
    { unfold c. change (sin r / cos r) with (tan r). rewrite Er, lat_body_eq. apply tan_atan. }
    set (FF := cos prev / Wf el prev - cos r / Wf el r). set (Dp := lat_den el rho prev) in *.
    assert (EZ : (a / w * (1 - e2) + (rho / c - a / w)) * sin r = Z / Dp * lat_den el rho r).
    { transitivity (rho * (sin r / c) * lat_den el rho r); [|rewrite Et; field; split; lra].
      unfold lat_den. fold w c. field. repeat split; lra. }
    assert (ED : lat_den el rho r - Dp = a * e2 / rho * FF).
    { unfold Dp, FF. rewrite !lat_den_eq by assumption. fold w c. ring. }
    replace ((a / w * (1 - e2) + (rho / c - a / w)) * sin r - Z) with (Z / rho * (a * e2) * FF / Dp).
    2:{ rewrite EZ. transitivity (Z * (lat_den el rho r - Dp) / Dp); [rewrite ED; field; split; lra|field; lra]. }
    pose proof (cos_over_W_lip el He prev r) as LF. rewrite (Rabs_minus_sym prev r) in LF. fold FF in LF.
    apply Rabs_div_le; [|lra]. apply Rabs_mult_le; [|lra]. apply Rabs_mult_le; [|rewrite Rabs_pos_eq; nra].
    unfold Rdiv. rewrite Rabs_mult, Rabs_inv, (Rabs_pos_eq rho); lra.
Qed.

(* with |Z| <= 600 norm, a <= 7e6 and EPSILON = 1e-11 this is below 1 mm *)
Hypothesis Ha7 : a <= 7000000.
Hypothesis Hcone : Rabs Z <= 600 * rho.

Lemma cart_roundtrip fuel gg :
  toWGS84 ROps fuel el p = Some gg ->
  let p' := toECEF ROps el gg in
  vx p' = X /\ vy p' = Y /\ Rabs (vz p' - Z) <= / 1000.
Proof.
  intros H. destruct (cart_roundtrip_bound fuel gg H) as [EX [EY B]]. split; [exact EX|]. split; [exact EY|].
  apply Rle_trans with (1 := B). rewrite ecef_eps_eq.
  assert (Zr : Rabs Z / rho <= 600) by (apply Rle_div_l; lra).
  apply Rle_trans with (600 * 70000 * (105 / 100 * / 100000000000) / (98 / 100)); [|lra].
  apply Rmult_le_compat_r; [lra|]. apply Rmult_le_compat_r; [lra|].
  apply Rmult_le_compat; [apply Rdiv_le_0_compat; [apply Rabs_pos|lra]|nra|exact Zr|nra].
Qed.

End Cartesian.

(* non-vacuity: the point (6000 km, 0, 2000 km) and GRS80 *)
Lemma cartesian_domain_example :
  let el := grs80 ROps in let norm := hnorm ROps 6000000 0 in
  0 < norm /\ 98 / 100 * el_a el <= sqrt (norm * norm + 2000000 * 2000000) /\ Rabs 2000000 <= 600 * norm.
Proof.
  cbv zeta. rewrite grs80_eq. cbn [make_ellipsoid el_a].
  replace (hnorm ROps 6000000 0) with 6000000.
  2:{ unfold hnorm. cbn [nsqrt nadd nmul ROps]. rewrite Rmult_0_l, Rplus_0_r, sqrt_square; lra. }
  split; [lra|]. split.
  - rewrite <- (sqrt_square (98 / 100 * 6378137)) by lra. apply sqrt_le_1_alt. lra.
  - rewrite Rabs_pos_eq by lra. lra.
Qed.

(* the image of the geodetic domain of the property lies in the Cartesian domain of cart_roundtrip *)
Lemma toECEF_in_cartesian_domain (el : ellipsoid (T:=R)) lat lon h :
  0 < el_a el -> 0 <= el_e2 el <= / 100 -> - PI / 2 < lat < PI / 2 -> / 600 <= cos lat -> - el_a el / 100 <= h ->
  let p := toECEF ROps el (mkGeo lat lon h) in let norm := hnorm ROps (vx p) (vy p) in
  0 < norm /\ 98 / 100 * el_a el <= sqrt (norm * norm + vz p * vz p) /\ Rabs (vz p) <= 600 * norm.
Proof.
  intros Ha He Hl Hc Hh p norm. destruct (ne_near el Ha He lat lon h Hl Hh) as [R0 R1].
  split; [exact R0|]. split; [exact R1|].
  unfold norm, p. destruct (ne_point el Ha He lat lon h Hl Hh) as [-> ->].
  pose proof (ne_m_lower el Ha He lat h Hh) as M. pose proof (ne_P_ge_m el Ha He lat h) as PM.
  set (mm := primeVertical ROps el lat * (1 - el_e2 el) + h) in *.
  set (Pp := primeVertical ROps el lat + h) in *. clearbody mm Pp.
  rewrite Rabs_mult, (Rabs_pos_eq mm) by lra.
  assert (S1 : Rabs (sin lat) <= 1) by (apply Rabs_le; pose proof (SIN_bound lat); lra).
  pose proof (Rabs_pos (sin lat)). nra.
Qed.
