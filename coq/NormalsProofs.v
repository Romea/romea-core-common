(* NormalsProofs.v — lemmas about NormalsModel.v (C09), real-number instance, in six layers: vdot / vcoord algebra, the
   [sumn] library, the Ortho and Spectral sections (Rayleigh), the witness against the original flip rule, the
   covariance as a variance (planar data), rotations of the cloud.
   The eigen-solver is an oracle; its contract [eig_contract] is always a hypothesis.
   The linear algebra is done once, for any dimension, on coordinate functions nat -> R summed with [sumn]; a list enters
   through its coordinates [vcoord] (entries beyond its end read as 0) and the contract through [contract_spectral]. *)
From Coq Require Import Reals ZArith List Bool Arith Lra Lia Psatz.
From Romea Require Import Num NumR NormalsModel.
Import ListNotations.
Local Open Scope R_scope.

Fixpoint sumn (f : nat -> R) (n : nat) : R :=
  match n with O => 0 | S k => sumn f k + f k end.

(* x^T C x over the dim x dim block *)
Definition quad (dim : nat) (C : list (list R)) (x : list R) : R :=
  sumn (fun i => sumn (fun j => vcoord ROps x i * mget ROps C i j * vcoord ROps x j) dim) dim.

(* entry i of eigenvector (column) c *)
Definition vc (cols : list (list R)) (c i : nat) : R := vcoord ROps (nth c cols []) i.

(* contract of the eigen-solver oracle for the result r = (lam, cols) on the matrix C *)
Definition eig_contract (dim : nat) (C : list (list R)) (r : list R * list (list R)) : Prop :=
  let lam := fst r in
  let cols := snd r in
  length lam = dim /\
  length cols = dim /\
  (forall c, (c < dim)%nat -> length (nth c cols []) = dim) /\
  (forall a b, (a < dim)%nat -> (b < dim)%nat ->
     vdot ROps (nth a cols []) (nth b cols []) = if (a =? b)%nat then 1 else 0) /\
  (forall i j, (i < dim)%nat -> (j < dim)%nat ->
     sumn (fun c => vc cols c i * vc cols c j) dim = if (i =? j)%nat then 1 else 0) /\
  (forall c, (S c < dim)%nat -> vcoord ROps lam c <= vcoord ROps lam (S c)) /\
  (forall i j, (i < dim)%nat -> (j < dim)%nat ->
     mget ROps C i j = sumn (fun c => vc cols c i * vcoord ROps lam c * vc cols c j) dim).

Lemma vdot_acc_shift : forall a b acc, vdot_acc ROps acc a b = acc + vdot ROps a b.
Proof.
  unfold vdot. induction a as [|x a IH]; intros [|y b] acc; cbn; try lra.
  rewrite IH, (IH b (0 + x * y)). lra.
Qed.

Lemma vdot_nil_l b : vdot ROps [] b = 0.
Proof. reflexivity. Qed.
Lemma vdot_nil_r a : vdot ROps a [] = 0.
Proof. destruct a; reflexivity. Qed.
Lemma vdot_cons x a y b : vdot ROps (x :: a) (y :: b) = x * y + vdot ROps a b.
Proof. unfold vdot at 1. cbn. rewrite vdot_acc_shift. lra. Qed.

Lemma vdot_comm : forall a b, vdot ROps a b = vdot ROps b a.
Proof.
  induction a as [|x a IH]; intros [|y b]; try reflexivity.
  rewrite !vdot_cons, IH. ring.
Qed.

Lemma vdot_nonneg : forall a, 0 <= vdot ROps a a.
Proof. induction a as [|x a IH]; [rewrite vdot_nil_l; lra|rewrite vdot_cons; nra]. Qed.

Lemma vdot_self_zero : forall b, vdot ROps b b = 0 -> forall a, vdot ROps a b = 0.
Proof.
  induction b as [|y b IH]; intros H a; [apply vdot_nil_r|].
  rewrite vdot_cons in H. pose proof (vdot_nonneg b) as P.
  assert (y = 0) by nra. assert (vdot ROps b b = 0) by nra.
  destruct a as [|x a]; [reflexivity|]. rewrite vdot_cons, IH by assumption. subst y. ring.
Qed.

Lemma vdot_vdivs : forall a b s, vdot ROps a (vdivs ROps b s) = vdot ROps a b / s.
Proof.
  induction a as [|x a IH]; intros [|y b] s; unfold vdivs; cbn [map];
    rewrite ?vdot_nil_l, ?vdot_nil_r; try (unfold Rdiv; ring).
  rewrite !vdot_cons. fold (vdivs ROps b s). rewrite IH. cbn. unfold Rdiv. ring.
Qed.

Lemma vdot_vneg_l : forall a b, vdot ROps (vneg ROps a) b = - vdot ROps a b.
Proof.
  induction a as [|x a IH]; intros [|y b]; unfold vneg; cbn [map];
    rewrite ?vdot_nil_l, ?vdot_nil_r; try ring.
  rewrite !vdot_cons. fold (vneg ROps a). rewrite IH. cbn. ring.
Qed.

Lemma vdot_vneg_r a b : vdot ROps a (vneg ROps b) = - vdot ROps a b.
Proof. rewrite vdot_comm, vdot_vneg_l, vdot_comm. reflexivity. Qed.

Lemma vneg_length a : length (vneg ROps a) = length a.
Proof. apply map_length. Qed.

Lemma firstn_app_len {A} (a b : list A) n : length a = n -> firstn n (a ++ b) = a.
Proof. intros <-. rewrite firstn_app, Nat.sub_diag, firstn_all. cbn. apply app_nil_r. Qed.

Lemma flip_cart_firstn dim p col0 nin : length col0 = dim ->
  let n := firstn dim (flip_cart ROps dim p (write_normal dim col0 nin)) in
  let pc := firstn dim p in
  (n = col0 /\ vdot ROps col0 (vdivs ROps pc (vnorm ROps pc)) <= 0) \/
  (n = vneg ROps col0 /\ 0 < vdot ROps col0 (vdivs ROps pc (vnorm ROps pc))).
Proof.
  intros L. unfold flip_cart, write_normal. cbv zeta.
  rewrite (firstn_all2 col0) by lia. rewrite (firstn_app_len col0 _ dim L).
  change (ngtb ROps ?a ?b) with (Rltb b a). cbn [nzero ROps].
  destruct (Rltb 0 _) eqn:E.
  - right. apply Rltb_true in E. split; [|exact E].
    apply firstn_app_len. rewrite vneg_length. exact L.
  - left. apply Rltb_false in E. split; [|exact E]. apply firstn_app_len. exact L.
Qed.

Lemma sign_div d s : 0 <= s -> (s = 0 -> d = 0) -> (d / s <= 0 -> d <= 0) /\ (0 < d / s -> 0 <= d).
Proof.
  intros Hs Hz. destruct (Req_dec s 0) as [Z|NZ].
  - rewrite (Hz Z). split; intros; lra.
  - assert (0 < s) as S by lra. pose proof (Rinv_0_lt_compat _ S) as I. unfold Rdiv. split; intros H; nra.
Qed.

Lemma faces_sensor_core col0 pc :
  let t := vdot ROps col0 (vdivs ROps pc (vnorm ROps pc)) in
  (t <= 0 -> vdot ROps col0 pc <= 0) /\ (0 < t -> 0 <= vdot ROps col0 pc).
Proof.
  cbv zeta. rewrite vdot_vdivs. unfold vnorm. cbn [nsqrt ROps]. apply sign_div; [apply sqrt_pos|].
  intros Z. apply vdot_self_zero. apply sqrt_eq_0; [apply vdot_nonneg|exact Z].
Qed.

Lemma contract_col0 dim C lam cols : (0 < dim)%nat -> eig_contract dim C (lam, cols) ->
  length (nth 0 cols []) = dim /\ vdot ROps (nth 0 cols []) (nth 0 cols []) = 1.
Proof.
  intros D (_ & _ & HL & HO & _). split; [apply HL; exact D|]. apply (HO 0%nat 0%nat D D).
Qed.

Lemma normal_cases eig dim size p nb normal_in :
  dim = 2%nat \/ dim = 3%nat ->
  eig_contract dim (covariance ROps dim size nb) (eig (covariance ROps dim size nb)) ->
  let e := estimate_point ROps eig false dim size p nb normal_in in
  let n := firstn dim (e_normal e) in
  let col0 := nth 0 (snd (eig (covariance ROps dim size nb))) [] in
  let pc := firstn dim p in
  e_lambda e = fst (eig (covariance ROps dim size nb)) /\
  e_curvature e = curvature ROps (fst (eig (covariance ROps dim size nb))) /\
  length col0 = dim /\ vdot ROps col0 col0 = 1 /\
  ((n = col0 /\ vdot ROps col0 (vdivs ROps pc (vnorm ROps pc)) <= 0) \/
   (n = vneg ROps col0 /\ 0 < vdot ROps col0 (vdivs ROps pc (vnorm ROps pc)))).
Proof.
  intros D H. cbv zeta. unfold estimate_point.
  destruct (eig (covariance ROps dim size nb)) as [lam cols] eqn:E.
  cbn [e_normal e_lambda e_curvature fst snd].
  assert (0 < dim)%nat as D0 by lia.
  destruct (contract_col0 dim _ lam cols D0 H) as [L U].
  repeat split; try assumption; try reflexivity.
  apply flip_cart_firstn. exact L.
Qed.

Lemma normal_unit : forall eig dim size p nb normal_in,
  dim = 2%nat \/ dim = 3%nat ->
  eig_contract dim (covariance ROps dim size nb) (eig (covariance ROps dim size nb)) ->
  let n := firstn dim (e_normal (estimate_point ROps eig false dim size p nb normal_in)) in
  vdot ROps n n = 1.
Proof.
  intros eig dim size p nb normal_in D H. cbv zeta.
  destruct (normal_cases eig dim size p nb normal_in D H) as (_ & _ & L & U & [[-> _]|[-> _]]).
  - exact U.
  - rewrite vdot_vneg_l, vdot_vneg_r. lra.
Qed.

Lemma normal_faces_sensor : forall eig dim size p nb normal_in,
  dim = 2%nat \/ dim = 3%nat ->
  eig_contract dim (covariance ROps dim size nb) (eig (covariance ROps dim size nb)) ->
  let n := firstn dim (e_normal (estimate_point ROps eig false dim size p nb normal_in)) in
  vdot ROps n (firstn dim p) <= 0.
Proof.
  intros eig dim size p nb normal_in D H. cbv zeta.
  destruct (normal_cases eig dim size p nb normal_in D H) as (_ & _ & L & U & [[-> T]|[-> T]]).
  - apply (faces_sensor_core _ (firstn dim p)). exact T.
  - rewrite vdot_vneg_l. pose proof (proj2 (faces_sensor_core _ (firstn dim p)) T). lra.
Qed.

Lemma sumn_ext f g n : (forall i, (i < n)%nat -> f i = g i) -> sumn f n = sumn g n.
Proof.
  induction n as [|n IH]; intros H; cbn; [reflexivity|].
  rewrite IH by (intros; apply H; lia). rewrite H by lia. reflexivity.
Qed.

Lemma sumn_0 n : sumn (fun _ => 0) n = 0.
Proof. induction n as [|n IH]; cbn; [reflexivity|rewrite IH; ring]. Qed.

Lemma sumn_plus f g n : sumn (fun i => f i + g i) n = sumn f n + sumn g n.
Proof. induction n as [|n IH]; cbn; [ring|rewrite IH; ring]. Qed.

Lemma sumn_scal c f n : sumn (fun i => c * f i) n = c * sumn f n.
Proof. induction n as [|n IH]; cbn; [ring|rewrite IH; ring]. Qed.

Lemma sumn_opp f n : sumn (fun i => - f i) n = - sumn f n.
Proof. induction n as [|n IH]; cbn; [ring|rewrite IH; ring]. Qed.

Lemma sumn_scal_lr a b f n : a * sumn f n * b = sumn (fun i => a * f i * b) n.
Proof. induction n as [|n IH]; cbn; [ring|rewrite <- IH; ring]. Qed.

Lemma sumn_swap (f : nat -> nat -> R) n m :
  sumn (fun i => sumn (f i) m) n = sumn (fun j => sumn (fun i => f i j) n) m.
Proof.
  induction n as [|n IH]; cbn [sumn]; [symmetry; apply sumn_0|].
  rewrite IH, <- sumn_plus. reflexivity.
Qed.

Lemma sumn_prod f g n m : sumn f n * sumn g m = sumn (fun i => sumn (fun j => f i * g j) m) n.
Proof.
  rewrite Rmult_comm, <- sumn_scal. apply sumn_ext. intros i _. rewrite sumn_scal. ring.
Qed.

(* a sum with a single term that is not zero *)
Lemma sumn_single f n a : (a < n)%nat -> (forall k, (k < n)%nat -> k <> a -> f k = 0) -> sumn f n = f a.
Proof.
  induction n as [|n IH]; intros Ha H; [lia|]. cbn [sumn]. destruct (Nat.eq_dec a n) as [->|Hne].
  - rewrite (sumn_ext f (fun _ => 0)) by (intros; apply H; lia). rewrite sumn_0. ring.
  - rewrite IH by (try lia; intros; apply H; lia). rewrite (H n) by lia. ring.
Qed.

Definition delta (i j : nat) : R := if (i =? j)%nat then 1 else 0.

Lemma sumn_delta f n i : (i < n)%nat -> sumn (fun k => delta i k * f k) n = f i.
Proof.
  intros H. rewrite (sumn_single _ n i H); unfold delta.
  - rewrite Nat.eqb_refl. ring.
  - intros k _ Hk. destruct (Nat.eqb_spec i k); [congruence|ring].
Qed.

Lemma sumn_le f g n : (forall i, (i < n)%nat -> f i <= g i) -> sumn f n <= sumn g n.
Proof.
  induction n as [|n IH]; intros H; cbn; [lra|].
  pose proof (H n ltac:(lia)). pose proof (IH (fun i Hi => H i ltac:(lia))). lra.
Qed.

Lemma sumn_nonneg_zero f n : (forall i, (i < n)%nat -> 0 <= f i) -> sumn f n = 0 ->
  forall i, (i < n)%nat -> f i = 0.
Proof.
  induction n as [|n IH]; intros H Z i Hi; [lia|]. cbn in Z.
  assert (0 <= sumn f n) by (rewrite <- (sumn_0 n); apply sumn_le; intros; apply H; lia).
  pose proof (H n ltac:(lia)). destruct (Nat.eq_dec i n) as [->|]; [lra|].
  apply IH; [intros; apply H; lia|lra|lia].
Qed.

Lemma sumn_shift f n : sumn f (S n) = f 0%nat + sumn (fun i => f (S i)) n.
Proof.
  induction n as [|n IH]; [cbn; ring|].
  change (sumn f (S (S n))) with (sumn f (S n) + f (S n)). rewrite IH. cbn [sumn]. ring.
Qed.

Lemma sumn_const c n : sumn (fun _ => c) n = INR n * c.
Proof. induction n as [|n IH]; [cbn; ring|]. cbn [sumn]. rewrite IH, S_INR. ring. Qed.

(* x^T (A B) y = sum_k (x^T A)_k (B y)_k *)
Lemma bil_mul x y (A B : nat -> nat -> R) n m :
  sumn (fun i => sumn (fun j => x i * sumn (fun k => A i k * B k j) m * y j) n) n
  = sumn (fun k => sumn (fun i => x i * A i k) n * sumn (fun j => B k j * y j) n) m.
Proof.
  induction m as [|m IH]; cbn [sumn].
  - rewrite (sumn_ext _ (fun _ => 0)); [apply sumn_0|]. intros i _.
    rewrite (sumn_ext _ (fun _ => 0)); [apply sumn_0|]. intros; ring.
  - rewrite <- IH, sumn_prod, <- sumn_plus. apply sumn_ext. intros i _.
    rewrite <- sumn_plus. apply sumn_ext. intros; ring.
Qed.

Lemma sq_zero x : x * x = 0 -> x = 0.
Proof. intros H. destruct (Rmult_integral _ _ H); assumption. Qed.

Lemma sq_one x : x * x = 1 -> x = 1 \/ x = -1.
Proof.
  intros H. assert ((x - 1) * (x + 1) = 0) as E by lra.
  destruct (Rmult_integral _ _ E); [left|right]; lra.
Qed.

Section Ortho.
Variables (n : nat) (v : nat -> nat -> R).
(* V V^T = I: sum over the members c of the family *)
Hypothesis Hrow : forall i j, (i < n)%nat -> (j < n)%nat -> sumn (fun c => v c i * v c j) n = delta i j.

(* coefficient of x along member c *)
Definition coef (x : nat -> R) (c : nat) : R := sumn (fun i => v c i * x i) n.

Lemma polar x y : sumn (fun c => coef x c * coef y c) n = sumn (fun i => x i * y i) n.
Proof.
  unfold coef.
  rewrite (sumn_ext _ (fun c => sumn (fun i => sumn (fun j => v c i * x i * (v c j * y j)) n) n))
    by (intros; apply sumn_prod).
  rewrite sumn_swap. apply sumn_ext. intros i Hi. rewrite sumn_swap.
  rewrite (sumn_ext _ (fun j => delta i j * (x i * y j))); [apply sumn_delta; exact Hi|].
  intros j Hj. rewrite <- (Hrow i j Hi Hj), Rmult_comm, <- sumn_scal. apply sumn_ext. intros; ring.
Qed.

Lemma resolve x i : (i < n)%nat -> sumn (fun c => coef x c * v c i) n = x i.
Proof.
  intros Hi. unfold coef.
  rewrite (sumn_ext _ (fun c => sumn (fun j => v c j * x j * v c i) n))
    by (intros; rewrite Rmult_comm, <- sumn_scal; apply sumn_ext; intros; ring).
  rewrite sumn_swap.
  rewrite (sumn_ext _ (fun j => delta i j * x j)); [apply sumn_delta; exact Hi|].
  intros j Hj. rewrite <- (Hrow i j Hi Hj), Rmult_comm, <- sumn_scal. apply sumn_ext. intros; ring.
Qed.
End Ortho.

(* a spectral decomposition  C = V^T diag(lam) V *)
Section Spectral.
Variables (n : nat) (v : nat -> nat -> R) (lam : nat -> R) (C : nat -> nat -> R).
Hypothesis Hrow : forall i j, (i < n)%nat -> (j < n)%nat -> sumn (fun c => v c i * v c j) n = delta i j.
Hypothesis Hcol : forall a b, (a < n)%nat -> (b < n)%nat -> sumn (fun i => v a i * v b i) n = delta a b.
Hypothesis Hasc : forall a b, (a <= b)%nat -> (b < n)%nat -> lam a <= lam b.
Hypothesis HC : forall i j, (i < n)%nat -> (j < n)%nat -> C i j = sumn (fun c => v c i * lam c * v c j) n.

Definition qf (x : nat -> R) : R := sumn (fun i => sumn (fun j => x i * C i j * x j) n) n.

Lemma qf_coef x : qf x = sumn (fun c => lam c * (coef n v x c * coef n v x c)) n.
Proof.
  unfold qf, coef.
  rewrite (sumn_ext _ (fun i => sumn (fun c => sumn (fun j => lam c * (v c i * x i * (v c j * x j))) n) n)).
  - rewrite sumn_swap. apply sumn_ext. intros c _.
    rewrite sumn_prod, <- sumn_scal. apply sumn_ext. intros i _. rewrite <- sumn_scal. reflexivity.
  - intros i Hi. rewrite sumn_swap. apply sumn_ext. intros j Hj.
    rewrite (HC i j Hi Hj), sumn_scal_lr. apply sumn_ext. intros; ring.
Qed.

Lemma coef_member a c : (a < n)%nat -> (c < n)%nat -> coef n v (v a) c = delta c a.
Proof. intros Ha Hc. apply Hcol; assumption. Qed.

Lemma qf_member a : (a < n)%nat -> qf (v a) = lam a.
Proof.
  intros Ha. rewrite qf_coef. rewrite (sumn_ext _ (fun c => delta a c * lam c)); [apply sumn_delta; exact Ha|].
  intros c Hc. rewrite coef_member by assumption. unfold delta.
  rewrite (Nat.eqb_sym a c). destruct (c =? a)%nat; ring.
Qed.

Lemma rayleigh_bound x : (0 < n)%nat -> sumn (fun i => x i * x i) n = 1 -> lam 0 <= qf x.
Proof.
  intros Hn U. rewrite qf_coef, <- (Rmult_1_r (lam 0)), <- U, <- (polar n v Hrow x x), <- sumn_scal.
  apply sumn_le. intros c Hc. pose proof (Hasc 0%nat c ltac:(lia) Hc).
  pose proof (Rle_0_sqr (coef n v x c)). unfold Rsqr in *. nra.
Qed.

(* a unit vector without component along the members 1.. is +- member 0 *)
Lemma align x : (0 < n)%nat -> sumn (fun i => x i * x i) n = 1 ->
  (forall c, (0 < c < n)%nat -> coef n v x c = 0) ->
  (forall i, (i < n)%nat -> x i = v 0%nat i) \/ (forall i, (i < n)%nat -> x i = - v 0%nat i).
Proof.
  intros Hn U Z. pose proof (polar n v Hrow x x) as P. rewrite U in P.
  rewrite (sumn_single _ n 0%nat Hn) in P by (intros c Hc Hc0; rewrite Z by lia; ring).
  assert (forall i, (i < n)%nat -> x i = coef n v x 0 * v 0%nat i) as E.
  { intros i Hi. rewrite <- (resolve n v Hrow x i Hi) at 1. apply (sumn_single (fun c => coef n v x c * v c i) n 0%nat Hn).
    intros c Hc Hc0. rewrite Z by lia. ring. }
  destruct (sq_one _ P) as [A|A]; rewrite A in E; [left|right]; intros i Hi; rewrite (E i Hi); ring.
Qed.

Lemma qf_ext x y : (forall i, (i < n)%nat -> x i = y i) -> qf x = qf y.
Proof.
  intros E. apply sumn_ext. intros i Hi. apply sumn_ext. intros j Hj. rewrite (E i Hi), (E j Hj). reflexivity.
Qed.

(* a unit vector attaining lam_0, when lam_0 is simple, has no component along the members 1.. *)
Lemma qf_bottom x : sumn (fun i => x i * x i) n = 1 -> qf x = lam 0 -> lam 0 < lam 1 ->
  forall c, (0 < c < n)%nat -> coef n v x c = 0.
Proof.
  intros U Q Gap c Hc. rewrite qf_coef in Q. pose proof (polar n v Hrow x x) as P. rewrite U in P.
  assert (sumn (fun c => (lam c - lam 0) * (coef n v x c * coef n v x c)) n = 0) as Z.
  { rewrite (sumn_ext _ (fun c => lam c * (coef n v x c * coef n v x c) + - lam 0 * (coef n v x c * coef n v x c)))
      by (intros; ring).
    rewrite sumn_plus, sumn_scal, Q, P. ring. }
  assert (forall k, (k < n)%nat -> 0 <= (lam k - lam 0) * (coef n v x k * coef n v x k)) as Pos.
  { intros k Hk. pose proof (Hasc 0%nat k ltac:(lia) Hk). pose proof (Rle_0_sqr (coef n v x k)). unfold Rsqr in *. nra. }
  pose proof (Hasc 1%nat c ltac:(lia) ltac:(lia)). apply sq_zero.
  destruct (Rmult_integral _ _ (sumn_nonneg_zero _ n Pos Z c ltac:(lia))); [lra|assumption].
Qed.
End Spectral.

(* x^T (R C R^T) x = (R^T x)^T C (R^T x) *)
Lemma qf_conj n (r C C' : nat -> nat -> R) x :
  (forall i j, (i < n)%nat -> (j < n)%nat ->
     C' i j = sumn (fun k => sumn (fun l => r i k * C k l * r j l) n) n) ->
  qf n C' x = qf n C (fun k => sumn (fun i => r i k * x i) n).
Proof.
  intros HCj. unfold qf.
  rewrite (sumn_ext _ (fun i => sumn (fun j =>
             x i * sumn (fun k => r i k * sumn (fun l => C k l * r j l) n) n * x j) n)).
  2:{ intros i Hi. apply sumn_ext. intros j Hj. rewrite (HCj i j Hi Hj). do 2 f_equal.
      apply sumn_ext. intros k _. rewrite <- sumn_scal. apply sumn_ext. intros; ring. }
  rewrite bil_mul. apply sumn_ext. intros k _.
  rewrite (sumn_ext (fun i => x i * r i k) (fun i => r i k * x i)) by (intros; ring).
  rewrite (sumn_ext (fun j => sumn (fun l => C k l * r j l) n * x j) (fun j => sumn (fun l => C k l * (r j l * x j)) n))
    by (intros; rewrite Rmult_comm, <- sumn_scal; apply sumn_ext; intros; ring).
  rewrite sumn_swap.
  rewrite (sumn_ext (fun l => sumn (fun j => C k l * (r j l * x j)) n) (fun l => C k l * sumn (fun j => r j l * x j) n))
    by (intros; apply sumn_scal).
  rewrite <- sumn_scal. apply sumn_ext. intros; ring.
Qed.

Lemma vcoord_nil i : vcoord ROps [] i = 0.
Proof. destruct i; reflexivity. Qed.

(* entries beyond the end of a list read as 0 *)
Lemma vdot_sumn : forall a b n, (length b <= n)%nat ->
  vdot ROps a b = sumn (fun i => vcoord ROps a i * vcoord ROps b i) n.
Proof.
  induction a as [|x a IH]; intros b n H.
  - rewrite (sumn_ext _ (fun _ => 0)), sumn_0 by (intros; rewrite vcoord_nil; ring). reflexivity.
  - destruct b as [|y b].
    + rewrite (sumn_ext _ (fun _ => 0)), sumn_0 by (intros; rewrite vcoord_nil; ring). reflexivity.
    + destruct n as [|n]; [cbn in H; lia|]. rewrite vdot_cons, sumn_shift, (IH b n) by (cbn in H; lia). reflexivity.
Qed.

Lemma vcoord_firstn n c i : (i < n)%nat -> vcoord ROps (firstn n c) i = vcoord ROps c i.
Proof.
  unfold vcoord. revert c i. induction n as [|n IH]; intros c i H; [lia|].
  destruct c as [|y c]; [reflexivity|]. destruct i as [|i]; [reflexivity|]. cbn [firstn nth]. apply IH. lia.
Qed.

Lemma vcoord_vneg x i : vcoord ROps (vneg ROps x) i = - vcoord ROps x i.
Proof. unfold vcoord, vneg. cbn [nneg nzero ROps]. rewrite <- Ropp_0 at 1. apply map_nth. Qed.

Lemma list_eq_coords : forall a b : list R, length a = length b ->
  (forall i, (i < length a)%nat -> vcoord ROps a i = vcoord ROps b i) -> a = b.
Proof.
  induction a as [|x a IH]; intros [|y b] L H; try discriminate L; [reflexivity|].
  f_equal; [exact (H 0%nat ltac:(cbn; lia))|]. apply IH; [cbn in L; lia|].
  intros i Hi. exact (H (S i) ltac:(cbn; lia)).
Qed.

Lemma dot_firstn dim c x : length x = dim ->
  vdot ROps (firstn dim c) x = sumn (fun i => vcoord ROps c i * vcoord ROps x i) dim.
Proof.
  intros L. rewrite (vdot_sumn _ x dim) by lia. apply sumn_ext. intros i Hi.
  rewrite vcoord_firstn by exact Hi. reflexivity.
Qed.

Lemma unit_sumn dim x : length x = dim -> vdot ROps x x = 1 ->
  sumn (fun i => vcoord ROps x i * vcoord ROps x i) dim = 1.
Proof. intros L U. rewrite <- U. symmetry. apply vdot_sumn. lia. Qed.

Lemma vsum_sumn l : vsum ROps l = sumn (vcoord ROps l) (length l).
Proof.
  unfold vsum. cbn [nadd nzero ROps]. rewrite <- (Rplus_0_l (sumn _ _)). generalize 0.
  induction l as [|x l IH]; intros a; cbn [fold_left length]; [cbn; ring|].
  rewrite IH, sumn_shift. unfold vcoord. cbn [nth]. ring.
Qed.

(* the contract as a spectral decomposition over coordinate functions *)
Lemma contract_spectral dim C lam cols : eig_contract dim C (lam, cols) ->
  (forall i j, (i < dim)%nat -> (j < dim)%nat -> sumn (fun c => vc cols c i * vc cols c j) dim = delta i j) /\
  (forall a b, (a < dim)%nat -> (b < dim)%nat -> sumn (fun i => vc cols a i * vc cols b i) dim = delta a b) /\
  (forall a b, (a <= b)%nat -> (b < dim)%nat -> vcoord ROps lam a <= vcoord ROps lam b) /\
  (forall i j, (i < dim)%nat -> (j < dim)%nat ->
     mget ROps C i j = sumn (fun c => vc cols c i * vcoord ROps lam c * vc cols c j) dim).
Proof.
  intros (_ & _ & HL & HO & HR & HA & HC). cbn [fst snd] in *. repeat split; [exact HR| | |exact HC].
  - intros a b Ha Hb. unfold delta. rewrite <- (HO a b Ha Hb). symmetry. apply vdot_sumn. rewrite (HL b Hb). lia.
  - intros a b Hab. induction Hab as [|b Hab IH]; intros Hb; [lra|].
    pose proof (HA b Hb). pose proof (IH ltac:(lia)). lra.
Qed.

Lemma quad_vneg dim C x : quad dim C (vneg ROps x) = quad dim C x.
Proof. unfold quad. apply sumn_ext. intros i _. apply sumn_ext. intros j _. rewrite !vcoord_vneg. ring. Qed.

(* Rayleigh: the first eigenvector (and its negative) attains lam_0, every unit vector is above it *)
Lemma rayleigh dim C lam cols : (0 < dim)%nat -> eig_contract dim C (lam, cols) ->
  quad dim C (nth 0 cols []) = vcoord ROps lam 0 /\
  quad dim C (vneg ROps (nth 0 cols [])) = vcoord ROps lam 0 /\
  forall x, length x = dim -> vdot ROps x x = 1 -> vcoord ROps lam 0 <= quad dim C x.
Proof.
  intros D H. destruct (contract_spectral dim C lam cols H) as (Hrow & Hcol & Hasc & HC).
  assert (quad dim C (nth 0 cols []) = vcoord ROps lam 0) as Q by exact (qf_member dim _ _ _ Hcol HC 0%nat D).
  split; [exact Q|]. split; [rewrite quad_vneg; exact Q|].
  intros x Lx Ux. apply (rayleigh_bound dim _ _ _ Hrow Hasc HC (vcoord ROps x) D).
  rewrite <- Ux. symmetry. apply vdot_sumn. lia.
Qed.

Lemma normal_least_variance : forall eig dim size p nb normal_in,
  dim = 2%nat \/ dim = 3%nat ->
  eig_contract dim (covariance ROps dim size nb) (eig (covariance ROps dim size nb)) ->
  let C := covariance ROps dim size nb in
  let e := estimate_point ROps eig false dim size p nb normal_in in
  let n := firstn dim (e_normal e) in
  quad dim C n = vcoord ROps (e_lambda e) 0 /\
  forall x, length x = dim -> vdot ROps x x = 1 -> vcoord ROps (e_lambda e) 0 <= quad dim C x.
Proof.
  intros eig dim size p nb normal_in D H. cbv zeta.
  destruct (normal_cases eig dim size p nb normal_in D H) as (-> & _ & _ & _ & Hn).
  destruct (eig (covariance ROps dim size nb)) as [lam cols].
  destruct (rayleigh dim _ lam cols ltac:(lia) H) as (Q1 & Q2 & Q3). cbn [fst snd] in *.
  split; [|exact Q3]. destruct Hn as [[-> _]|[-> _]]; assumption.
Qed.

Definition wit_p : list R := [0; 0; -1/2; 1].
Definition wit_nb : list (list R) :=
  [[1; 0; -1/2; 1]; [-1; 0; -1/2; 1]; [0; 1; -1/2; 1]; [0; -1; -1/2; 1]].
Definition wit_eig : list (list R) -> list R * list (list R) :=
  fun _ => ([0; 1/2; 1/2], [[0; 0; 1]; [1; 0; 0]; [0; 1; 0]]).

Lemma below_2 (P : nat -> Prop) : P 0%nat -> P 1%nat -> forall i, (i < 2)%nat -> P i.
Proof. intros ? ? [|[|i]] Hi; try assumption; lia. Qed.
Lemma below_3 (P : nat -> Prop) : P 0%nat -> P 1%nat -> P 2%nat -> forall i, (i < 3)%nat -> P i.
Proof. intros ? ? ? [|[|[|i]]] Hi; try assumption; lia. Qed.
Lemma below_2_2 (P : nat -> nat -> Prop) : P 0%nat 0%nat -> P 0%nat 1%nat -> P 1%nat 0%nat -> P 1%nat 1%nat ->
  forall i j, (i < 2)%nat -> (j < 2)%nat -> P i j.
Proof. intros ? ? ? ? [|[|i]] [|[|j]] Hi Hj; try assumption; lia. Qed.
Lemma below_3_3 (P : nat -> nat -> Prop) :
  P 0%nat 0%nat -> P 0%nat 1%nat -> P 0%nat 2%nat -> P 1%nat 0%nat -> P 1%nat 1%nat -> P 1%nat 2%nat ->
  P 2%nat 0%nat -> P 2%nat 1%nat -> P 2%nat 2%nat -> forall i j, (i < 3)%nat -> (j < 3)%nat -> P i j.
Proof. intros ? ? ? ? ? ? ? ? ? [|[|[|i]]] [|[|[|j]]] Hi Hj; try assumption; lia. Qed.

Lemma wit_contract : eig_contract 3 (covariance ROps 3 4 wit_nb) (wit_eig (covariance ROps 3 4 wit_nb)).
Proof.
  unfold eig_contract, wit_eig. cbn [fst snd]. repeat split; try reflexivity.
  - apply below_3; reflexivity.
  - apply below_3_3; cbn; lra.
  - apply below_3_3; cbn; lra.
  - intros c Hc. destruct c as [|[|c]]; try lia; cbn; lra.
  - apply below_3_3; cbn; lra.
Qed.

Lemma wit_old_rule :
  vdot ROps (firstn 3 (e_normal (estimate_point ROps wit_eig true 3 4 wit_p wit_nb [0;0;0;1]))) (firstn 3 wit_p) > 0.
Proof.
  unfold estimate_point, wit_eig. cbn [e_normal nth]. unfold write_normal. cbn [firstn skipn app].
  unfold flip_full. change (ngtb ROps ?a ?b) with (Rltb b a). cbn [nzero ROps].
  rewrite vdot_vdivs.
  assert (T : Rltb 0 (vdot ROps [0; 0; 1; 1] wit_p / vnorm ROps wit_p) = true).
  { apply Rltb_true. unfold vnorm, wit_p. cbn.
    assert (0 < sqrt (0 + 0 * 0 + 0 * 0 + -1 / 2 * (-1 / 2) + 1 * 1)) as S by (apply sqrt_lt_R0; lra).
    apply Rdiv_lt_0_compat; [lra|exact S]. }
  rewrite T. unfold wit_p. cbn. lra.
Qed.

Lemma normal_flip_homog_refuted :
  exists (eig : list (list R) -> list R * list (list R)) dim size p nb normal_in,
    eig_contract dim (covariance ROps dim size nb) (eig (covariance ROps dim size nb)) /\
    (size = S dim /\ length p = size /\ vcoord ROps p dim = 1 /\
     Forall (fun q => length q = size /\ vcoord ROps q dim = 1) nb) /\
    normal_in = [0; 0; 0; 1] /\
    vdot ROps (firstn dim (e_normal (estimate_point ROps eig true dim size p nb normal_in))) (firstn dim p) > 0.
Proof.
  exists wit_eig, 3%nat, 4%nat, wit_p, wit_nb, [0; 0; 0; 1].
  split; [exact wit_contract|]. split.
  { repeat split; try reflexivity. unfold wit_nb. repeat constructor. }
  split; [reflexivity|exact wit_old_rule].
Qed.

(* the repaired rule on the same witness, as a sanity check of the witness itself *)
Lemma wit_new_rule :
  vdot ROps (firstn 3 (e_normal (estimate_point ROps wit_eig false 3 4 wit_p wit_nb [0;0;0;1]))) (firstn 3 wit_p) <= 0.
Proof. apply normal_faces_sensor; [right; reflexivity|exact wit_contract]. Qed.

Lemma nth_map_seq {A} (f : nat -> A) n i d : (i < n)%nat -> nth i (map f (seq 0 n)) d = f i.
Proof.
  intros H. rewrite (nth_indep _ d (f 0%nat)) by (rewrite map_length, seq_length; lia).
  rewrite map_nth, seq_nth by lia. reflexivity.
Qed.

Lemma mget_covariance dim size nb i j : (i < dim)%nat -> (j < dim)%nat ->
  mget ROps (covariance ROps dim size nb) i j =
  cov_entry ROps (map (fun q => vsub ROps q (mean ROps size nb)) nb) (scalar_of_nat ROps (length nb)) i j.
Proof.
  intros Hi Hj. unfold mget, covariance, vcoord. cbv zeta.
  rewrite (nth_map_seq _ dim i) by lia. rewrite nth_map_seq by lia. reflexivity.
Qed.

(* sum of g over a list *)
Definition lsum {A : Type} (g : A -> R) (l : list A) : R := fold_right Rplus 0 (map g l).

Lemma fold_left_lsum {A} (g : A -> R) l : forall a, fold_left (fun acc c => acc + g c) l a = a + lsum g l.
Proof.
  induction l as [|c l IH]; intros a; unfold lsum in *; cbn; [lra|]. rewrite IH. lra.
Qed.

Lemma lsum_map {A B} (f : A -> B) (g : B -> R) l : lsum g (map f l) = lsum (fun q => g (f q)) l.
Proof. unfold lsum. rewrite map_map. reflexivity. Qed.

Lemma lsum_nonneg {A} (g : A -> R) l : (forall q, 0 <= g q) -> 0 <= lsum g l.
Proof.
  intros H. induction l as [|c l IH]; unfold lsum in *; cbn; [lra|]. pose proof (H c). lra.
Qed.

Lemma lsum_zero {A} (g : A -> R) l : (forall q, In q l -> g q = 0) -> lsum g l = 0.
Proof.
  induction l as [|c l IH]; intros H; unfold lsum in *; cbn; [reflexivity|].
  rewrite (H c) by (left; reflexivity). rewrite IH; [lra|]. intros q Hq. apply H. right. exact Hq.
Qed.

Lemma lsum_ext_in {A} (f g : A -> R) l : (forall q, In q l -> f q = g q) -> lsum f l = lsum g l.
Proof.
  induction l as [|c l IH]; intros H; [reflexivity|].
  change (f c + lsum f l = g c + lsum g l). rewrite (H c) by (left; reflexivity).
  rewrite IH; [reflexivity|]. intros q Hq. apply H. right. exact Hq.
Qed.

Lemma cov_entry_lsum centred k i j :
  cov_entry ROps centred k i j = lsum (fun c => vcoord ROps c i * vcoord ROps c j) centred / k.
Proof.
  unfold cov_entry. cbn [nadd nmul ndiv nzero ROps].
  rewrite (fold_left_lsum (fun c => vcoord ROps c i * vcoord ROps c j)). rewrite Rplus_0_l. reflexivity.
Qed.

Lemma scalar_INR k : scalar_of_nat ROps k = INR k.
Proof. unfold scalar_of_nat. cbn [nofZ ROps]. symmetry. apply INR_IZR_INZ. Qed.

Lemma lsum_sumn {Q} (g : Q -> nat -> R) n l :
  lsum (fun q => sumn (g q) n) l = sumn (fun i => lsum (fun q => g q i) l) n.
Proof.
  induction l as [|q l IH]; unfold lsum in *; cbn [map fold_right]; [symmetry; apply sumn_0|].
  rewrite IH, <- sumn_plus. reflexivity.
Qed.

Lemma lsum_scal {Q} c (g : Q -> R) l : lsum (fun q => c * g q) l = c * lsum g l.
Proof. induction l as [|q l IH]; unfold lsum in *; cbn; [ring|rewrite IH; ring]. Qed.

(* the same with the middle index running over a list *)
Lemma bil_lsum {Q} x y (a b : Q -> nat -> R) n l :
  sumn (fun i => sumn (fun j => x i * lsum (fun q => a q i * b q j) l * y j) n) n
  = lsum (fun q => sumn (fun i => x i * a q i) n * sumn (fun j => b q j * y j) n) l.
Proof.
  induction l as [|q l IH]; unfold lsum in *; cbn [map fold_right].
  - rewrite (sumn_ext _ (fun _ => 0)); [apply sumn_0|]. intros i _.
    rewrite (sumn_ext _ (fun _ => 0)); [apply sumn_0|]. intros; ring.
  - rewrite <- IH, sumn_prod, <- sumn_plus. apply sumn_ext. intros i _.
    rewrite <- sumn_plus. apply sumn_ext. intros; ring.
Qed.

(* x^T C x = (1/k) sum over the neighbours q of ((q - mean)_cart . x)^2 *)
Lemma quad_cov_is_variance : forall dim size nb x,
  dim = 2%nat \/ dim = 3%nat -> length x = dim ->
  quad dim (covariance ROps dim size nb) x =
  lsum (fun q => (vdot ROps (firstn dim (vsub ROps q (mean ROps size nb))) x) ^ 2) nb / INR (length nb).
Proof.
  intros dim size nb x _ Lx. unfold quad. set (m := mean ROps size nb).
  rewrite (sumn_ext _ (fun i => / INR (length nb) * sumn (fun j =>
     vcoord ROps x i * lsum (fun q => vcoord ROps (vsub ROps q m) i * vcoord ROps (vsub ROps q m) j) nb * vcoord ROps x j) dim)).
  2:{ intros i Hi. rewrite <- sumn_scal. apply sumn_ext. intros j Hj.
      rewrite mget_covariance, cov_entry_lsum, scalar_INR, lsum_map by assumption. fold m. unfold Rdiv. ring. }
  rewrite sumn_scal, bil_lsum. unfold Rdiv. rewrite Rmult_comm. f_equal. apply lsum_ext_in. intros q _.
  rewrite (dot_firstn dim _ x Lx), (sumn_ext (fun i => vcoord ROps x i * _) (fun i => vcoord ROps (vsub ROps q m) i * vcoord ROps x i))
    by (intros; ring). ring.
Qed.

Lemma quad_cov_nonneg : forall dim size nb x,
  dim = 2%nat \/ dim = 3%nat -> length x = dim -> 0 <= quad dim (covariance ROps dim size nb) x.
Proof.
  intros dim size nb x D Lx. rewrite (quad_cov_is_variance dim size nb x D Lx).
  assert (0 <= lsum (fun q => (vdot ROps (firstn dim (vsub ROps q (mean ROps size nb))) x) ^ 2) nb) as P.
  { apply lsum_nonneg. intros q. apply pow2_ge_0. }
  destruct (length nb) as [|k].
  - cbn [INR]. unfold Rdiv. rewrite Rinv_0. lra.
  - apply Rle_mult_inv_pos; [exact P|]. apply lt_0_INR. lia.
Qed.

Lemma lam0_nonneg dim size nb lam cols :
  dim = 2%nat \/ dim = 3%nat -> eig_contract dim (covariance ROps dim size nb) (lam, cols) ->
  0 <= vcoord ROps lam 0.
Proof.
  intros D H. destruct (rayleigh dim _ lam cols ltac:(lia) H) as (Q1 & _ & _). rewrite <- Q1.
  apply quad_cov_nonneg; [exact D|].
  assert (0 < dim)%nat as D0 by lia. destruct (contract_col0 dim _ lam cols D0 H) as [L _]. exact L.
Qed.

Lemma curvature_range : forall eig dim size p nb normal_in,
  dim = 2%nat \/ dim = 3%nat ->
  eig_contract dim (covariance ROps dim size nb) (eig (covariance ROps dim size nb)) ->
  let e := estimate_point ROps eig false dim size p nb normal_in in
  0 < vsum ROps (e_lambda e) -> 0 <= e_curvature e <= 1 / INR dim.
Proof.
  intros eig dim size p nb normal_in D H. cbv zeta.
  destruct (normal_cases eig dim size p nb normal_in D H) as (-> & -> & _).
  destruct (eig (covariance ROps dim size nb)) as [lam cols]. cbn [fst snd].
  pose proof (lam0_nonneg dim size nb lam cols D H) as P0. unfold curvature. cbn [ndiv ROps].
  destruct (contract_spectral dim _ lam cols H) as (_ & _ & Hasc & _). destruct H as (Ll & _). cbn [fst] in Ll.
  rewrite vsum_sumn, Ll. intros S.
  (* every eigenvalue is at least lam_0 *)
  assert (INR dim * vcoord ROps lam 0 <= sumn (vcoord ROps lam) dim) as B.
  { rewrite <- sumn_const. apply sumn_le. intros c Hc. apply Hasc; [lia|exact Hc]. }
  assert (0 < INR dim) as Pd by (apply lt_0_INR; lia).
  split; [apply Rle_mult_inv_pos; assumption|]. unfold Rdiv. rewrite Rmult_1_l.
  apply Rmult_le_reg_r with (sumn (vcoord ROps lam) dim); [exact S|]. rewrite Rmult_assoc, Rinv_l, Rmult_1_r by lra.
  apply Rmult_le_reg_l with (INR dim); [exact Pd|]. rewrite <- Rmult_assoc, Rinv_r, Rmult_1_l by lra. exact B.
Qed.

Lemma vadd_length : forall a b, length a = length b -> length (vadd ROps a b) = length a.
Proof. induction a as [|x a IH]; intros [|y b] H; cbn in *; try lia. rewrite IH; lia. Qed.

Lemma vcoord_vadd : forall a b i, length a = length b ->
  vcoord ROps (vadd ROps a b) i = vcoord ROps a i + vcoord ROps b i.
Proof.
  unfold vcoord. induction a as [|x a IH]; intros [|y b] i H; cbn in *; try lia.
  - destruct i; lra.
  - destruct i as [|i]; [reflexivity|]. apply IH. lia.
Qed.

Lemma vcoord_vsub : forall a b i, length a = length b ->
  vcoord ROps (vsub ROps a b) i = vcoord ROps a i - vcoord ROps b i.
Proof.
  unfold vcoord. induction a as [|x a IH]; intros [|y b] i H; cbn in *; try lia.
  - destruct i; lra.
  - destruct i as [|i]; [reflexivity|]. apply IH. lia.
Qed.

Lemma vcoord_vdivs : forall a s i, vcoord ROps (vdivs ROps a s) i = vcoord ROps a i / s.
Proof.
  unfold vcoord, vdivs. induction a as [|x a IH]; intros s i; cbn.
  - destruct i; unfold Rdiv; ring.
  - destruct i as [|i]; [reflexivity|]. apply IH.
Qed.

Lemma vcoord_repeat0 size i : vcoord ROps (repeat 0 size) i = 0.
Proof.
  unfold vcoord. revert i. induction size as [|s IH]; intros i; cbn; [destruct i; reflexivity|].
  destruct i; [reflexivity|apply IH].
Qed.

Lemma fold_vadd size nb : (forall q, In q nb -> length q = size) -> forall acc, length acc = size ->
  length (fold_left (vadd ROps) nb acc) = size /\
  forall i, vcoord ROps (fold_left (vadd ROps) nb acc) i = vcoord ROps acc i + lsum (fun q => vcoord ROps q i) nb.
Proof.
  induction nb as [|q nb IH]; intros Hl acc La; cbn [fold_left].
  - split; [exact La|]. intros i. unfold lsum. cbn. lra.
  - assert (length q = size) as Lq by (apply Hl; left; reflexivity).
    assert (length (vadd ROps acc q) = size) as L2 by (rewrite vadd_length; lia).
    destruct (IH (fun q' Hq' => Hl q' (or_intror Hq')) _ L2) as [A B]. split; [exact A|].
    intros i. rewrite B, vcoord_vadd by lia. unfold lsum. cbn. lra.
Qed.

Lemma mean_coord size nb : (forall q, In q nb -> length q = size) ->
  length (mean ROps size nb) = size /\
  forall i, vcoord ROps (mean ROps size nb) i = lsum (fun q => vcoord ROps q i) nb / INR (length nb).
Proof.
  intros Hl. unfold mean. cbn [nzero ROps].
  destruct (fold_vadd size nb Hl (repeat 0 size) (repeat_length _ _)) as [A B]. split.
  - unfold vdivs. rewrite map_length. exact A.
  - intros i. rewrite vcoord_vdivs, B, vcoord_repeat0, scalar_INR. unfold Rdiv. ring.
Qed.

Lemma lsum_const_in {A} (g : A -> R) c l : (forall q, In q l -> g q = c) -> lsum g l = INR (length l) * c.
Proof.
  induction l as [|q l IH]; intros H.
  - unfold lsum. cbn. ring.
  - change (lsum g (q :: l)) with (g q + lsum g l). rewrite (H q) by (left; reflexivity).
    rewrite IH by (intros q' Hq'; apply H; right; exact Hq').
    change (length (q :: l)) with (S (length l)). rewrite S_INR. ring.
Qed.

(* if all neighbours lie in the hyperplane  m . x = c  the variance along m vanishes *)
Lemma planar_quad_zero dim size nb m c :
  dim = 2%nat \/ dim = 3%nat -> (forall q, In q nb -> length q = size) -> length m = dim ->
  (forall q, In q nb -> vdot ROps m (firstn dim q) = c) ->
  quad dim (covariance ROps dim size nb) m = 0.
Proof.
  intros D Hl Lm Hc. rewrite (quad_cov_is_variance dim size nb m D Lm).
  destruct (mean_coord size nb Hl) as [Lmean Mc].
  rewrite lsum_zero; [unfold Rdiv; ring|]. intros q Hq.
  assert (INR (length nb) <> 0) as K by (apply not_0_INR; destruct nb; [destruct Hq|discriminate]).
  assert (forall q', In q' nb -> sumn (fun i => vcoord ROps q' i * vcoord ROps m i) dim = c) as Eq.
  { intros q' Hq'. rewrite <- (dot_firstn dim q' m Lm), vdot_comm. apply Hc. exact Hq'. }
  (* the mean lies in the hyperplane too *)
  assert (sumn (fun i => lsum (fun q' => vcoord ROps q' i) nb * vcoord ROps m i) dim = INR (length nb) * c) as Es.
  { rewrite <- (lsum_const_in _ c nb Eq), lsum_sumn. apply sumn_ext. intros i _.
    rewrite Rmult_comm, <- lsum_scal. apply lsum_ext_in. intros; ring. }
  assert (vdot ROps (firstn dim (vsub ROps q (mean ROps size nb))) m = 0) as Z; [|rewrite Z; ring].
  rewrite (dot_firstn dim _ m Lm).
  rewrite (sumn_ext _ (fun i => vcoord ROps q i * vcoord ROps m i
                                + - / INR (length nb) * (lsum (fun q' => vcoord ROps q' i) nb * vcoord ROps m i))).
  2:{ intros i _. rewrite vcoord_vsub, Mc by (rewrite Lmean; apply Hl; exact Hq). unfold Rdiv. ring. }
  rewrite sumn_plus, sumn_scal, (Eq q Hq), Es. field. exact K.
Qed.

(* spectral consequence: quad C m = 0 for a unit m, lam_0 >= 0, lam_1 > 0  =>  m = +- v0 and lam_0 = 0 *)
Lemma zero_direction dim C lam cols m :
  (0 < dim)%nat -> eig_contract dim C (lam, cols) ->
  length m = dim -> vdot ROps m m = 1 -> quad dim C m = 0 ->
  0 <= vcoord ROps lam 0 -> 0 < vcoord ROps lam 1 ->
  vcoord ROps lam 0 = 0 /\ (nth 0 cols [] = m \/ nth 0 cols [] = map Ropp m).
Proof.
  intros D H Lm Um Qm P0 P1. destruct (contract_spectral dim C lam cols H) as (Hrow & Hcol & Hasc & HC).
  destruct H as (_ & _ & HL & _). cbn [snd] in HL. pose proof (unit_sumn dim m Lm Um) as U.
  pose proof (rayleigh_bound dim _ _ _ Hrow Hasc HC (vcoord ROps m) D U) as Lo.
  change (qf dim (mget ROps C) (vcoord ROps m)) with (quad dim C m) in Lo.
  assert (vcoord ROps lam 0 = 0) as Z0 by lra. split; [exact Z0|].
  assert (forall c, (0 < c < dim)%nat -> coef dim (vc cols) (vcoord ROps m) c = 0) as Z.
  { apply (qf_bottom dim _ _ _ Hrow Hasc HC _ U); [rewrite Z0; exact Qm|lra]. }
  destruct (align dim _ Hrow (vcoord ROps m) D U Z) as [E|E]; [left|right];
    (apply list_eq_coords; rewrite (HL 0%nat D); [rewrite ?map_length; lia|]); intros i Hi; symmetry.
  - apply E. exact Hi.
  - change (map Ropp m) with (vneg ROps m). rewrite vcoord_vneg, (E i Hi). unfold vc. ring.
Qed.

Lemma map_opp_opp (m : list R) : map Ropp (map Ropp m) = m.
Proof. induction m as [|x m IH]; cbn; [reflexivity|]. rewrite IH, Ropp_involutive. reflexivity. Qed.

(* exactness on planar data *)
Lemma planar_exact : forall eig dim size p nb normal_in m c,
  dim = 2%nat \/ dim = 3%nat ->
  eig_contract dim (covariance ROps dim size nb) (eig (covariance ROps dim size nb)) ->
  (forall q, In q nb -> length q = size) ->
  length m = dim -> vdot ROps m m = 1 ->
  (forall q, In q nb -> vdot ROps m (firstn dim q) = c) ->
  let e := estimate_point ROps eig false dim size p nb normal_in in
  let n := firstn dim (e_normal e) in
  0 < vcoord ROps (e_lambda e) 1 ->
  (n = m \/ n = map Ropp m) /\ e_curvature e = 0.
Proof.
  intros eig dim size p nb normal_in m c D H Hl Lm Um Hc. cbv zeta.
  destruct (normal_cases eig dim size p nb normal_in D H) as (-> & -> & _ & _ & Hn).
  destruct (eig (covariance ROps dim size nb)) as [lam cols]. cbn [fst snd] in *. intros P1.
  pose proof (lam0_nonneg dim size nb lam cols D H) as P0.
  pose proof (planar_quad_zero dim size nb m c D Hl Lm Hc) as Qm.
  destruct (zero_direction dim _ lam cols m ltac:(lia) H Lm Um Qm P0 P1) as (Z0 & Hv). split.
  - destruct Hn as [[-> _]|[-> _]]; destruct Hv as [->| ->].
    + left; reflexivity.
    + right; reflexivity.
    + right; reflexivity.
    + left. unfold vneg. cbn [nneg ROps]. apply map_opp_opp.
  - unfold curvature. cbn [ndiv ROps]. rewrite Z0. unfold Rdiv. ring.
Qed.

Lemma vdot_app : forall a b p,
  vdot ROps (a ++ b) p = vdot ROps a (firstn (length a) p) + vdot ROps b (skipn (length a) p).
Proof.
  induction a as [|x a IH]; intros b p; cbn [app length firstn skipn].
  - rewrite vdot_nil_l. lra.
  - destruct p as [|y p]; [rewrite !vdot_nil_r; lra|]. rewrite !vdot_cons, IH. lra.
Qed.

Lemma nth_skipn_plus {A} (d : A) : forall n l i, nth i (skipn n l) d = nth (n + i) l d.
Proof.
  induction n as [|n IH]; intros l i; [reflexivity|]. destruct l as [|x l]; cbn [skipn plus nth].
  - destruct i; reflexivity.
  - apply IH.
Qed.

(* the original rule is right when the
   caller's extra entry (w) of the normal is 0, and for Cartesian point types *)
Lemma normal_faces_sensor_old_rule_w0 : forall eig dim size p nb normal_in,
  dim = 2%nat \/ dim = 3%nat ->
  eig_contract dim (covariance ROps dim size nb) (eig (covariance ROps dim size nb)) ->
  (length p <= S dim)%nat -> vcoord ROps normal_in dim = 0 ->
  let n := firstn dim (e_normal (estimate_point ROps eig true dim size p nb normal_in)) in
  vdot ROps n (firstn dim p) <= 0.
Proof.
  intros eig dim size p nb normal_in D H Lp W. cbv zeta. unfold estimate_point.
  destruct (eig (covariance ROps dim size nb)) as [lam cols]. cbn [e_normal].
  assert (0 < dim)%nat as D0 by lia.
  destruct (contract_col0 dim _ lam cols D0 H) as [L U].
  set (col0 := nth 0 cols []) in *. unfold write_normal, flip_full. rewrite (firstn_all2 col0) by lia.
  set (rest := skipn dim normal_in).
  (* the test value *)
  assert (vdot ROps (col0 ++ rest) p = vdot ROps col0 (firstn dim p)) as E.
  { rewrite vdot_app, L.
    assert (vdot ROps rest (skipn dim p) = 0) as Z; [|lra].
    assert (length (skipn dim p) <= 1)%nat as Ls by (rewrite skipn_length; lia).
    assert (nth 0 rest 0 = 0) as R0.
    { unfold rest. rewrite nth_skipn_plus, Nat.add_0_r. exact W. }
    destruct rest as [|r0 rest']; [apply vdot_nil_l|].
    destruct (skipn dim p) as [|w [|? ?]]; [apply vdot_nil_r| |cbn in Ls; lia].
    cbn in R0. subst r0. rewrite vdot_cons, vdot_nil_r. ring. }
  assert (vdot ROps p p = 0 -> vdot ROps col0 (firstn dim p) = 0) as Z0.
  { intros Z. apply vdot_self_zero.
    rewrite <- (firstn_skipn dim p) in Z at 1. rewrite vdot_app in Z.
    pose proof (vdot_nonneg (firstn dim p)) as P1.
    assert (0 <= vdot ROps (skipn dim p) (skipn (length (firstn dim p)) p)) as P2.
    { destruct (Nat.le_gt_cases dim (length p)) as [G|G].
      - rewrite firstn_length_le by exact G. apply vdot_nonneg.
      - rewrite skipn_all2 by lia. rewrite vdot_nil_l. lra. }
    assert (firstn (length (firstn dim p)) p = firstn dim p) as F.
    { destruct (Nat.le_gt_cases dim (length p)) as [G|G].
      - rewrite firstn_length_le by exact G. reflexivity.
      - rewrite firstn_length, Nat.min_r by lia. rewrite !firstn_all2 by lia. reflexivity. }
    rewrite F in Z. lra. }
  change (ngtb ROps ?a ?b) with (Rltb b a). cbn [nzero ROps].
  rewrite vdot_vdivs, E. unfold vnorm. cbn [nsqrt ROps].
  destruct (sign_div (vdot ROps col0 (firstn dim p)) (sqrt (vdot ROps p p)) (sqrt_pos _)) as [S1 S2].
  { intros Z. apply Z0. apply sqrt_eq_0; [apply vdot_nonneg|exact Z]. }
  destruct (Rltb 0 _) eqn:T.
  - apply Rltb_true in T. unfold vneg. rewrite map_app. fold (vneg ROps col0).
    rewrite firstn_app_len by (rewrite vneg_length; exact L). rewrite vdot_vneg_l.
    pose proof (S2 T). lra.
  - apply Rltb_false in T. rewrite firstn_app_len by exact L. apply S1. exact T.
Qed.

(* Rm^T Rm = I and Rm Rm^T = I, entrywise on the dim x dim block *)
Definition is_rotation (dim : nat) (Rm : list (list R)) : Prop :=
  (forall i j, (i < dim)%nat -> (j < dim)%nat ->
     sumn (fun k => mget ROps Rm k i * mget ROps Rm k j) dim = delta i j) /\
  (forall i j, (i < dim)%nat -> (j < dim)%nat ->
     sumn (fun k => mget ROps Rm i k * mget ROps Rm j k) dim = delta i j).

(* C' = Rm C Rm^T, entrywise *)
Definition conj_by (dim : nat) (Rm C C' : list (list R)) : Prop :=
  forall i j, (i < dim)%nat -> (j < dim)%nat ->
    mget ROps C' i j = sumn (fun k => sumn (fun l => mget ROps Rm i k * mget ROps C k l * mget ROps Rm j l) dim) dim.

(* Rm x *)
Definition rot_apply (dim : nat) (Rm : list (list R)) (x : list R) : list R :=
  map (fun i => sumn (fun k => mget ROps Rm i k * vcoord ROps x k) dim) (seq 0 dim).

Lemma rot_apply_length dim Rm x : length (rot_apply dim Rm x) = dim.
Proof. unfold rot_apply. rewrite map_length, seq_length. reflexivity. Qed.

Lemma vcoord_rot_apply dim Rm x i : (i < dim)%nat ->
  vcoord ROps (rot_apply dim Rm x) i = sumn (fun k => mget ROps Rm i k * vcoord ROps x k) dim.
Proof.
  intros Hi. unfold vcoord at 1, rot_apply.
  exact (nth_map_seq (fun i => sumn (fun k => mget ROps Rm i k * vcoord ROps x k) dim) dim i _ Hi).
Qed.

Lemma rotation_equivariance_partial : forall dim Rm C C' lam cols lam' cols',
  dim = 2%nat \/ dim = 3%nat ->
  is_rotation dim Rm -> conj_by dim Rm C C' ->
  eig_contract dim C (lam, cols) -> eig_contract dim C' (lam', cols') ->
  vcoord ROps lam 0 < vcoord ROps lam 1 ->
  vcoord ROps lam' 0 = vcoord ROps lam 0 /\
  (nth 0 cols' [] = rot_apply dim Rm (nth 0 cols []) \/
   nth 0 cols' [] = vneg ROps (rot_apply dim Rm (nth 0 cols []))).
Proof.
  intros dim Rm C C' lam cols lam' cols' D0 [HR1 HR2] HCj H H' Gap. assert (0 < dim)%nat as D by lia.
  destruct (contract_spectral dim C lam cols H) as (Hrow & Hcol & Hasc & HC).
  destruct (contract_spectral dim C' lam' cols' H') as (Hrow' & Hcol' & Hasc' & HC').
  destruct H' as (_ & _ & HL' & _). cbn [snd] in HL'.
  set (r := mget ROps Rm) in *. set (v := vc cols) in *. set (v' := vc cols') in *.
  (* u = Rm^T v'_0 is a unit vector with u^T C u = lam'_0;  w = Rm v_0 is a unit vector with w^T C' w = lam_0 *)
  set (u := fun k => sumn (fun i => r i k * v' 0%nat i) dim).
  set (w := fun i => sumn (fun k => r i k * v 0%nat k) dim).
  assert (sumn (fun k => u k * u k) dim = 1) as Uu.
  { rewrite <- (Hcol' 0%nat 0%nat D D : _ = 1). exact (polar dim (fun c i => r i c) HR2 (v' 0%nat) (v' 0%nat)). }
  assert (qf dim (mget ROps C) u = vcoord ROps lam' 0) as Qu.
  { unfold u. rewrite <- (qf_conj dim r (mget ROps C) (mget ROps C') (v' 0%nat) HCj).
    exact (qf_member dim v' _ _ Hcol' HC' 0%nat D). }
  assert (sumn (fun i => w i * w i) dim = 1) as Uw.
  { rewrite <- (Hcol 0%nat 0%nat D D : _ = 1). exact (polar dim r HR1 (v 0%nat) (v 0%nat)). }
  assert (qf dim (mget ROps C') w = vcoord ROps lam 0) as Qw.
  { rewrite (qf_conj dim r (mget ROps C) (mget ROps C') w HCj).
    rewrite (qf_ext dim (mget ROps C) _ (v 0%nat)); [exact (qf_member dim v _ _ Hcol HC 0%nat D)|].
    intros k Hk. rewrite <- (resolve dim r HR1 (v 0%nat) k Hk). apply sumn_ext. intros; unfold w, coef; ring. }
  pose proof (rayleigh_bound dim v _ _ Hrow Hasc HC u D Uu) as Lo.
  pose proof (rayleigh_bound dim v' _ _ Hrow' Hasc' HC' w D Uw) as Hi.
  assert (vcoord ROps lam' 0 = vcoord ROps lam 0) as E0 by lra. split; [exact E0|].
  (* u attains lam_0, so u = +- v_0, and v'_0 = Rm u *)
  assert (forall c, (0 < c < dim)%nat -> coef dim v u c = 0) as Z.
  { apply (qf_bottom dim v _ _ Hrow Hasc HC u Uu); [lra|exact Gap]. }
  assert (forall i, (i < dim)%nat -> v' 0%nat i = sumn (fun k => u k * r i k) dim) as Ev.
  { intros i Hi'. symmetry. exact (resolve dim (fun c i => r i c) HR2 (v' 0%nat) i Hi'). }
  destruct (align dim v Hrow u D Uu Z) as [E|E]; [left|right];
    (apply list_eq_coords; rewrite (HL' 0%nat D); [rewrite ?vneg_length, rot_apply_length; reflexivity|]); intros i Hi';
    rewrite ?vcoord_vneg, vcoord_rot_apply by exact Hi';
    change (vcoord ROps (nth 0 cols' []) i) with (v' 0%nat i); rewrite (Ev i Hi').
  - apply sumn_ext. intros k Hk. rewrite (E k Hk). unfold v, vc, r. ring.
  - rewrite <- sumn_opp. apply sumn_ext. intros k Hk. rewrite (E k Hk). unfold v, vc, r. ring.
Qed.

(* rotate the Cartesian part (first dim entries), keep the rest (w) *)
Definition rot_point (dim : nat) (Rm : list (list R)) (q : list R) : list R :=
  rot_apply dim Rm q ++ skipn dim q.

Lemma rot_point_length dim Rm q : (dim <= length q)%nat -> length (rot_point dim Rm q) = length q.
Proof. intros H. unfold rot_point. rewrite app_length, rot_apply_length, skipn_length. lia. Qed.

Lemma rot_point_firstn dim Rm q : firstn dim (rot_point dim Rm q) = rot_apply dim Rm q.
Proof. apply firstn_app_len. apply rot_apply_length. Qed.

Lemma vcoord_rot_point dim Rm q i : (i < dim)%nat ->
  vcoord ROps (rot_point dim Rm q) i = sumn (fun k => mget ROps Rm i k * vcoord ROps q k) dim.
Proof.
  intros Hi. unfold vcoord at 1. unfold rot_point. rewrite app_nth1 by (rewrite rot_apply_length; exact Hi).
  unfold rot_apply. rewrite nth_map_seq by exact Hi. reflexivity.
Qed.

(* a centred rotated neighbour is the rotated centred neighbour (Cartesian coordinates) *)
Lemma centred_rot dim size Rm nb q i :
  (dim <= size)%nat -> (forall q, In q nb -> length q = size) ->
  In q nb -> (i < dim)%nat ->
  vcoord ROps (vsub ROps (rot_point dim Rm q) (mean ROps size (map (rot_point dim Rm) nb))) i
  = sumn (fun k => mget ROps Rm i k * vcoord ROps (vsub ROps q (mean ROps size nb)) k) dim.
Proof.
  intros Ds Hl Hq Hi.
  assert (forall q', In q' (map (rot_point dim Rm) nb) -> length q' = size) as Hl'.
  { intros q' Hq'. apply in_map_iff in Hq'. destruct Hq' as (q0 & <- & H0).
    rewrite rot_point_length; rewrite (Hl q0 H0); lia. }
  destruct (mean_coord size nb Hl) as [Lm Mc]. destruct (mean_coord size _ Hl') as [Lm' Mc'].
  rewrite vcoord_vsub by (rewrite Lm', rot_point_length; rewrite (Hl q Hq); lia).
  rewrite Mc', map_length, lsum_map, vcoord_rot_point by exact Hi.
  rewrite (lsum_ext_in _ (fun q0 => sumn (fun k => mget ROps Rm i k * vcoord ROps q0 k) dim))
    by (intros q0 _; apply vcoord_rot_point; exact Hi).
  rewrite lsum_sumn.
  rewrite (sumn_ext (fun k => _ * vcoord ROps (vsub ROps q (mean ROps size nb)) k)
             (fun k => mget ROps Rm i k * vcoord ROps q k
                       + - / INR (length nb) * lsum (fun q0 => mget ROps Rm i k * vcoord ROps q0 k) nb)).
  2:{ intros k _. rewrite vcoord_vsub, Mc, lsum_scal by (rewrite Lm; apply Hl; exact Hq). unfold Rdiv. ring. }
  rewrite sumn_plus, sumn_scal. unfold Rdiv. ring.
Qed.

(* the covariance of the rotated cloud is Rm C Rm^T — for any matrix Rm *)
Lemma covariance_rotated dim size Rm nb :
  dim = 2%nat \/ dim = 3%nat -> (dim <= size)%nat -> (forall q, In q nb -> length q = size) ->
  conj_by dim Rm (covariance ROps dim size nb) (covariance ROps dim size (map (rot_point dim Rm) nb)).
Proof.
  intros _ Ds Hl i j Hi Hj.
  rewrite mget_covariance, cov_entry_lsum, scalar_INR, map_length by assumption.
  rewrite lsum_map, lsum_map. set (m := mean ROps size nb).
  rewrite (lsum_ext_in _ (fun q => sumn (fun k => mget ROps Rm i k * vcoord ROps (vsub ROps q m) k) dim
                                   * sumn (fun l => vcoord ROps (vsub ROps q m) l * mget ROps Rm j l) dim)).
  2:{ intros q Hq. rewrite !(centred_rot dim size Rm nb q) by assumption. fold m. f_equal.
      apply sumn_ext. intros; ring. }
  rewrite <- bil_lsum. unfold Rdiv. rewrite Rmult_comm, <- sumn_scal. apply sumn_ext. intros k Hk.
  rewrite <- sumn_scal. apply sumn_ext. intros l Hl'.
  rewrite mget_covariance, cov_entry_lsum, scalar_INR, lsum_map by assumption. fold m. unfold Rdiv. ring.
Qed.

(* rotations preserve the dot product *)
Lemma rot_dot dim Rm x p : is_rotation dim Rm -> length x = dim ->
  vdot ROps (rot_apply dim Rm x) (rot_apply dim Rm p) = vdot ROps x (firstn dim p).
Proof.
  intros [HR1 _] Lx.
  rewrite (vdot_sumn _ _ dim), vdot_comm, (dot_firstn dim p x Lx) by (rewrite rot_apply_length; lia).
  rewrite (sumn_ext _ (fun c => coef dim (mget ROps Rm) (vcoord ROps p) c * coef dim (mget ROps Rm) (vcoord ROps x) c)).
  - apply (polar dim _ HR1).
  - intros c Hc. rewrite !vcoord_rot_apply by exact Hc. unfold coef. ring.
Qed.

Lemma rot_apply_vneg dim Rm x : rot_apply dim Rm (vneg ROps x) = vneg ROps (rot_apply dim Rm x).
Proof.
  unfold rot_apply, vneg at 2. rewrite map_map. apply map_ext. intros i. cbn [nneg ROps].
  rewrite <- sumn_opp. apply sumn_ext. intros k _. rewrite vcoord_vneg. ring.
Qed.

Lemma vneg_vneg x : vneg ROps (vneg ROps x) = x.
Proof. unfold vneg. cbn [nneg ROps]. apply map_opp_opp. Qed.

(* the eigenvalue sum is the trace, and the trace is invariant under conjugation by a rotation *)
Lemma trace_contract dim C lam cols : eig_contract dim C (lam, cols) ->
  vsum ROps lam = sumn (fun i => mget ROps C i i) dim.
Proof.
  intros H. destruct (contract_spectral dim C lam cols H) as (_ & Hcol & _ & HC).
  destruct H as (Ll & _). cbn [fst] in Ll. rewrite vsum_sumn, Ll.
  rewrite (sumn_ext (fun i => mget ROps C i i) _ dim (fun i Hi => HC i i Hi Hi)), sumn_swap.
  apply sumn_ext. intros c Hc.
  rewrite (sumn_ext _ (fun i => vcoord ROps lam c * (vc cols c i * vc cols c i))) by (intros; ring).
  rewrite sumn_scal, (Hcol c c Hc Hc). unfold delta. rewrite Nat.eqb_refl. ring.
Qed.

Lemma trace_conj dim Rm C C' : is_rotation dim Rm -> conj_by dim Rm C C' ->
  sumn (fun i => mget ROps C' i i) dim = sumn (fun i => mget ROps C i i) dim.
Proof.
  intros [HR1 _] HC.
  rewrite (sumn_ext _ _ dim (fun i Hi => HC i i Hi Hi)), sumn_swap. apply sumn_ext. intros k Hk.
  rewrite sumn_swap. rewrite (sumn_ext _ (fun l => delta k l * mget ROps C k l)); [apply sumn_delta; exact Hk|].
  intros l Hl. rewrite <- (HR1 k l Hk Hl), Rmult_comm, <- sumn_scal. apply sumn_ext. intros; ring.
Qed.

Lemma e_lambda_fst eig dim size p nb nin :
  e_lambda (estimate_point ROps eig false dim size p nb nin) = fst (eig (covariance ROps dim size nb)).
Proof. unfold estimate_point. destruct (eig (covariance ROps dim size nb)); reflexivity. Qed.

(* rotating the neighbours and the point about the sensor: lambda_0 and the curvature are unchanged and the new normal is
   +- the rotated old one whenever lambda_0 is simple; the sign is + whenever the old normal is not tangent to the line of sight
   (n . p <> 0); for n . p = 0 the code keeps the sign the solver returned, which the contract does not fix *)
Lemma rotation_equivariance_any_sign : forall eig dim size p nb normal_in normal_in' Rm,
  dim = 2%nat \/ dim = 3%nat -> is_rotation dim Rm ->
  (dim <= size)%nat -> (forall q, In q nb -> length q = size) ->
  let nb' := map (rot_point dim Rm) nb in
  let p' := rot_point dim Rm p in
  eig_contract dim (covariance ROps dim size nb) (eig (covariance ROps dim size nb)) ->
  eig_contract dim (covariance ROps dim size nb') (eig (covariance ROps dim size nb')) ->
  let e := estimate_point ROps eig false dim size p nb normal_in in
  let e' := estimate_point ROps eig false dim size p' nb' normal_in' in
  vcoord ROps (e_lambda e) 0 < vcoord ROps (e_lambda e) 1 ->
  (firstn dim (e_normal e') = rot_apply dim Rm (firstn dim (e_normal e)) \/
   firstn dim (e_normal e') = vneg ROps (rot_apply dim Rm (firstn dim (e_normal e)))) /\
  (vdot ROps (firstn dim (e_normal e)) (firstn dim p) <> 0 ->
   firstn dim (e_normal e') = rot_apply dim Rm (firstn dim (e_normal e))) /\
  vcoord ROps (e_lambda e') 0 = vcoord ROps (e_lambda e) 0 /\
  e_curvature e' = e_curvature e.
Proof.
  intros eig dim size p nb normal_in normal_in' Rm D HR Ds Hl. cbv zeta. intros H H'.
  pose proof (normal_faces_sensor eig dim size p nb normal_in D H) as F.
  pose proof (normal_faces_sensor eig dim size (rot_point dim Rm p) _ normal_in' D H') as F'.
  cbv zeta in F, F'. rewrite rot_point_firstn in F'.
  destruct (normal_cases eig dim size p nb normal_in D H) as (-> & -> & L & _ & Hn).
  destruct (normal_cases eig dim size (rot_point dim Rm p) _ normal_in' D H') as (-> & -> & L' & _ & Hn').
  pose proof (covariance_rotated dim size Rm nb D Ds Hl) as HC.
  set (C := covariance ROps dim size nb) in *.
  set (C' := covariance ROps dim size (map (rot_point dim Rm) nb)) in *.
  destruct (eig C) as [lam cols]. destruct (eig C') as [lam' cols']. cbn [fst snd] in *.
  intros Gap.
  destruct (rotation_equivariance_partial dim Rm C C' lam cols lam' cols' D HR HC H H' Gap) as (E0 & Hv).
  set (n := firstn dim (e_normal (estimate_point ROps eig false dim size p nb normal_in))) in *.
  set (n' := firstn dim (e_normal (estimate_point ROps eig false dim size (rot_point dim Rm p)
                                                  (map (rot_point dim Rm) nb) normal_in'))) in *.
  assert (length n = dim) as Ln.
  { destruct Hn as [[-> _]|[-> _]]; [exact L|rewrite vneg_length; exact L]. }
  assert (n' = rot_apply dim Rm n \/ n' = vneg ROps (rot_apply dim Rm n)) as Hc.
  { destruct Hn as [[-> _]|[-> _]]; destruct Hn' as [[-> _]|[-> _]]; destruct Hv as [->| ->];
      rewrite ?rot_apply_vneg, ?vneg_vneg; auto. }
  split; [exact Hc|]. split; [|split; [exact E0|]].
  - intros NZ. destruct Hc as [->|Eq]; [reflexivity|exfalso].
    rewrite Eq, vdot_vneg_l, (rot_dot dim Rm n p HR Ln) in F'. lra.
  - unfold curvature. cbn [ndiv ROps]. rewrite E0.
    rewrite (trace_contract dim C lam cols H), (trace_contract dim C' lam' cols' H').
    rewrite (trace_conj dim Rm C C' HR HC). reflexivity.
Qed.

(* the sign is settled when the normal is not tangent to the line of sight *)
Lemma rotation_equivariance : forall eig dim size p nb normal_in normal_in' Rm,
  dim = 2%nat \/ dim = 3%nat -> is_rotation dim Rm ->
  (dim <= size)%nat -> (forall q, In q nb -> length q = size) ->
  let nb' := map (rot_point dim Rm) nb in
  let p' := rot_point dim Rm p in
  eig_contract dim (covariance ROps dim size nb) (eig (covariance ROps dim size nb)) ->
  eig_contract dim (covariance ROps dim size nb') (eig (covariance ROps dim size nb')) ->
  let e := estimate_point ROps eig false dim size p nb normal_in in
  let e' := estimate_point ROps eig false dim size p' nb' normal_in' in
  vcoord ROps (e_lambda e) 0 < vcoord ROps (e_lambda e) 1 ->
  vdot ROps (firstn dim (e_normal e)) (firstn dim p) <> 0 ->
  firstn dim (e_normal e') = rot_apply dim Rm (firstn dim (e_normal e)) /\
  vcoord ROps (e_lambda e') 0 = vcoord ROps (e_lambda e) 0 /\
  e_curvature e' = e_curvature e.
Proof.
  intros eig dim size p nb normal_in normal_in' Rm D HR Ds Hl. cbv zeta. intros H H' Gap NZ.
  destruct (rotation_equivariance_any_sign eig dim size p nb normal_in normal_in' Rm D HR Ds Hl H H' Gap) as (_ & A & B).
  split; [exact (A NZ)|exact B].
Qed.

(* two clouds given by index, [pt' i] being [pt i] turned by Rm, estimated at point j from the same neighbour indexes *)
Lemma rotation_equivariance_indexed {I : Type} eig dim size (pt pt' : I -> list R) Rm :
  dim = 2%nat \/ dim = 3%nat -> is_rotation dim Rm -> (dim <= size)%nat ->
  (forall i, length (pt i) = size) -> (forall i, pt' i = rot_point dim Rm (pt i)) ->
  forall nbi j normal_in normal_in',
  eig_contract dim (covariance ROps dim size (map pt nbi)) (eig (covariance ROps dim size (map pt nbi))) ->
  eig_contract dim (covariance ROps dim size (map pt' nbi)) (eig (covariance ROps dim size (map pt' nbi))) ->
  let lam := fst (eig (covariance ROps dim size (map pt nbi))) in
  vcoord ROps lam 0 < vcoord ROps lam 1 ->
  let e := estimate_point ROps eig false dim size (pt j) (map pt nbi) normal_in in
  let e' := estimate_point ROps eig false dim size (pt' j) (map pt' nbi) normal_in' in
  let n := firstn dim (e_normal e) in
  let n' := firstn dim (e_normal e') in
  (n' = rot_apply dim Rm n \/ n' = vneg ROps (rot_apply dim Rm n)) /\
  (vdot ROps n (firstn dim (pt j)) <> 0 -> n' = rot_apply dim Rm n) /\
  e_curvature e' = e_curvature e.
Proof.
  intros D HR Ds Hl Hrot nbi j nin nin' Hc Hc'. cbv zeta. intros Gap.
  assert (Hmap : map pt' nbi = map (rot_point dim Rm) (map pt nbi)).
  { rewrite map_map. apply map_ext. exact Hrot. }
  rewrite Hmap in *. rewrite Hrot. rewrite <- (e_lambda_fst eig dim size (pt j) _ nin) in Gap.
  assert (Hlen : forall q, In q (map pt nbi) -> length q = size).
  { intros q Hq. apply in_map_iff in Hq. destruct Hq as [i [<- _]]. apply Hl. }
  destruct (rotation_equivariance_any_sign eig dim size (pt j) (map pt nbi) nin nin' Rm D HR Ds Hlen Hc Hc' Gap)
    as (A1 & A2 & _ & A4).
  auto.
Qed.
