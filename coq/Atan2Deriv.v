(* Atan2Deriv.v — C12, read first (then DerivProofs, PoseJacProofs, PoseJacDeriv, PoseJacCharts): the derivative of atan2 (the real instance Ratan2 of the numeric dictionary) along a
   differentiable path, on its whole domain of differentiability: everywhere except the branch cut
   {y = 0, x <= 0} (which contains the origin).  Proved chart by chart:
     x > 0 : atan2 y x = atan (y/x);   y > 0 : atan2 y x = pi/2 - atan (x/y);   y < 0 : atan2 y x = -pi/2 - atan (x/y);
   the three open half-planes cover the complement of the cut, and a path that is differentiable at t stays in
   the half-plane of its value at t for nearby parameters.
   Also: strict range off the cut, the antipodal identity atan2 y x = atan2 (-y) (-x) +- pi, used to
   differentiate angles modulo 2 pi across the cut. *)
From Coq Require Import Reals Lra Psatz.
From Coquelicot Require Import Coquelicot.
From Romea Require Import Num NumR.
Local Open Scope R_scope.

(* (y, x) is not on the branch cut of atan2 (the closed negative x axis, origin included) *)
Definition off_cut (y x : R) : Prop := ~ (y = 0 /\ x <= 0).

Lemma off_cut_cases y x : off_cut y x <-> 0 < x \/ 0 < y \/ y < 0.
Proof.
  unfold off_cut. split.
  - intros H. destruct (Rlt_dec 0 x) as [|Nx]; [left; assumption|right].
    destruct (Rtotal_order y 0) as [L|[E|G]]; [right; assumption| |left; assumption].
    exfalso. apply H. split; lra.
  - intros [H|[H|H]] [E L]; lra.
Qed.

(* a point off a closed half of the x axis that contains the origin is not the origin *)
Lemma off_axis_nonzero (P : R -> Prop) y x : P 0 -> ~ (y = 0 /\ P x) -> y <> 0 \/ x <> 0.
Proof.
  intros P0 H. destruct (Req_dec y 0) as [E|N]; [right|left; exact N].
  intros E2. apply H. split; [exact E|rewrite E2; exact P0].
Qed.

Lemma nonzero_norm y x : y <> 0 \/ x <> 0 -> 0 < y * y + x * x.
Proof. intros [H|H]; nra. Qed.

Lemma off_cut_norm y x : off_cut y x -> 0 < y * y + x * x.
Proof. intros H. exact (nonzero_norm y x (off_axis_nonzero (fun x => x <= 0) y x (Rle_refl 0) H)). Qed.

(* ---------------- the three charts ---------------- *)
Lemma Ratan2_xpos y x : 0 < x -> Ratan2 y x = atan (y / x).
Proof. intros H. unfold Ratan2. destruct (Rlt_dec 0 x); [reflexivity|contradiction]. Qed.

Lemma atan_inv_neg u : u < 0 -> atan (/ u) = - PI / 2 - atan u.
Proof.
  intros H. replace (/ u) with (- / (- u)) by (field; lra).
  rewrite atan_opp, atan_inv by lra. rewrite atan_opp. lra.
Qed.

Lemma quot_neg_l a b : a < 0 -> 0 < b -> a / b < 0.
Proof. intros Ha Hb. unfold Rdiv. assert (0 < / b) by (apply Rinv_0_lt_compat; lra). nra. Qed.
Lemma quot_neg_r a b : 0 < a -> b < 0 -> a / b < 0.
Proof. intros Ha Hb. unfold Rdiv. assert (/ b < 0) by (apply Rinv_lt_0_compat; lra). nra. Qed.
Lemma quot_neg_neg a b : a < 0 -> b < 0 -> 0 < a / b.
Proof. intros Ha Hb. unfold Rdiv. assert (/ b < 0) by (apply Rinv_lt_0_compat; lra). nra. Qed.

Lemma Ratan2_ypos y x : 0 < y -> Ratan2 y x = PI / 2 - atan (x / y).
Proof.
  intros Hy. unfold Ratan2.
  destruct (Rlt_dec 0 x) as [Hx|Hx].
  - replace (y / x) with (/ (x / y)) by (field; lra). apply atan_inv. apply Rdiv_lt_0_compat; lra.
  - destruct (Rlt_dec x 0) as [Hx2|Hx2].
    + destruct (Rle_dec 0 y) as [_|N]; [|lra].
      replace (y / x) with (/ (x / y)) by (field; lra).
      rewrite atan_inv_neg by (apply quot_neg_l; lra). lra.
    + assert (x = 0) by lra. subst x.
      destruct (Rlt_dec 0 y) as [_|N]; [|lra]. unfold Rdiv. rewrite Rmult_0_l, atan_0. lra.
Qed.

Lemma Ratan2_yneg y x : y < 0 -> Ratan2 y x = - PI / 2 - atan (x / y).
Proof.
  intros Hy. unfold Ratan2.
  destruct (Rlt_dec 0 x) as [Hx|Hx].
  - replace (y / x) with (/ (x / y)) by (field; lra). apply atan_inv_neg. apply quot_neg_r; lra.
  - destruct (Rlt_dec x 0) as [Hx2|Hx2].
    + destruct (Rle_dec 0 y) as [N|_]; [lra|].
      replace (y / x) with (/ (x / y)) by (field; lra).
      rewrite atan_inv by (apply quot_neg_neg; lra). lra.
    + assert (x = 0) by lra. subst x.
      destruct (Rlt_dec 0 y) as [N|_]; [lra|]. destruct (Rlt_dec y 0) as [_|N]; [|lra].
      unfold Rdiv. rewrite Rmult_0_l, atan_0. lra.
Qed.

(* ---------------- strict range off the cut; the value pi is taken exactly on the cut minus the origin ---------------- *)
Lemma Ratan2_range_off_cut y x : off_cut y x -> - PI < Ratan2 y x < PI.
Proof.
  intros H. apply off_cut_cases in H. pose proof PI_RGT_0 as Hpi.
  destruct H as [H|[H|H]].
  - rewrite Ratan2_xpos by assumption. pose proof (atan_bound (y / x)). lra.
  - rewrite Ratan2_ypos by assumption. pose proof (atan_bound (x / y)). lra.
  - rewrite Ratan2_yneg by assumption. pose proof (atan_bound (x / y)). lra.
Qed.

Lemma Ratan2_on_cut x : x < 0 -> Ratan2 0 x = PI.
Proof.
  intros H. unfold Ratan2. destruct (Rlt_dec 0 x) as [N|_]; [lra|]. destruct (Rlt_dec x 0) as [_|N]; [|lra].
  destruct (Rle_dec 0 0) as [_|N]; [|lra]. unfold Rdiv. rewrite Rmult_0_l, atan_0. lra.
Qed.

(* ---------------- antipodal identity: turning the point by pi shifts the angle by +-pi ---------------- *)
Lemma Ratan2_antipode y x : x <> 0 \/ y <> 0 ->
  Ratan2 y x = Ratan2 (- y) (- x) + PI \/ Ratan2 y x = Ratan2 (- y) (- x) - PI.
Proof.
  intros Hne.
  assert (Q : forall a b, b <> 0 -> - a / - b = a / b) by (intros; field; assumption).
  assert (Z : forall b, atan (0 / b) = 0) by (intros; unfold Rdiv; rewrite Rmult_0_l; apply atan_0).
  destruct (Rtotal_order y 0) as [Hy|[Hy|Hy]].
  - right. rewrite (Ratan2_yneg y x Hy), (Ratan2_ypos (- y) (- x)), Q by lra. lra.
  - subst y. rewrite Ropp_0. destruct (Rtotal_order x 0) as [Hx|[Hx|Hx]]; [left| |right].
    + rewrite (Ratan2_on_cut x Hx), Ratan2_xpos, Z by lra. lra.
    + destruct Hne; contradiction.
    + rewrite (Ratan2_xpos 0 x Hx), Ratan2_on_cut, Z by lra. lra.
  - left. rewrite (Ratan2_ypos y x Hy), (Ratan2_yneg (- y) (- x)), Q by lra. lra.
Qed.

(* ---------------- a path differentiable at t stays on its side of a level near t ---------------- *)
Lemma locally_gt (w : R -> R) t dw a : is_derive w t dw -> a < w t -> locally t (fun s => a < w s).
Proof.
  intros Hw H.
  assert (Hc : continuous w t).
  { apply (@ex_derive_continuous R_AbsRing R_NormedModule w t). exists dw. exact Hw. }
  exact (Hc (fun y : R => a < y) (open_gt a (w t) H)).
Qed.

Lemma locally_lt (w : R -> R) t dw a : is_derive w t dw -> w t < a -> locally t (fun s => w s < a).
Proof.
  intros Hw H. generalize (locally_gt (fun s => - w s) t (- dw) (- a) (is_derive_opp w t dw Hw) ltac:(lra)).
  apply filter_imp. intros s Hs. lra.
Qed.

(* the complement of the cut is open along the path *)
Lemma locally_off_cut (u v : R -> R) t du dv :
  is_derive u t du -> is_derive v t dv -> off_cut (u t) (v t) -> locally t (fun s => off_cut (u s) (v s)).
Proof.
  intros Hu Hv H. apply off_cut_cases in H. destruct H as [H|[H|H]].
  - generalize (locally_gt v t dv 0 Hv H). apply filter_imp. intros s Hs. apply off_cut_cases. left. exact Hs.
  - generalize (locally_gt u t du 0 Hu H). apply filter_imp. intros s Hs. apply off_cut_cases. right. left. exact Hs.
  - generalize (locally_lt u t du 0 Hu H). apply filter_imp. intros s Hs. apply off_cut_cases. right. right. exact Hs.
Qed.

(* ---------------- derivative of atan of a quotient ---------------- *)
Lemma is_derive_atan_quot (u v : R -> R) t du dv :
  is_derive u t du -> is_derive v t dv -> v t <> 0 ->
  is_derive (fun s => atan (u s / v s)) t ((v t * du - u t * dv) / (u t * u t + v t * v t)).
Proof.
  intros Hu Hv Hne.
  evar_last.
  - apply (is_derive_comp atan (fun s => u s / v s)).
    + apply is_derive_atan.
    + apply is_derive_div; [exact Hu|exact Hv|exact Hne].
  - unfold scal, opp; simpl; unfold mult, opp; simpl. unfold Rsqr. field. split; [nra|exact Hne].
Qed.

(* the charts y > 0 and y < 0: a constant minus the angle of the point mirrored in the diagonal *)
Lemma is_derive_const_minus_atan_quot c (u v : R -> R) t du dv :
  is_derive u t du -> is_derive v t dv -> u t <> 0 ->
  is_derive (fun s => c - atan (v s / u s)) t ((v t * du - u t * dv) / (u t * u t + v t * v t)).
Proof.
  intros Hu Hv Hne. evar_last.
  - apply (is_derive_minus (fun _ => c) (fun s => atan (v s / u s))).
    + apply is_derive_const.
    + apply is_derive_atan_quot; [exact Hv|exact Hu|exact Hne].
  - unfold minus, plus, opp, zero; simpl. field. nra.
Qed.

(* ---------------- the derivative of atan2 along a path, off the cut ---------------- *)
Theorem is_derive_Ratan2 (u v : R -> R) t du dv :
  is_derive u t du -> is_derive v t dv -> off_cut (u t) (v t) ->
  is_derive (fun s => Ratan2 (u s) (v s)) t ((v t * du - u t * dv) / (u t * u t + v t * v t)).
Proof.
  intros Hu Hv Hoff. apply off_cut_cases in Hoff. destruct Hoff as [H|[H|H]].
  - apply (is_derive_ext_loc (fun s => atan (u s / v s))).
    + generalize (locally_gt v t dv 0 Hv H). apply filter_imp. intros s Hs. symmetry. apply Ratan2_xpos. exact Hs.
    + apply is_derive_atan_quot; [exact Hu|exact Hv|lra].
  - apply (is_derive_ext_loc (fun s => PI / 2 - atan (v s / u s))).
    + generalize (locally_gt u t du 0 Hu H). apply filter_imp. intros s Hs. symmetry. apply Ratan2_ypos. exact Hs.
    + apply is_derive_const_minus_atan_quot; [exact Hu|exact Hv|lra].
  - apply (is_derive_ext_loc (fun s => - PI / 2 - atan (v s / u s))).
    + generalize (locally_lt u t du 0 Hu H). apply filter_imp. intros s Hs. symmetry. apply Ratan2_yneg. exact Hs.
    + apply is_derive_const_minus_atan_quot; [exact Hu|exact Hv|lra].
Qed.

(* below the cut (y < 0, x < 0) atan2 stays under - PI / 2 while it is PI on the cut (Ratan2_on_cut): no limit there *)
Lemma Ratan2_below_cut y x : x < 0 -> y < 0 -> Ratan2 y x < - PI / 2.
Proof.
  intros Hx Hy. rewrite Ratan2_yneg by assumption.
  assert (0 < atan (x / y)) by (rewrite <- atan_0; apply atan_increasing; apply quot_neg_neg; assumption). lra.
Qed.

(* ... but the angle modulo 2 pi is differentiable there too: the antipodal point is off the cut *)
Theorem is_derive_Ratan2_antipode (u v : R -> R) t du dv :
  is_derive u t du -> is_derive v t dv -> off_cut (- u t) (- v t) ->
  is_derive (fun s => PI + Ratan2 (- u s) (- v s)) t ((v t * du - u t * dv) / (u t * u t + v t * v t)).
Proof.
  intros Hu Hv Hoff. evar_last.
  - apply (is_derive_plus (fun _ => PI) (fun s => Ratan2 (- u s) (- v s))).
    + apply is_derive_const.
    + apply (is_derive_Ratan2 (fun s => - u s) (fun s => - v s) t (- du) (- dv)).
      * apply (is_derive_opp u t du Hu).
      * apply (is_derive_opp v t dv Hv).
      * exact Hoff.
  - unfold plus, zero; simpl. pose proof (off_cut_norm _ _ Hoff). field. lra.
Qed.
