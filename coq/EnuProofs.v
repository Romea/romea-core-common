(* EnuProofs.v — lemmas about EnuModel.v (C02). *)
From Coq Require Import Reals ZArith List Bool Lra.
From Romea Require Import Num NumR GeodesyModel GeodesyProofs EnuModel.
Import ListNotations.
Local Open Scope R_scope.

(* 3x3 algebra over R, used by the statements only: the model computes with mat3_mulv and mat3_inverse *)
Definition mat3_transpose (m : mat3 (T:=R)) : mat3 (T:=R) :=
  mkM3 (m00 m) (m10 m) (m20 m) (m01 m) (m11 m) (m21 m) (m02 m) (m12 m) (m22 m).

Definition mat3_mul (p q : mat3 (T:=R)) : mat3 (T:=R) :=
  mkM3 (m00 p * m00 q + m01 p * m10 q + m02 p * m20 q) (m00 p * m01 q + m01 p * m11 q + m02 p * m21 q)
       (m00 p * m02 q + m01 p * m12 q + m02 p * m22 q)
       (m10 p * m00 q + m11 p * m10 q + m12 p * m20 q) (m10 p * m01 q + m11 p * m11 q + m12 p * m21 q)
       (m10 p * m02 q + m11 p * m12 q + m12 p * m22 q)
       (m20 p * m00 q + m21 p * m10 q + m22 p * m20 q) (m20 p * m01 q + m21 p * m11 q + m22 p * m21 q)
       (m20 p * m02 q + m21 p * m12 q + m22 p * m22 q).

Definition mat3_det (m : mat3 (T:=R)) : R :=
  m00 m * (m11 m * m22 m - m12 m * m21 m) - m01 m * (m10 m * m22 m - m12 m * m20 m)
  + m02 m * (m10 m * m21 m - m11 m * m20 m).

Definition col (m : mat3 (T:=R)) (j : nat) : vec3 (T:=R) :=
  match j with
  | O => mkV3 (m00 m) (m10 m) (m20 m)
  | S O => mkV3 (m01 m) (m11 m) (m21 m)
  | _ => mkV3 (m02 m) (m12 m) (m22 m)
  end.

Definition dist2 (p q : vec3 (T:=R)) : R :=
  (vx p - vx q) * (vx p - vx q) + (vy p - vy q) * (vy p - vy q) + (vz p - vz q) * (vz p - vz q).

Lemma mat3_eq (p q : mat3 (T:=R)) :
  m00 p = m00 q -> m01 p = m01 q -> m02 p = m02 q -> m10 p = m10 q -> m11 p = m11 q -> m12 p = m12 q ->
  m20 p = m20 q -> m21 p = m21 q -> m22 p = m22 q -> p = q.
Proof. destruct p, q; cbn; intros; subst; reflexivity. Qed.

Lemma vec3_eq (p q : vec3 (T:=R)) : vx p = vx q -> vy p = vy q -> vz p = vz q -> p = q.
Proof. destruct p, q; cbn; intros; subst; reflexivity. Qed.

Lemma mat3_transpose_involutive m : mat3_transpose (mat3_transpose m) = m.
Proof. destruct m; reflexivity. Qed.

Lemma mat3_mulv_mul p q v : mat3_mulv ROps p (mat3_mulv ROps q v) = mat3_mulv ROps (mat3_mul p q) v.
Proof. apply vec3_eq; cbn; ring. Qed.

Lemma mat3_mulv_id v : mat3_mulv ROps (mat3_id ROps) v = v.
Proof. apply vec3_eq; cbn; ring. Qed.

Lemma mat3_mulv_cancel p q v : mat3_mul p q = mat3_id ROps -> mat3_mulv ROps p (mat3_mulv ROps q v) = v.
Proof. intros H. rewrite mat3_mulv_mul, H. apply mat3_mulv_id. Qed.

(* |m p - m q|^2 = d . (m^T m) d with d = p - q *)
Lemma dist2_mulv_gram m p q :
  dist2 (mat3_mulv ROps m p) (mat3_mulv ROps m q) =
  let d := mkV3 (vx p - vx q) (vy p - vy q) (vz p - vz q) in
  let gd := mat3_mulv ROps (mat3_mul (mat3_transpose m) m) d in
  vx d * vx gd + vy d * vy gd + vz d * vz gd.
Proof. unfold dist2. cbn. ring. Qed.

Lemma dist2_mulv m p q : mat3_mul (mat3_transpose m) m = mat3_id ROps ->
  dist2 (mat3_mulv ROps m p) (mat3_mulv ROps m q) = dist2 p q.
Proof. intros H. rewrite dist2_mulv_gram, H. cbv zeta. rewrite mat3_mulv_id. reflexivity. Qed.

Lemma vec3_add_neg v t : vec3_add ROps (vec3_add ROps v t) (vec3_neg ROps t) = v.
Proof. apply vec3_eq; cbn; ring. Qed.

Lemma vec3_neg_add v t : vec3_add ROps (vec3_add ROps v (vec3_neg ROps t)) t = v.
Proof. apply vec3_eq; cbn; ring. Qed.

Lemma dist2_translate p q t : dist2 (vec3_add ROps p t) (vec3_add ROps q t) = dist2 p q.
Proof. unfold dist2. cbn. ring. Qed.

Section Frame.
Variables lat lon : R.

(* each entry is a polynomial identity in sin, cos of lat and lon modulo cos^2 = 1 - sin^2 *)
Lemma frame_orthonormal :
  mat3_mul (mat3_transpose (frame_rotation ROps lat lon)) (frame_rotation ROps lat lon) = mat3_id ROps.
Proof. apply mat3_eq; cbn; ring [(cos_sq_eq lat) (cos_sq_eq lon)]. Qed.

Lemma frame_orthonormal_rows :
  mat3_mul (frame_rotation ROps lat lon) (mat3_transpose (frame_rotation ROps lat lon)) = mat3_id ROps.
Proof. apply mat3_eq; cbn; ring [(cos_sq_eq lat) (cos_sq_eq lon)]. Qed.

Lemma frame_det : mat3_det (frame_rotation ROps lat lon) = 1.
Proof. unfold mat3_det; cbn; ring [(cos_sq_eq lat) (cos_sq_eq lon)]. Qed.

(* Eigen's cofactor inverse of the frame matrix is its transpose: the determinant it divides by is 1 *)
Lemma frame_inverse_is_transpose :
  mat3_inverse ROps (frame_rotation ROps lat lon) = mat3_transpose (frame_rotation ROps lat lon).
Proof.
  unfold mat3_inverse, cof. cbn.
  match goal with |- context [1 / ?d] => replace d with 1 by ring [(cos_sq_eq lat) (cos_sq_eq lon)] end.
  unfold Rdiv. rewrite Rinv_1, !Rmult_1_r.
  apply mat3_eq; cbn; ring [(cos_sq_eq lat) (cos_sq_eq lon)].
Qed.

(* the up column is the ellipsoid normal of C01 *)
Lemma frame_up_is_normal : col (frame_rotation ROps lat lon) 2 = normal lat lon.
Proof. reflexivity. Qed.

End Frame.

(* a converter whose 3x3 block is orthogonal and inverted by transposition: an anchored one is *)
Definition rigid (s : enu_state (T:=R)) : Prop :=
  mat3_inverse ROps (s_rot s) = mat3_transpose (s_rot s) /\
  mat3_mul (mat3_transpose (s_rot s)) (s_rot s) = mat3_id ROps /\
  mat3_mul (s_rot s) (mat3_transpose (s_rot s)) = mat3_id ROps.

Lemma set_anchor_rigid s0 g : rigid (set_anchor ROps s0 g).
Proof.
  exact (conj (frame_inverse_is_transpose _ _) (conj (frame_orthonormal _ _) (frame_orthonormal_rows _ _))).
Qed.

(* toENU(translation) = 0, whatever the 3x3 block *)
Lemma ecef_to_enu_trans s : ecef_to_enu ROps s (s_trans s) = mkV3 0 0 0.
Proof. apply vec3_eq; cbn; ring. Qed.

Section Rigid.
Variable s : enu_state (T:=R).
Hypothesis Hs : rigid s.

Lemma rigid_ecef_to_enu p :
  ecef_to_enu ROps s p = mat3_mulv ROps (mat3_transpose (s_rot s)) (vec3_add ROps p (vec3_neg ROps (s_trans s))).
Proof. unfold ecef_to_enu. rewrite (proj1 Hs). apply vec3_eq; cbn; ring. Qed.

Lemma enu_of_ecef_of_enu e : ecef_to_enu ROps s (enu_to_ecef ROps s e) = e.
Proof.
  rewrite rigid_ecef_to_enu. unfold enu_to_ecef. rewrite vec3_add_neg. apply mat3_mulv_cancel, Hs.
Qed.

Lemma ecef_of_enu_of_ecef p : enu_to_ecef ROps s (ecef_to_enu ROps s p) = p.
Proof.
  rewrite rigid_ecef_to_enu. unfold enu_to_ecef. rewrite mat3_mulv_cancel by apply Hs. apply vec3_neg_add.
Qed.

Lemma ecef_to_enu_isometry p q : dist2 (ecef_to_enu ROps s p) (ecef_to_enu ROps s q) = dist2 p q.
Proof.
  rewrite !rigid_ecef_to_enu, dist2_mulv by (rewrite mat3_transpose_involutive; apply Hs).
  apply dist2_translate.
Qed.

Lemma enu_to_ecef_isometry e f : dist2 (enu_to_ecef ROps s e) (enu_to_ecef ROps s f) = dist2 e f.
Proof. unfold enu_to_ecef. rewrite dist2_translate. apply dist2_mulv, Hs. Qed.

End Rigid.

(* histories, for any numeric instance *)
Section History.
Context {T : Type} (N : NumOps T).

Lemma set_anchor_forgets s g : set_anchor N s g = set_anchor N (enu_init N) g.
Proof. reflexivity. Qed.

Lemma reset_is_init s : reset N s = enu_init N.
Proof. reflexivity. Qed.

Lemma state_of_anchored a : s_anchored (state_of N a) = match a with None => false | Some _ => true end.
Proof. destruct a; reflexivity. Qed.

Lemma step_state fuel a o :
  fst (step N fuel (state_of N a) o) = state_of N (abs_step N a o).
Proof.
  destruct o; destruct a as [g0|]; cbn; try reflexivity.
Qed.

Lemma run_gen_fst_snd rst fuel s o ops :
  run_gen N rst fuel s (o :: ops) =
  (fst (run_gen N rst fuel (fst (step_gen N rst fuel s o)) ops),
   snd (step_gen N rst fuel s o) :: snd (run_gen N rst fuel (fst (step_gen N rst fuel s o)) ops)).
Proof.
  cbn [run_gen]. destruct (step_gen N rst fuel s o) as [s1 x]. cbn [fst snd].
  destruct (run_gen N rst fuel s1 ops) as [s2 xs]. reflexivity.
Qed.

Lemma run_state fuel ops : forall a,
  fst (run N fuel (state_of N a) ops) = state_of N (abs_run N a ops).
Proof.
  induction ops as [|o ops IH]; intros a; [reflexivity|].
  unfold run. rewrite run_gen_fst_snd. cbn [fst]. fold (step N fuel (state_of N a) o).
  rewrite step_state. fold (run N fuel (state_of N (abs_step N a o)) ops). rewrite IH. reflexivity.
Qed.

Lemma run_app rst fuel ops1 ops2 s :
  run_gen N rst fuel s (ops1 ++ ops2) =
  (fst (run_gen N rst fuel (fst (run_gen N rst fuel s ops1)) ops2),
   snd (run_gen N rst fuel s ops1) ++ snd (run_gen N rst fuel (fst (run_gen N rst fuel s ops1)) ops2)).
Proof.
  revert s. induction ops1 as [|o ops1 IH]; intros s.
  - cbn [app run_gen fst snd]. destruct (run_gen N rst fuel s ops2); reflexivity.
  - rewrite <- app_comm_cons. rewrite !run_gen_fst_snd. cbn [fst snd]. rewrite IH. cbn [fst snd]. reflexivity.
Qed.

Lemma abs_run_app a ops1 ops2 : abs_run N (abs_run N a ops1) ops2 = abs_run N a (ops1 ++ ops2).
Proof. unfold abs_run. rewrite fold_left_app. reflexivity. Qed.

Lemma anchored_iff fuel ops :
  s_anchored (fst (run N fuel (enu_init N) ops)) = true <-> abs_run N None ops <> None.
Proof.
  change (enu_init N) with (state_of N None). rewrite run_state, state_of_anchored.
  destruct (abs_run N None ops); split; intros H; try discriminate; try reflexivity; congruence.
Qed.

Lemma run_state_snoc fuel ops o :
  fst (run N fuel (enu_init N) (ops ++ [o])) = state_of N (abs_step N (abs_run N None ops) o).
Proof.
  change (enu_init N) with (state_of N None). rewrite run_state, <- abs_run_app. reflexivity.
Qed.

(* after any history, reset gives the state of a freshly constructed converter, and what follows behaves
   exactly as on a fresh converter *)
Lemma reset_after_any_history fuel ops rest :
  run N fuel (fst (run N fuel (enu_init N) (ops ++ [OpReset]))) rest = run N fuel (enu_init N) rest.
Proof. rewrite run_state_snoc. reflexivity. Qed.

Lemma set_anchor_after_any_history fuel ops g :
  fst (run N fuel (enu_init N) (ops ++ [OpSetAnchor g])) = set_anchor N (enu_init N) g.
Proof. apply run_state_snoc. Qed.

Lemma first_conversion_anchors fuel ops g : abs_run N None ops = None ->
  fst (run N fuel (enu_init N) (ops ++ [OpToEnuGeo g])) = set_anchor N (enu_init N) g.
Proof. intros H. rewrite run_state_snoc, H. reflexivity. Qed.

End History.

(* over the reals the first conversion returns the origin *)
Lemma first_conversion_returns_origin fuel ops g : abs_run ROps None ops = None ->
  snd (run ROps fuel (enu_init ROps) (ops ++ [OpToEnuGeo g])) =
  snd (run ROps fuel (enu_init ROps) ops) ++ [OutVec (mkV3 0 0 0)].
Proof.
  intros H. unfold run. rewrite run_app. cbn [snd]. f_equal.
  fold (run ROps fuel (enu_init ROps) ops).
  change (enu_init ROps) with (state_of ROps None). rewrite run_state, H.
  cbn [state_of run_gen step_gen to_enu_geo enu_init s_anchored snd]. f_equal. f_equal.
  apply (ecef_to_enu_trans (set_anchor ROps (enu_init ROps) g)).
Qed.

(* the code before the repair of reset(): the altitude of the old anchor survives into the next automatic anchoring *)
Lemma toECEF_equator_x h : vx (toECEF ROps (grs80 ROps) (mkGeo 0 0 h)) = 6378137 + h.
Proof.
  rewrite grs80_eq. unfold toECEF, primeVertical. cbn [g_lat g_lon g_alt vx make_ellipsoid el_a].
  cbn [nadd nmul ndiv nsub nsqrt nsin ncos n_one ROps]. rewrite sin_0, cos_0, !Rmult_0_r, Rminus_0_r, sqrt_1. field.
Qed.

Lemma reset_old_keeps_altitude fuel :
  snd (run_old ROps fuel (enu_init ROps) [OpSetAnchor (mkGeo 0 0 1000); OpReset; OpToEnuWgs 0 0; OpGetTransform]) <>
  [OutNone; OutNone] ++ snd (run_old ROps fuel (enu_init ROps) [OpToEnuWgs 0 0; OpGetTransform]).
Proof.
  intros E.
  apply (f_equal (fun l => match List.nth 3 l OutNone with OutTransform _ t => vx t | _ => 0 end)) in E.
  revert E. unfold run_old.
  cbn [run_gen step_gen to_enu_geo set_anchor reset_old enu_init s_anchored s_anchor g_alt snd app List.nth
       s_rot s_trans g_lat g_lon].
  change (nzero ROps) with 0. rewrite !toECEF_equator_x. lra.
Qed.
