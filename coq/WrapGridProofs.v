(* WrapGridProofs.v — lemmas about WrapGridModel.v (C15): the concrete grid refines a sliding window. *)
From Coq Require Import ZArith List Bool Arith Lia.
From Romea Require Import WrapGridModel.
Import ListNotations.

Inductive axis := AX | AY | AZ.
Definition axis_eq_dec (a b : axis) : {a = b} + {a <> b}. Proof. decide equality. Defined.
Definition coord {T} (a : axis) (i : T * T * T) : T := let '(x, y, z) := i in match a with AX => x | AY => y | AZ => z end.
Definition upd {T} (a : axis) (i : T * T * T) (v : T) : T * T * T :=
  let '(x, y, z) := i in match a with AX => (v, y, z) | AY => (x, v, z) | AZ => (x, y, v) end.

Section Proofs.
Context {V : Type}.
Notation wgrid := (wgrid V).

Definition valid (g : wgrid) : Prop :=
  0 < g_nx g /\ 0 < g_ny g /\ 0 < g_nz g /\
  g_ox g < g_nx g /\ g_oy g < g_ny g /\ g_oz g < g_nz g /\
  length (g_buf g) = g_nx g * g_ny g * g_nz g /\
  (g_dim3 g = false -> g_nz g = 1) /\
  (Z.of_nat (g_nx g) < 2 ^ 31 /\ Z.of_nat (g_ny g) < 2 ^ 31 /\ Z.of_nat (g_nz g) < 2 ^ 31)%Z.

Definition same_shape (g g' : wgrid) : Prop :=
  g_dim3 g' = g_dim3 g /\ g_nx g' = g_nx g /\ g_ny g' = g_ny g /\ g_nz g' = g_nz g.

Lemma valid_pos (g : wgrid) : valid g -> 0 < g_nx g /\ 0 < g_ny g /\ 0 < g_nz g.
Proof. intros (A & B & C & _). auto. Qed.
Lemma valid_length (g : wgrid) : valid g -> length (g_buf g) = g_nx g * g_ny g * g_nz g.
Proof. intros (_ & _ & _ & _ & _ & _ & L & _). exact L. Qed.
Lemma valid_2d (g : wgrid) : valid g -> g_dim3 g = false -> g_nz g = 1.
Proof. intros (_ & _ & _ & _ & _ & _ & _ & H & _). exact H. Qed.

Lemma lin_lt (g : wgrid) i : valid g -> lin g i < length (g_buf g).
Proof.
  intros Hv. destruct (valid_pos g Hv) as (Hx & Hy & Hz). destruct i as [[x y] z]. unfold lin. rewrite (valid_length g Hv).
  pose proof (Nat.mod_upper_bound (x + g_ox g) (g_nx g) ltac:(lia)) as A.
  pose proof (Nat.mod_upper_bound (y + g_oy g) (g_ny g) ltac:(lia)) as B.
  pose proof (Nat.mod_upper_bound (z + g_oz g) (g_nz g) ltac:(lia)) as C.
  set (a := (x + g_ox g) mod g_nx g) in *. set (b := (y + g_oy g) mod g_ny g) in *.
  set (c := (z + g_oz g) mod g_nz g) in *.
  assert (H1 : g_nx g * (b + 1) <= g_nx g * g_ny g) by (apply Nat.mul_le_mono_l; lia).
  assert (H2 : g_nx g * g_ny g * (c + 1) <= g_nx g * g_ny g * g_nz g) by (apply Nat.mul_le_mono_l; lia).
  rewrite Nat.mul_add_distr_l in H1, H2. lia.
Qed.

Lemma radix_inj nx ny a b c a' b' c' : a < nx -> a' < nx -> b < ny -> b' < ny ->
  a + nx * b + nx * ny * c = a' + nx * b' + nx * ny * c' -> a = a' /\ b = b' /\ c = c'.
Proof.
  intros Ha Ha' Hb Hb' E.
  assert (E1 : a + nx * (b + ny * c) = a' + nx * (b' + ny * c')) by nia.
  assert (Ea : a = a').
  { assert (M : (a + nx * (b + ny * c)) mod nx = (a' + nx * (b' + ny * c')) mod nx) by (rewrite E1; reflexivity).
    rewrite !(Nat.mul_comm nx), !Nat.mod_add, !Nat.mod_small in M by lia. exact M. }
  subst a'. assert (E2 : b + ny * c = b' + ny * c') by nia.
  assert (Eb : b = b').
  { assert (M : (b + ny * c) mod ny = (b' + ny * c') mod ny) by (rewrite E2; reflexivity).
    rewrite !(Nat.mul_comm ny), !Nat.mod_add, !Nat.mod_small in M by lia. exact M. }
  subst b'. repeat split; try reflexivity. nia.
Qed.

Lemma wrap_inj n o x x' : 0 < n -> x < n -> x' < n -> (x + o) mod n = (x' + o) mod n -> x = x'.
Proof.
  intros Hn Hx Hx' E.
  pose proof (Nat.div_mod (x + o) n ltac:(lia)) as D1. pose proof (Nat.div_mod (x' + o) n ltac:(lia)) as D2.
  rewrite E in D1.
  assert ((x + o) / n = (x' + o) / n \/ (x + o) / n < (x' + o) / n \/ (x' + o) / n < (x + o) / n) as [Q|[Q|Q]] by lia.
  - rewrite Q in D1. lia.
  - pose proof (Nat.mod_upper_bound (x' + o) n ltac:(lia)). nia.
  - pose proof (Nat.mod_upper_bound (x' + o) n ltac:(lia)). nia.
Qed.

Lemma in_window_spec (g : wgrid) x y z : in_window g (x, y, z) = true <-> x < g_nx g /\ y < g_ny g /\ z < g_nz g.
Proof. unfold in_window. rewrite !andb_true_iff, !Nat.ltb_lt. tauto. Qed.

Lemma lin_inj (g : wgrid) i j : valid g -> in_window g i = true -> in_window g j = true -> lin g i = lin g j -> i = j.
Proof.
  intros Hv Hi Hj E. destruct (valid_pos g Hv) as (Hx & Hy & Hz). destruct i as [[x y] z], j as [[x' y'] z'].
  apply in_window_spec in Hi, Hj. unfold lin in E.
  apply radix_inj in E; try (apply Nat.mod_upper_bound; lia).
  destruct E as (E1 & E2 & E3).
  apply wrap_inj in E1; try lia. apply wrap_inj in E2; try lia. apply wrap_inj in E3; try lia. congruence.
Qed.

Lemma set_nth_length p (v : V) l : length (set_nth p v l) = length l.
Proof. revert p. induction l as [|a l IH]; intros [|p]; cbn; auto. Qed.

Lemma nth_error_set_nth p q (v : V) l : p < length l ->
  nth_error (set_nth p v l) q = if Nat.eqb q p then Some v else nth_error l q.
Proof.
  revert p q. induction l as [|a l IH]; intros [|p] [|q] H; cbn in *; try lia; try reflexivity.
  apply IH. lia.
Qed.

Lemma idx_eqb_eq a b : idx_eqb a b = true <-> a = b.
Proof.
  destruct a as [[x y] z], b as [[x' y'] z']. unfold idx_eqb. rewrite !andb_true_iff, !Nat.eqb_eq.
  split; [intros [[-> ->] ->]; reflexivity|intros E; inversion E; auto].
Qed.

Lemma with_buf_valid (g : wgrid) b : valid g -> length b = length (g_buf g) -> valid (with_buf g b).
Proof. unfold valid, with_buf. cbn. intros (A&B&C&D&E&F&G&H&I) L. repeat split; try assumption; try lia; apply I. Qed.

Lemma fold_set_length (g : wgrid) cells e (b : list V) :
  length (fold_left (fun b c => set_nth (lin g c) e b) cells b) = length b.
Proof. revert b. induction cells as [|c cells IH]; intros b; cbn [fold_left]; [reflexivity|]. rewrite IH. apply set_nth_length. Qed.

Lemma fold_set_read (g : wgrid) cells (e : V) : valid g ->
  Forall (fun c => in_window g c = true) cells ->
  forall (b : list V) i, length b = length (g_buf g) -> in_window g i = true ->
  nth_error (fold_left (fun b c => set_nth (lin g c) e b) cells b) (lin g i)
  = if existsb (idx_eqb i) cells then Some e else nth_error b (lin g i).
Proof.
  intros Hv Hc. induction Hc as [|c cells Hcw Hcs IH]; intros b i Hb Hi; cbn [fold_left existsb]; [reflexivity|].
  rewrite IH by (rewrite ?set_nth_length; assumption).
  destruct (existsb (idx_eqb i) cells) eqn:Ex; [rewrite orb_true_r; reflexivity|]. rewrite orb_false_r.
  rewrite nth_error_set_nth by (rewrite Hb; apply lin_lt; exact Hv).
  destruct (idx_eqb i c) eqn:Eic.
  - apply idx_eqb_eq in Eic. subst c. rewrite Nat.eqb_refl. reflexivity.
  - destruct (Nat.eqb_spec (lin g i) (lin g c)) as [El|El]; [|reflexivity].
    apply lin_inj in El; try assumption. subst c.
    assert (idx_eqb i i = true) by (apply idx_eqb_eq; reflexivity). congruence.
Qed.

Lemma blank_cells_valid (g : wgrid) cells e : valid g -> valid (blank_cells g cells e).
Proof. intros Hv. apply with_buf_valid; [exact Hv|apply fold_set_length]. Qed.

Lemma in_run_up n k v : In v (run_up n k) <-> exists j, j < k /\ v = j mod n.
Proof.
  unfold run_up. rewrite in_map_iff. split.
  - intros [j [E Hj]]. apply in_seq in Hj. exists j. split; [lia|auto].
  - intros [j [Hj E]]. exists j. split; [auto|apply in_seq; lia].
Qed.

Lemma in_run_down n k v : In v (run_down n k) <-> exists j, 1 <= j <= k /\ v = (j * (n - 1)) mod n.
Proof.
  unfold run_down. rewrite in_map_iff. split.
  - intros [j [E Hj]]. apply in_seq in Hj. exists j. split; [lia|auto].
  - intros [j [Hj E]]. exists j. split; [auto|apply in_seq; lia].
Qed.

Lemma axis_run_lt n k v : 0 < n -> In v (axis_run n k) -> v < n.
Proof.
  intros Hn. destruct k as [|p|p]; cbn [axis_run]; [intros []| |].
  - intros H. apply in_run_up in H. destruct H as [j [_ ->]]. apply Nat.mod_upper_bound. lia.
  - intros H. apply in_run_down in H. destruct H as [j [_ ->]]. apply Nat.mod_upper_bound. lia.
Qed.

(* the logical coordinate (x + k) mod n of the old frame that the new coordinate x reads *)
Definition src (n x : nat) (k : Z) : nat := Z.to_nat ((Z.of_nat x + k) mod Z.of_nat n).

Lemma src_lt n x k : 0 < n -> src n x k < n.
Proof. intros Hn. unfold src. pose proof (Z.mod_pos_bound (Z.of_nat x + k) (Z.of_nat n) ltac:(lia)). lia. Qed.

Lemma down_mod n j : 0 < n -> Z.of_nat ((j * (n - 1)) mod n) = ((- Z.of_nat j) mod Z.of_nat n)%Z.
Proof.
  intros Hn. rewrite Nat2Z.inj_mod. rewrite Nat2Z.inj_mul, Nat2Z.inj_sub by lia.
  replace (Z.of_nat j * (Z.of_nat n - Z.of_nat 1))%Z with (- Z.of_nat j + Z.of_nat j * Z.of_nat n)%Z by lia.
  apply Z.mod_add. lia.
Qed.

(* the run blanks exactly the source coordinates of the cells that enter the window *)
Lemma src_in_run n x k : 0 < n -> x < n -> (In (src n x k) (axis_run n k) <-> inb n x k = false).
Proof.
  intros Hn Hx. unfold inb. rewrite andb_false_iff, Z.leb_gt, Z.ltb_ge.
  destruct k as [|p|p]; cbn [axis_run].
  - split; [intros []|lia].
  - rewrite in_run_up. unfold src. split.
    + intros [j [Hj E]]. apply (f_equal Z.of_nat) in E. rewrite Z2Nat.id in E by (apply Z.mod_pos_bound; lia).
      rewrite Nat2Z.inj_mod in E.
      destruct (Z_lt_le_dec (Z.of_nat x + Z.pos p) (Z.of_nat n)) as [L|L]; [|lia]. exfalso.
      rewrite (Z.mod_small (Z.of_nat x + Z.pos p)) in E by lia.
      assert (Hjn : (Z.of_nat j < Z.of_nat n)%Z) by lia.
      rewrite Z.mod_small in E by lia. lia.
    + intros [H|H]; [lia|].
      (* x + k >= n : source = (x + k) mod n, reached at step j = (x+k) mod n when k >= n, else x + k - n < k *)
      destruct (Z_lt_le_dec (Z.pos p) (Z.of_nat n)) as [Lk|Lk].
      * exists (Z.to_nat (Z.of_nat x + Z.pos p - Z.of_nat n)). split; [lia|].
        rewrite Nat.mod_small by lia. f_equal.
        symmetry. apply (Z.mod_unique _ _ 1); lia.
      * exists (Z.to_nat ((Z.of_nat x + Z.pos p) mod Z.of_nat n)).
        pose proof (Z.mod_pos_bound (Z.of_nat x + Z.pos p) (Z.of_nat n) ltac:(lia)). split; [lia|].
        rewrite Nat.mod_small by lia. reflexivity.
  - rewrite in_run_down. unfold src. split.
    + intros [j [Hj E]]. apply (f_equal Z.of_nat) in E. rewrite Z2Nat.id in E by (apply Z.mod_pos_bound; lia).
      rewrite down_mod in E by lia.
      destruct (Z_lt_le_dec (Z.of_nat x + Z.neg p) 0) as [L|L]; [lia|]. exfalso.
      rewrite (Z.mod_small (Z.of_nat x + Z.neg p)) in E by lia.
      (* x + k = (-j) mod n with 1 <= j <= |k| <= x < n : (-j) mod n = n - j *)
      replace (- Z.of_nat j)%Z with ((Z.of_nat n - Z.of_nat j) + (-1) * Z.of_nat n)%Z in E by lia.
      rewrite Z.mod_add in E by lia. rewrite Z.mod_small in E by lia. lia.
    + intros [H|H]; [|lia].
      destruct (Z_lt_le_dec (Z.pos p) (Z.of_nat n)) as [Lk|Lk].
      * exists (Z.to_nat (- (Z.of_nat x + Z.neg p))). split; [lia|].
        apply Nat2Z.inj. rewrite Z2Nat.id by (apply Z.mod_pos_bound; lia). rewrite down_mod by lia.
        rewrite Z2Nat.id by lia. f_equal. lia.
      * (* |k| >= n : every residue is visited; take j = n - src *)
        set (s := ((Z.of_nat x + Z.neg p) mod Z.of_nat n)%Z).
        pose proof (Z.mod_pos_bound (Z.of_nat x + Z.neg p) (Z.of_nat n) ltac:(lia)) as Hs. fold s in Hs.
        exists (Z.to_nat (Z.of_nat n - s)). split; [lia|].
        apply Nat2Z.inj. rewrite Z2Nat.id by lia. rewrite down_mod by lia. rewrite Z2Nat.id by lia.
        replace (- (Z.of_nat n - s))%Z with (s + (-1) * Z.of_nat n)%Z by lia.
        rewrite Z.mod_add by lia. symmetry. apply Z.mod_small. lia.
Qed.

Lemma src_shift n x k : inb n x k = true -> src n x k = shift x k.
Proof.
  unfold inb, src, shift. rewrite andb_true_iff, Z.leb_le, Z.ltb_lt. intros [A B]. rewrite Z.mod_small by lia. reflexivity.
Qed.

(* offset update in size_t arithmetic = (offset + k) mod n *)
Lemma new_offset_spec off n k : 0 < n -> off < n -> (Z.of_nat n < 2 ^ 31)%Z ->
  Z.of_nat (new_offset off n k) = ((Z.of_nat off + k) mod Z.of_nat n)%Z.
Proof.
  intros Hn Ho H31. unfold new_offset, two64.
  rewrite Z2Nat.id by (apply Z.mod_pos_bound; lia).
  pose proof (Z.rem_bound_abs k (Z.of_nat n) ltac:(lia)) as Hb.
  pose proof (Z.quot_rem' k (Z.of_nat n)) as Hq.
  set (r := Z.rem k (Z.of_nat n)) in *. set (q := Z.quot k (Z.of_nat n)) in *.
  assert (Hr : (- Z.of_nat n < r < Z.of_nat n)%Z) by lia.
  assert (T : (2 ^ 31 < 18446744073709551616)%Z) by reflexivity.
  rewrite (Z.mod_small (Z.of_nat off + Z.of_nat n)) by lia.
  assert (E : (((Z.of_nat off + Z.of_nat n + r mod 18446744073709551616) mod 18446744073709551616)
               = Z.of_nat off + Z.of_nat n + r)%Z).
  { destruct (Z_lt_le_dec r 0) as [Ln|Ln].
    - replace r with ((r + 18446744073709551616) + (-1) * 18446744073709551616)%Z at 1 by lia.
      rewrite Z.mod_add by lia. rewrite (Z.mod_small (r + 18446744073709551616)) by lia.
      replace (Z.of_nat off + Z.of_nat n + (r + 18446744073709551616))%Z
        with ((Z.of_nat off + Z.of_nat n + r) + 1 * 18446744073709551616)%Z by lia.
      rewrite Z.mod_add by lia. apply Z.mod_small. lia.
    - rewrite (Z.mod_small r) by lia. apply Z.mod_small. lia. }
  rewrite E. rewrite Hq.
  replace (Z.of_nat off + Z.of_nat n + r)%Z with ((Z.of_nat off + r) + 1 * Z.of_nat n)%Z by lia.
  rewrite Z.mod_add by lia.
  replace (Z.of_nat off + (Z.of_nat n * q + r))%Z with ((Z.of_nat off + r) + q * Z.of_nat n)%Z by lia.
  rewrite Z.mod_add by lia. reflexivity.
Qed.

Lemma new_offset_lt off n k : 0 < n -> new_offset off n k < n.
Proof.
  intros Hn. unfold new_offset.
  match goal with |- Z.to_nat (?a mod _) < _ => pose proof (Z.mod_pos_bound a (Z.of_nat n) ltac:(lia)) end. lia.
Qed.

(* (x + new offset) mod n = (src + old offset) mod n : the new frame reads the old frame at src *)
Lemma wrap_new_offset off n k x : 0 < n -> off < n -> (Z.of_nat n < 2 ^ 31)%Z ->
  (x + new_offset off n k) mod n = (src n x k + off) mod n.
Proof.
  intros Hn Ho H31. apply Nat2Z.inj. rewrite !Nat2Z.inj_mod, !Nat2Z.inj_add.
  rewrite new_offset_spec by assumption. unfold src. rewrite Z2Nat.id by (apply Z.mod_pos_bound; lia).
  rewrite Z.add_mod_idemp_r by lia. rewrite Z.add_mod_idemp_l by lia. f_equal. lia.
Qed.

Definition ax_n (a : axis) (g : wgrid) : nat := match a with AX => g_nx g | AY => g_ny g | AZ => g_nz g end.
Definition ax_o (a : axis) (g : wgrid) : nat := match a with AX => g_ox g | AY => g_oy g | AZ => g_oz g end.
Definition ax_set_o (a : axis) : wgrid -> nat -> wgrid := match a with AX => set_ox | AY => set_oy | AZ => set_oz end.
Definition ax_cells (a : axis) : wgrid -> Z -> list idx := match a with AX => cells_x | AY => cells_y | AZ => cells_z end.
Definition translate_axis (a : axis) : wgrid -> Z -> V -> wgrid :=
  match a with AX => translate_x | AY => translate_y | AZ => translate_z end.

Lemma ax_set_o_buf a (g : wgrid) o : g_buf (ax_set_o a g o) = g_buf g.
Proof. destruct a; reflexivity. Qed.

Lemma translate_axis_eq a (g : wgrid) k e : translate_axis a g k e =
  if Z.eqb k 0 then g else ax_set_o a (blank_cells g (ax_cells a g k) e) (new_offset (ax_o a g) (ax_n a g) k).
Proof. destruct a; reflexivity. Qed.

Lemma same_shape_refl (g : wgrid) : same_shape g g.
Proof. repeat split. Qed.
Lemma same_shape_trans (g h j : wgrid) : same_shape g h -> same_shape h j -> same_shape g j.
Proof. unfold same_shape. intuition congruence. Qed.
Lemma same_shape_n a (g h : wgrid) : same_shape g h -> ax_n a h = ax_n a g.
Proof. intros (_ & A & B & C). destruct a; assumption. Qed.
Lemma same_shape_window (g h : wgrid) i : same_shape g h -> in_window h i = in_window g i.
Proof. intros (_ & A & B & C). destruct i as [[x y] z]. unfold in_window. rewrite A, B, C. reflexivity. Qed.

Lemma valid_ax a (g : wgrid) : valid g -> ax_o a g < ax_n a g /\ (Z.of_nat (ax_n a g) < 2 ^ 31)%Z.
Proof. intros (_ & _ & _ & A & B & C & _ & _ & D & E & F). destruct a; split; assumption. Qed.

Lemma coord_window a (g : wgrid) i : in_window g i = true -> coord a i < ax_n a g.
Proof. destruct i as [[x y] z]. rewrite in_window_spec. destruct a; cbn; tauto. Qed.
Lemma upd_window a (g : wgrid) i v : in_window g i = true -> v < ax_n a g -> in_window g (upd a i v) = true.
Proof. destruct i as [[x y] z]. rewrite in_window_spec. destruct a; cbn [upd ax_n]; rewrite in_window_spec; tauto. Qed.
Lemma upd_coord a (i : idx) : upd a i (coord a i) = i.
Proof. destruct i as [[x y] z], a; reflexivity. Qed.
Lemma coord_upd a (i : idx) v : coord a (upd a i v) = v.
Proof. destruct i as [[x y] z], a; reflexivity. Qed.

Lemma translate_axis_valid a (g : wgrid) k e : valid g ->
  valid (translate_axis a g k e) /\ same_shape g (translate_axis a g k e).
Proof.
  intros Hv. rewrite translate_axis_eq. destruct (Z.eqb k 0); [split; [exact Hv|apply same_shape_refl]|].
  destruct (blank_cells_valid g (ax_cells a g k) e Hv) as (A&B&C&D&E&F&G&H&I).
  split; [|destruct a; repeat split].
  destruct a; unfold valid; cbn; repeat split; try assumption; try apply I; apply new_offset_lt; assumption.
Qed.

Lemma in_box (lx ly lz : list nat) x y z :
  In (x, y, z) (flat_map (fun z => flat_map (fun y => map (fun x => (x, y, z)) lx) ly) lz) <-> In x lx /\ In y ly /\ In z lz.
Proof.
  rewrite in_flat_map. split.
  - intros (z' & Hz & H). apply in_flat_map in H. destruct H as (y' & Hy & H). apply in_map_iff in H.
    destruct H as (x' & E & Hx). inversion E; subst. auto.
  - intros (Hx & Hy & Hz). exists z. split; [exact Hz|]. apply in_flat_map. exists y. split; [exact Hy|].
    apply in_map_iff. eauto.
Qed.

Lemma in_all n v : In v (all n) <-> v < n.
Proof. unfold all. rewrite in_seq. lia. Qed.

Lemma in_ax_cells a (g : wgrid) k i : valid g ->
  In i (ax_cells a g k) <-> in_window g i = true /\ In (coord a i) (axis_run (ax_n a g) k).
Proof.
  intros Hv. destruct (valid_pos g Hv) as (Hx & Hy & Hz). destruct i as [[x y] z]. rewrite in_window_spec.
  destruct a; cbn [ax_cells ax_n coord]; unfold cells_x, cells_y, cells_z; rewrite in_box, !in_all;
    (split; [intros (A & B & C)|tauto]); repeat split; try assumption; eapply axis_run_lt; eassumption.
Qed.

Lemma existsb_idx (i : idx) cells : existsb (idx_eqb i) cells = true <-> In i cells.
Proof.
  rewrite existsb_exists. split.
  - intros [c [Hc E]]. apply idx_eqb_eq in E. subst c. exact Hc.
  - intros H. exists i. split; [exact H|apply idx_eqb_eq; reflexivity].
Qed.

Lemma inb_zero n x : x < n -> inb n x 0 = true.
Proof. intros H. unfold inb. rewrite andb_true_iff, Z.leb_le, Z.ltb_lt. lia. Qed.
Lemma shift_zero x : shift x 0 = x.
Proof. unfold shift. lia. Qed.
Lemma inb_shift_window n x k : inb n x k = true -> shift x k < n.
Proof. unfold inb, shift. rewrite andb_true_iff, Z.leb_le, Z.ltb_lt. lia. Qed.

(* with the new offset, the cell i is stored where the cell at src along the axis was *)
Lemma read_new_offset a (g : wgrid) b k i : valid g -> in_window g i = true ->
  g_read (ax_set_o a (with_buf g b) (new_offset (ax_o a g) (ax_n a g) k)) i
  = nth_error b (lin g (upd a i (src (ax_n a g) (coord a i) k))).
Proof.
  intros (A&B&C&D&E&F&_&_&I1&I2&I3) Hi. destruct i as [[x y] z].
  destruct a; unfold g_read; (change (in_window (ax_set_o _ (with_buf g b) _) (x, y, z)) with (in_window g (x, y, z)));
    rewrite Hi; unfold lin; cbn [ax_set_o set_ox set_oy set_oz with_buf g_buf g_ox g_oy g_oz g_nx g_ny g_nz upd coord ax_n ax_o];
    rewrite wrap_new_offset by assumption; reflexivity.
Qed.

(* a translation along one axis: the cells that stay in the window keep their value, those entering it read e *)
Lemma translate_axis_read a (g : wgrid) k e i : valid g -> in_window g i = true ->
  g_read (translate_axis a g k e) i =
  if inb (ax_n a g) (coord a i) k then g_read g (upd a i (shift (coord a i) k)) else Some e.
Proof.
  intros Hv Hi. pose proof (coord_window a g i Hi) as Hc. rewrite translate_axis_eq.
  destruct (Z.eqb_spec k 0) as [->|Hk]; [rewrite inb_zero, shift_zero, upd_coord by exact Hc; reflexivity|].
  set (i' := upd a i (src (ax_n a g) (coord a i) k)).
  assert (Hi' : in_window g i' = true) by (apply upd_window; [exact Hi|apply src_lt; lia]).
  unfold blank_cells. rewrite read_new_offset by assumption. fold i'.
  rewrite fold_set_read; try assumption; try reflexivity;
    [|apply Forall_forall; intros c Hcell; apply in_ax_cells in Hcell; [apply Hcell|exact Hv]].
  (* the run blanks i' exactly when i enters the window *)
  replace (existsb (idx_eqb i') (ax_cells a g k)) with (negb (inb (ax_n a g) (coord a i) k)).
  - destruct (inb (ax_n a g) (coord a i) k) eqn:E; [|reflexivity]. cbn [negb].
    unfold g_read. rewrite <- (src_shift _ _ _ E). fold i'. rewrite Hi'. reflexivity.
  - apply eq_true_iff_eq. rewrite existsb_idx, in_ax_cells, negb_true_iff by exact Hv.
    unfold i'. rewrite coord_upd, src_in_run by lia. fold i'. tauto.
Qed.

Lemma translate_axis_offset a b (g : wgrid) k e : valid g ->
  Z.of_nat (ax_o b (translate_axis a g k e))
  = ((Z.of_nat (ax_o b g) + (if axis_eq_dec a b then k else 0)) mod Z.of_nat (ax_n b g))%Z.
Proof.
  intros Hv. destruct (valid_ax b g Hv) as (Ho & H31). rewrite translate_axis_eq.
  destruct (axis_eq_dec a b) as [<-|N].
  - destruct (Z.eqb_spec k 0) as [->|Hk]; [rewrite Z.add_0_r, Z.mod_small by lia; reflexivity|].
    replace (ax_o a (ax_set_o a _ _)) with (new_offset (ax_o a g) (ax_n a g) k) by (destruct a; reflexivity).
    apply new_offset_spec; [lia|assumption|assumption].
  - rewrite Z.add_0_r, Z.mod_small by lia. f_equal.
    destruct (Z.eqb k 0); [reflexivity|]. destruct a, b; try contradiction; reflexivity.
Qed.

Definition refines (g : wgrid) (w : spec) : Prop :=
  forall i, in_window g i = true -> g_read g i = Some (w i).

Definition kz_eff (g : wgrid) (kz : Z) : Z := if g_dim3 g then kz else 0%Z.

Definition sstep (g : wgrid) (w : spec (V:=V)) (o : gop) : spec :=
  match o with
  | GTranslate kx ky kz e => spec_translate (g_nx g) (g_ny g) (g_nz g) w kx ky (kz_eff g kz) e
  | GWrite i v => if in_window g i then spec_write w i v else w
  end.

(* X, then Y, then Z; in 2D the Z step is the one by 0 *)
Lemma translate_eq (g : wgrid) kx ky kz e : translate g kx ky kz e =
  translate_axis AZ (translate_axis AY (translate_axis AX g kx e) ky e) (kz_eff g kz) e.
Proof. unfold translate, kz_eff. destruct (g_dim3 g); reflexivity. Qed.

(* the window slides along one axis *)
Definition spec_axis (a : axis) (n : nat) (w : spec (V:=V)) (k : Z) (e : V) : spec :=
  fun i => if inb n (coord a i) k then w (upd a i (shift (coord a i) k)) else e.

Lemma axis_refines a (g : wgrid) w k e : valid g -> refines g w ->
  refines (translate_axis a g k e) (spec_axis a (ax_n a g) w k e).
Proof.
  intros Hv Hr i Hi. rewrite (same_shape_window g) in Hi by (apply translate_axis_valid, Hv).
  rewrite translate_axis_read by assumption. unfold spec_axis.
  destruct (inb (ax_n a g) (coord a i) k) eqn:E; [|reflexivity].
  apply Hr, upd_window; [exact Hi|apply inb_shift_window, E].
Qed.

Lemma translate_valid (g : wgrid) kx ky kz e : valid g ->
  valid (translate g kx ky kz e) /\ same_shape g (translate g kx ky kz e).
Proof.
  intros Hv. rewrite translate_eq.
  destruct (translate_axis_valid AX g kx e Hv) as (V1 & S1).
  destruct (translate_axis_valid AY _ ky e V1) as (V2 & S2).
  destruct (translate_axis_valid AZ _ (kz_eff g kz) e V2) as (V3 & S3).
  split; [exact V3|]. exact (same_shape_trans _ _ _ S1 (same_shape_trans _ _ _ S2 S3)).
Qed.

Lemma write_valid (g : wgrid) i v : valid g -> valid (g_write g i v) /\ same_shape g (g_write g i v).
Proof.
  intros Hv. unfold g_write. destruct (in_window g i); [|split; [exact Hv|apply same_shape_refl]].
  split; [apply with_buf_valid; [exact Hv|apply set_nth_length]|repeat split].
Qed.

Lemma step_valid (g : wgrid) o : valid g -> valid (gstep g o) /\ same_shape g (gstep g o).
Proof. destruct o as [kx ky kz e|i v]; cbn [gstep]; [apply translate_valid|apply write_valid]. Qed.

Lemma translate_refines (g : wgrid) w kx ky kz e : valid g -> refines g w ->
  refines (translate g kx ky kz e) (sstep g w (GTranslate kx ky kz e)).
Proof.
  intros Hv Hr. rewrite translate_eq.
  destruct (translate_axis_valid AX g kx e Hv) as (V1 & S1).
  destruct (translate_axis_valid AY _ ky e V1) as (V2 & S2).
  pose proof (axis_refines AZ _ _ (kz_eff g kz) e V2 (axis_refines AY _ _ ky e V1 (axis_refines AX g w kx e Hv Hr))) as R.
  rewrite (same_shape_n AY _ _ S1), (same_shape_n AZ _ _ (same_shape_trans _ _ _ S1 S2)) in R.
  intros [[x y] z] Hi. rewrite (R _ Hi). unfold spec_axis, sstep, spec_translate. cbn [coord upd ax_n].
  destruct (inb (g_nx g) x kx), (inb (g_ny g) y ky), (inb (g_nz g) z (kz_eff g kz)); reflexivity.
Qed.

Lemma write_refines (g : wgrid) w i v : valid g -> refines g w -> refines (g_write g i v) (sstep g w (GWrite i v)).
Proof.
  intros Hv Hr. unfold g_write, sstep. destruct (in_window g i) eqn:Hi; [|exact Hr].
  intros j Hj. change (in_window (with_buf g _) j) with (in_window g j) in Hj.
  unfold g_read. change (in_window (with_buf g _) j) with (in_window g j). rewrite Hj.
  change (lin (with_buf g ?b) j) with (lin g j). cbn [g_buf with_buf].
  rewrite nth_error_set_nth by (apply lin_lt; exact Hv).
  unfold spec_write. destruct (idx_eqb j i) eqn:E.
  - apply idx_eqb_eq in E. subst j. rewrite Nat.eqb_refl. reflexivity.
  - destruct (Nat.eqb_spec (lin g j) (lin g i)) as [El|El].
    + apply lin_inj in El; try assumption. subst j.
      assert (idx_eqb i i = true) by (apply idx_eqb_eq; reflexivity). congruence.
    + specialize (Hr j Hj). unfold g_read in Hr. rewrite Hj in Hr. exact Hr.
Qed.

Lemma step_refines (g : wgrid) w o : valid g -> refines g w -> refines (gstep g o) (sstep g w o).
Proof. destruct o as [kx ky kz e|i v]; cbn [gstep]; [apply translate_refines|apply write_refines]. Qed.

Lemma sstep_shape (g : wgrid) g' w o : same_shape g g' -> sstep g' w o = sstep g w o.
Proof.
  intros S. destruct o as [kx ky kz e|i v]; unfold sstep, kz_eff.
  - destruct S as (A & B & C & D). rewrite A, B, C, D. reflexivity.
  - rewrite (same_shape_window g g' i S). reflexivity.
Qed.

Theorem wrap_refines_window : forall ops g w, valid g -> refines g w ->
  let g' := fold_left gstep ops g in
  valid g' /\ same_shape g g' /\ refines g' (fold_left (sstep g) ops w).
Proof.
  induction ops as [|o ops IH]; intros g w Hv Hr; cbn [fold_left].
  - split; [exact Hv|]. split; [apply same_shape_refl|exact Hr].
  - destruct (step_valid g o Hv) as (V1 & S1). pose proof (step_refines g w o Hv Hr) as R1.
    destruct (IH (gstep g o) (sstep g w o) V1 R1) as (V2 & S2 & R2).
    split; [exact V2|]. split; [exact (same_shape_trans _ _ _ S1 S2)|].
    replace (fold_left (sstep g) ops (sstep g w o)) with (fold_left (sstep (gstep g o)) ops (sstep g w o)); [exact R2|].
    clear - S1. generalize (sstep g w o). induction ops as [|o' ops IH']; intros w'; cbn [fold_left]; [reflexivity|].
    rewrite (sstep_shape g (gstep g o)) by exact S1. apply IH'.
Qed.

Definition op_k (o : gop (V:=V)) : Z * Z * Z :=
  match o with GTranslate kx ky kz _ => (kx, ky, kz) | GWrite _ _ => (0, 0, 0)%Z end.

(* one step adds its offset along each axis that exists *)
Lemma step_offset (g : wgrid) o b : valid g -> (b = AZ -> g_dim3 g = true) ->
  Z.of_nat (ax_o b (gstep g o)) = ((Z.of_nat (ax_o b g) + coord b (op_k o)) mod Z.of_nat (ax_n b g))%Z.
Proof.
  intros Hv Hd. destruct (valid_ax b g Hv) as (Ho & _). destruct o as [kx ky kz e|i v]; cbn [op_k gstep].
  - rewrite translate_eq.
    destruct (translate_axis_valid AX g kx e Hv) as (V1 & S1).
    destruct (translate_axis_valid AY _ ky e V1) as (V2 & S2).
    rewrite !translate_axis_offset by assumption.
    rewrite (same_shape_n b _ _ S1), (same_shape_n b _ _ (same_shape_trans _ _ _ S1 S2)).
    rewrite Z.add_mod_idemp_l, <- Z.add_assoc, Z.add_mod_idemp_l by lia. f_equal.
    unfold kz_eff. destruct b; cbn; [lia|lia|]. rewrite Hd by reflexivity. lia.
  - replace (ax_o b (g_write g i v)) with (ax_o b g) by (unfold g_write; destruct (in_window g i), b; reflexivity).
    replace (coord b (0, 0, 0)%Z) with 0%Z by (destruct b; reflexivity). rewrite Z.add_0_r, Z.mod_small by lia. reflexivity.
Qed.

Definition acc_k (acc : Z * Z * Z) (o : gop (V:=V)) : Z * Z * Z :=
  let '(a, b, c) := acc in let '(x, y, z) := op_k o in (a + x, b + y, c + z)%Z.

Lemma offset_congruent b : forall ops (g : wgrid) acc, valid g -> (b = AZ -> g_dim3 g = true) ->
  Z.of_nat (ax_o b g) = (coord b acc mod Z.of_nat (ax_n b g))%Z ->
  Z.of_nat (ax_o b (fold_left gstep ops g)) = (coord b (fold_left acc_k ops acc) mod Z.of_nat (ax_n b g))%Z.
Proof.
  induction ops as [|o ops IH]; intros g acc Hv Hd Ha; cbn [fold_left]; [exact Ha|].
  destruct (step_valid g o Hv) as (V1 & S1). destruct (valid_ax b g Hv) as (Ho & _).
  rewrite <- (same_shape_n b _ _ S1). apply IH; [exact V1|destruct S1 as (-> & _); exact Hd|].
  rewrite step_offset, (same_shape_n b _ _ S1), Ha, Z.add_mod_idemp_l by (assumption || lia). f_equal.
  destruct acc as [[x y] z]. unfold acc_k. destruct (op_k o) as [[x' y'] z'], b; reflexivity.
Qed.

(* the reported offset is the accumulated offset modulo the grid size *)
Theorem offset_is_sum_mod : forall ops g, valid g -> g_ox g = 0 -> g_oy g = 0 -> g_oz g = 0 ->
  let g' := fold_left gstep ops g in
  let '(sx, sy, sz) := fold_left acc_k ops (0, 0, 0)%Z in
  Z.of_nat (g_ox g') = (sx mod Z.of_nat (g_nx g))%Z /\
  Z.of_nat (g_oy g') = (sy mod Z.of_nat (g_ny g))%Z /\
  (g_dim3 g = true -> Z.of_nat (g_oz g') = (sz mod Z.of_nat (g_nz g))%Z).
Proof.
  intros ops g Hv Hx Hy Hz. cbv zeta.
  assert (H : forall b, (b = AZ -> g_dim3 g = true) ->
    Z.of_nat (ax_o b (fold_left gstep ops g)) = (coord b (fold_left acc_k ops (0, 0, 0)%Z) mod Z.of_nat (ax_n b g))%Z).
  { intros b Hd. apply offset_congruent; [exact Hv|exact Hd|]. destruct b; cbn; rewrite ?Hx, ?Hy, ?Hz; reflexivity. }
  destruct (fold_left acc_k ops (0, 0, 0)%Z) as [[sx sy] sz].
  split; [apply (H AX); discriminate|]. split; [apply (H AY); discriminate|]. intros Hd. apply (H AZ). intros _. exact Hd.
Qed.

End Proofs.
