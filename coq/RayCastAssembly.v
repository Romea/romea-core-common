(* RayCastAssembly.v — C14: the per-axis lemmas assembled for the state that cast(origin, end) really builds.
   For a grid of 2 or 3 axes of one resolution r, an origin and an end point lying in the closed cells of their
   indexes and different from each other, the caster  set_end (set_origin (rc_init axes) o) e  satisfies every
   premise of the walk theorems of RayCastSegment.v; what remains is the numeric premise: either |e - o| < max(),
   or the bound of C14_cast_walk on the computed fields. *)
From Coq Require Import Reals ZArith List Bool Arith Lia Lra.
From Flocq Require Import Core.Raux.
From Romea Require Import Num NumR GridMapModel GridMapProofs RayCastModel RayCastProofs RayCastSegment.
Import ListNotations.
Local Open Scope R_scope.

(* a point of the extent lies in the closed cell of its index: lo/hi form of C13's half-cell theorem *)
Lemma point_in_its_cell r lo hi p : 0 < r -> lo <= p <= hi ->
  let org := gm_origin ROps r lo in let k := gm_index ROps r org p in
  org + IZR k * r <= p <= org + (IZR k + 1) * r.
Proof.
  intros Hr Hp. cbv zeta. pose proof (point_within_half r lo hi Hr p Hp) as H.
  set (org := gm_origin ROps r lo) in *. set (k := gm_index ROps r org p) in *.
  unfold gm_centre in H. cbn [nadd nmul nofZ ROps] in H. rewrite nhalf_R in H.
  apply Rabs_le_inv in H. lra.
Qed.

Lemma sum_squares_ge : forall (l : list R) a, a <= fold_left (fun s x => s + x * x) l a.
Proof. induction l as [|x l IH]; intros a; cbn [fold_left]; [lra|]. specialize (IH (a + x * x)). nra. Qed.

Lemma norm_pos (l : list R) : Exists (fun x => x <> 0) l -> 0 < norm ROps l.
Proof.
  intros H. unfold norm. cbn [nsqrt nadd nmul nzero ROps]. apply sqrt_lt_R0. generalize 0.
  induction H as [x l Hx|x l _ IH]; intros a; cbn [fold_left].
  - pose proof (sum_squares_ge l (a + x * x)). assert (0 < x * x) by nra. lra.
  - specialize (IH (a + x * x)). nra.
Qed.

(* ------------------------------------------------------------------ the fields of the caster, axis by axis *)
Definition ax0 : axis (T:=R) := {| ax_r := 0; ax_org := 0; ax_n := 0 |}.

Lemma nth_indexes : forall (axes : list (axis (T:=R))) p i, (i < length axes)%nat -> length p = length axes ->
  nth i (indexes ROps axes p) 0%Z = gm_index ROps (ax_r (nth i axes ax0)) (ax_org (nth i axes ax0)) (nth i p 0).
Proof.
  unfold indexes. induction axes as [|a axes IH]; intros [|x p] [|i] Hi Lp; cbn [combine map nth length] in *;
    try lia. apply IH; lia.
Qed.

Lemma nth_direction rho : forall e o i, (i < length e)%nat -> length o = length e ->
  nth i (map (fun x => ndiv ROps x rho) (map (fun '(x, y) => nsub ROps x y) (combine e o))) 0
  = (nth i e 0 - nth i o 0) / rho.
Proof.
  induction e as [|x e IH]; intros [|y o] [|i] Hi Lo; cbn [combine map nth length] in *; try lia; [reflexivity|].
  apply IH; lia.
Qed.

Lemma nth_setup : forall (axes : list (axis (T:=R))) o oi dir i,
  (i < length axes)%nat -> length o = length axes -> length oi = length axes -> length dir = length axes ->
  let setup := map (fun '(((a, x), k), v) => axis_setup ROps a x k v) (combine (combine (combine axes o) oi) dir) in
  (nth i (map (fun s => fst (fst s)) setup) 0%Z, nth i (map (fun s => snd (fst s)) setup) 0, nth i (map (fun s => snd s) setup) 0)
  = axis_setup ROps (nth i axes ax0) (nth i o 0) (nth i oi 0%Z) (nth i dir 0).
Proof.
  induction axes as [|a axes IH]; intros [|x o] [|k oi] [|v dir] [|i] Hi Lo Lk Lv; cbn [combine map nth length] in *;
    try lia; [destruct (axis_setup ROps a x k v) as [[? ?] ?]; reflexivity|]. apply IH; lia.
Qed.

(* The numeric premise, in either form: the length rho of the segment is below max(), or (C14_cast_walk) some B < max()
   bounds what the crossing parameter of every moving axis will be after the last step of that axis. *)
Definition no_overflow (d : nat) (rho : R) (c : caster (T:=R)) : Prop :=
  rho < M \/
  exists B, B < M /\ forall i, (i < d)%nat -> (0 < Z.abs (nth i (rc_eidx c) 0 - nth i (rc_oidx c) 0))%Z ->
    nth i (rc_tmax c) 0 + IZR (Z.abs (nth i (rc_eidx c) 0 - nth i (rc_oidx c) 0)%Z) * nth i (rc_tdelta c) 0 <= B.

(* ------------------------------------------------------------------ cast(origin, end) on a grid of d axes *)
Section Assembly.
Variables (d : nat) (r : R) (axes : list (axis (T:=R))) (o e : list R).
Hypothesis La : length axes = d.
Hypothesis Lo : length o = d.
Hypothesis Le : length e = d.
(* the C++ grid has one resolution for all its axes *)
Hypothesis Hres : forall i, (i < d)%nat -> ax_r (nth i axes ax0) = r.

Definition cast_oe : caster (T:=R) := set_end ROps (set_origin ROps (rc_init ROps axes) o) e.
Definition seg_length : R := norm ROps (map (fun '(x, y) => nsub ROps x y) (combine e o)).
Definition direction : list R :=
  map (fun x => ndiv ROps x seg_length) (map (fun '(x, y) => nsub ROps x y) (combine e o)).
Definition origins : list R := map ax_org axes.

Lemma cast_oe_lengths :
  length (rc_oidx cast_oe) = d /\ length (rc_eidx cast_oe) = d /\ length (rc_tmax cast_oe) = d /\
  length (rc_step cast_oe) = d /\ length (rc_tdelta cast_oe) = d.
Proof.
  unfold cast_oe, set_end, set_origin, rc_init, indexes. cbn [rc_axes rc_origin rc_oidx rc_eidx rc_tmax rc_step rc_tdelta].
  rewrite !map_length, !combine_length, !map_length, !combine_length. lia.
Qed.

Lemma cast_oe_axis i : (i < d)%nat ->
  let a := nth i axes ax0 in
  nth i origins 0 = ax_org a /\
  nth i (rc_oidx cast_oe) 0%Z = gm_index ROps r (ax_org a) (nth i o 0) /\
  nth i (rc_eidx cast_oe) 0%Z = gm_index ROps r (ax_org a) (nth i e 0) /\
  nth i direction 0 = (nth i e 0 - nth i o 0) / seg_length /\
  (nth i (rc_step cast_oe) 0%Z, nth i (rc_tmax cast_oe) 0, nth i (rc_tdelta cast_oe) 0)
  = axis_setup ROps a (nth i o 0) (nth i (rc_oidx cast_oe) 0%Z) (nth i direction 0).
Proof.
  intros Hi a. split; [exact (map_nth ax_org axes ax0 i)|].
  unfold cast_oe, set_end, set_origin, rc_init. cbn [rc_axes rc_origin rc_oidx rc_eidx rc_tmax rc_step rc_tdelta].
  fold seg_length. fold direction. rewrite !nth_indexes, (Hres i Hi) by lia.
  split; [reflexivity|]. split; [reflexivity|]. split; [apply nth_direction; lia|].
  rewrite <- (Hres i Hi), <- nth_indexes by lia. apply nth_setup; try lia.
  - unfold indexes. rewrite map_length, combine_length. lia.
  - unfold direction. rewrite !map_length, combine_length. lia.
Qed.

Hypothesis Hr : 0 < r.
Hypothesis Hrho : 0 < seg_length.
(* origin and end point lie in the closed cells of their indexes *)
Hypothesis Hino : forall i, (i < d)%nat ->
  lo r origins i (nth i (rc_oidx cast_oe) 0%Z) <= nth i o 0 <= hi r origins i (nth i (rc_oidx cast_oe) 0%Z).
Hypothesis Hine : forall i, (i < d)%nat ->
  lo r origins i (nth i (rc_eidx cast_oe) 0%Z) <= nth i e 0 <= hi r origins i (nth i (rc_eidx cast_oe) 0%Z).

(* what the walk theorems ask of axis i: a non-negative increment, the end point in the end cell, step = sign of the
   direction and increment = one cell, the step pointing to the end index, and (for a moving axis) a non-negative first
   crossing parameter at which the ray meets the border of the origin cell *)
Lemma cast_oe_axis_premises i : (i < d)%nat ->
    (0 <= nth i (rc_tdelta cast_oe) 0) /\
    (lo r origins i (nth i (rc_eidx cast_oe) 0%Z) <= pos o direction i seg_length <= hi r origins i (nth i (rc_eidx cast_oe) 0%Z)) /\
    ((nth i (rc_step cast_oe) 0%Z = 1%Z /\ 0 < nth i direction 0 /\ nth i (rc_tdelta cast_oe) 0 * nth i direction 0 = r) \/
     (nth i (rc_step cast_oe) 0%Z = (-1)%Z /\ nth i direction 0 < 0 /\ nth i (rc_tdelta cast_oe) 0 * nth i direction 0 = - r) \/
     (nth i (rc_step cast_oe) 0%Z = 0%Z /\ nth i direction 0 = 0)) /\
    (nth i (rc_eidx cast_oe) 0 - nth i (rc_oidx cast_oe) 0
      = nth i (rc_step cast_oe) 0 * Z.abs (nth i (rc_eidx cast_oe) 0 - nth i (rc_oidx cast_oe) 0))%Z /\
    (0 <= nth i (rc_tmax cast_oe) 0 /\
     (nth i (rc_step cast_oe) 0%Z = 1%Z -> pos o direction i (nth i (rc_tmax cast_oe) 0) = hi r origins i (nth i (rc_oidx cast_oe) 0%Z)) /\
     (nth i (rc_step cast_oe) 0%Z = (-1)%Z -> pos o direction i (nth i (rc_tmax cast_oe) 0) = lo r origins i (nth i (rc_oidx cast_oe) 0%Z)) \/
     nth i (rc_step cast_oe) 0%Z = 0%Z).
Proof.
  intros Hi. specialize (Hino i Hi). specialize (Hine i Hi). unfold lo, hi, pos in *.
  destruct (cast_oe_axis i Hi) as (Eorg & Eo & Ee & Edir & Esu). cbv zeta in *. set (a := nth i axes ax0) in *.
  assert (Hra : 0 < ax_r a) by (unfold a; rewrite (Hres i Hi); exact Hr).
  rewrite Eorg in *. rewrite <- (Hres i Hi) in Hino, Hine, Eo, Ee |- *. fold a in Hino, Hine, Eo, Ee |- *.
  pose proof (axis_step_consistent a (nth i o 0) (nth i e 0) seg_length (nth i (rc_oidx cast_oe) 0%Z) Hra Hrho) as Hs.
  pose proof (axis_tdelta_nonneg a (nth i o 0) (nth i (rc_oidx cast_oe) 0%Z) (nth i direction 0) Hra
                ltac:(pose proof M_big; lra)) as Hdl.
  pose proof (axis_setup_crossing a (nth i o 0) (nth i direction 0) (nth i (rc_oidx cast_oe) 0%Z) Hra Hino) as X.
  pose proof (axis_setup_step a (nth i o 0) (nth i (rc_oidx cast_oe) 0%Z) (nth i direction 0)) as Hst.
  cbv zeta in Hs. rewrite <- Edir, <- Esu, <- Ee, <- Eo in Hs. rewrite <- Esu in Hdl, X, Hst. cbn [fst snd] in Hs, Hdl, Hst.
  destruct X as (Xp & Xn & Xz).
  split; [exact Hdl|]. split; [|split; [|split; [exact Hs|]]].
  - rewrite Edir. replace (nth i o 0 + seg_length * ((nth i e 0 - nth i o 0) / seg_length)) with (nth i e 0)
      by (field; lra). exact Hine.
  - destruct Hst as [E1|[E1|E1]]; [left; destruct (Xp E1) as (p & _ & _ & q)|right; left; destruct (Xn E1) as (p & _ & _ & q)
                                 |right; right]; auto.
  - destruct Hst as [E1|[E1|E1]]; [left; destruct (Xp E1) as (_ & p & q & _)|left; destruct (Xn E1) as (_ & p & q & _)
                                 |right; exact E1]; (split; [exact p|split; intros E2; [exact q || lia|exact q || lia]]).
Qed.

Hypothesis Hd : (d = 2 \/ d = 3)%nat.

(* END TO END: the cells of cast(o, e) run from the origin cell to the end cell by face-adjacent steps inside the
   index box of the two, and each is met by the segment [o, e] *)
Theorem cast_oe_visits : no_overflow d seg_length cast_oe ->
  cast_visits d cast_oe (meets d r seg_length origins o direction).
Proof.
  destruct cast_oe_lengths as (L1 & L2 & L3 & L4 & L5). pose proof cast_oe_axis_premises as A.
  assert (G : ginv d r seg_length origins o direction (rc_eidx cast_oe) (rc_step cast_oe) 0 (rc_oidx cast_oe, rc_tmax cast_oe)).
  { split; [lra|]. split.
    - intros i Hi. unfold pos. rewrite Rmult_0_l, Rplus_0_r. exact (Hino i Hi).
    - (* a step of 0 on an axis whose index still differs is excluded by the sign relation *)
      intros i Hi Hne. destruct (A i Hi) as (_ & _ & _ & Hs & [(H0 & Hp & Hn)|Hz]);
        [split; [exact H0|split; assumption]|rewrite Hz in Hs; lia]. }
  assert (S : shape d (rc_eidx cast_oe) (rc_step cast_oe) (rc_oidx cast_oe, rc_tmax cast_oe))
    by (split; [exact L1|split; [exact L3|intros i Hi; apply (A i Hi)]]).
  intros [HM|(B & HB & Hbound)];
    [apply (cast_walk_geo d Hd r seg_length origins o direction (rc_eidx cast_oe) (rc_step cast_oe) (rc_tdelta cast_oe))
    |apply (cast_walk_bounded_geo d Hd r seg_length origins o direction (rc_eidx cast_oe) (rc_step cast_oe)
              (rc_tdelta cast_oe) B)]; auto; intros i Hi; apply (A i Hi).
Qed.
End Assembly.

(* ------------------------------------------------------------------ the 2D and the 3D grid *)
Section Assembly2.
Variables (r lo0 hi0 lo1 hi1 o0 o1 e0 e1 : R).

Definition axes2 : list (axis (T:=R)) := [gm_axis ROps r lo0 hi0; gm_axis ROps r lo1 hi1].
Definition caster2 : caster (T:=R) := set_end ROps (set_origin ROps (rc_init ROps axes2) [o0; o1]) [e0; e1].
Definition rho2 : R := norm ROps [e0 - o0; e1 - o1].
Definition dirv2 : list R := [(e0 - o0) / rho2; (e1 - o1) / rho2].
Definition org2 : list R := [gm_origin ROps r lo0; gm_origin ROps r lo1].

Theorem cast2_visits : 0 < r -> lo0 <= o0 <= hi0 -> lo1 <= o1 <= hi1 -> lo0 <= e0 <= hi0 -> lo1 <= e1 <= hi1 ->
  o0 <> e0 \/ o1 <> e1 -> no_overflow 2 rho2 caster2 ->
  cast_visits 2 caster2 (meets 2 r rho2 org2 [o0; o1] dirv2).
Proof.
  intros Hr Ho0 Ho1 He0 He1 Hne.
  apply (cast_oe_visits 2 r axes2 [o0; o1] [e0; e1]); try reflexivity; try assumption.
  - apply below_2; reflexivity.
  - apply norm_pos. destruct Hne as [H|H]; [apply Exists_cons_hd|apply Exists_cons_tl, Exists_cons_hd]; cbn [nsub ROps]; lra.
  - apply below_2; [exact (point_in_its_cell r lo0 hi0 o0 Hr Ho0)|exact (point_in_its_cell r lo1 hi1 o1 Hr Ho1)].
  - apply below_2; [exact (point_in_its_cell r lo0 hi0 e0 Hr He0)|exact (point_in_its_cell r lo1 hi1 e1 Hr He1)].
  - left; reflexivity.
Qed.
End Assembly2.

Section Assembly3.
Variables (r lo0 hi0 lo1 hi1 lo2 hi2 o0 o1 o2 e0 e1 e2 : R).

Definition axes3 : list (axis (T:=R)) := [gm_axis ROps r lo0 hi0; gm_axis ROps r lo1 hi1; gm_axis ROps r lo2 hi2].
Definition caster3 : caster (T:=R) := set_end ROps (set_origin ROps (rc_init ROps axes3) [o0; o1; o2]) [e0; e1; e2].
Definition rho3 : R := norm ROps [e0 - o0; e1 - o1; e2 - o2].
Definition dirv3 : list R := [(e0 - o0) / rho3; (e1 - o1) / rho3; (e2 - o2) / rho3].
Definition org3 : list R := [gm_origin ROps r lo0; gm_origin ROps r lo1; gm_origin ROps r lo2].

Theorem cast3_visits : 0 < r -> lo0 <= o0 <= hi0 -> lo1 <= o1 <= hi1 -> lo2 <= o2 <= hi2 ->
  lo0 <= e0 <= hi0 -> lo1 <= e1 <= hi1 -> lo2 <= e2 <= hi2 ->
  o0 <> e0 \/ o1 <> e1 \/ o2 <> e2 -> no_overflow 3 rho3 caster3 ->
  cast_visits 3 caster3 (meets 3 r rho3 org3 [o0; o1; o2] dirv3).
Proof.
  intros Hr Ho0 Ho1 Ho2 He0 He1 He2 Hne.
  apply (cast_oe_visits 3 r axes3 [o0; o1; o2] [e0; e1; e2]); try reflexivity; try assumption.
  - apply below_3; reflexivity.
  - apply norm_pos.
    destruct Hne as [H|[H|H]]; [apply Exists_cons_hd|apply Exists_cons_tl, Exists_cons_hd
                               |apply Exists_cons_tl, Exists_cons_tl, Exists_cons_hd]; cbn [nsub ROps]; lra.
  - apply below_3; [exact (point_in_its_cell r lo0 hi0 o0 Hr Ho0)|exact (point_in_its_cell r lo1 hi1 o1 Hr Ho1)
                   |exact (point_in_its_cell r lo2 hi2 o2 Hr Ho2)].
  - apply below_3; [exact (point_in_its_cell r lo0 hi0 e0 Hr He0)|exact (point_in_its_cell r lo1 hi1 e1 Hr He1)
                   |exact (point_in_its_cell r lo2 hi2 e2 Hr He2)].
  - right; reflexivity.
Qed.
End Assembly3.
