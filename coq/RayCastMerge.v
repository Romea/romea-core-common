(* RayCastMerge.v — the abstract merge lemma behind the voxel walk (C14): if every axis' crossing parameters are
   split by [range] into "legitimate" (<= range) and "illegitimate" (>= range) ones and the walk always advances
   an axis whose next crossing parameter is minimal, then — unless a legitimate and an illegitimate crossing tie
   exactly at [range] — after s <= sum m steps no axis has been advanced beyond its number m i of legitimate
   crossings.  In exact arithmetic the rule "skip axes that reached the end index" therefore never changes the
   choice; it only matters when rounding breaks the premises. *)
From Coq Require Import Reals Arith Lia Lra.
Local Open Scope R_scope.

Fixpoint sumf (d:nat) (f:nat->nat) : nat := match d with O => O | S d' => (sumf d' f + f d')%nat end.

Definition upd (f:nat->nat) (a v:nat) := fun i => if Nat.eqb i a then v else f i.

Lemma sumf_upd d f a : (a < d)%nat -> sumf d (upd f a (S (f a))) = S (sumf d f).
Proof.
  assert (G : forall e v, (e <= a)%nat -> sumf e (upd f a v) = sumf e f).
  { induction e as [|e IHe]; intros v He; [reflexivity|]. simpl. rewrite IHe by lia.
    unfold upd. destruct (Nat.eqb_spec e a); [lia|reflexivity]. }
  induction d as [|d IH]; intros Ha; [lia|]. simpl. destruct (Nat.eq_dec a d) as [->|Hne].
  - rewrite G by lia. unfold upd. rewrite Nat.eqb_refl. lia.
  - rewrite IH by lia. unfold upd. destruct (Nat.eqb_spec d a); lia.
Qed.

Lemma sumf_lt_ex d f g : (forall i, (i<d)%nat -> (f i <= g i)%nat) -> (sumf d f < sumf d g)%nat ->
  exists i, (i<d)%nat /\ (f i < g i)%nat.
Proof.
  induction d as [|d IH]; simpl; intros Hle Hlt; [lia|].
  destruct (Nat.lt_ge_cases (f d) (g d)) as [H|H]; [exists d; split; lia|].
  destruct IH as [i [Hi Hfi]]; [intros; apply Hle; lia| specialize (Hle d); lia |]. exists i; split; lia.
Qed.

Lemma sumf_zero d : sumf d (fun _ => O) = O.
Proof. induction d; simpl; lia. Qed.

Section Merge.
Variable d : nat. Variable m : nat -> nat. Variable c : nat -> nat -> R. Variable range : R.
Variable pick : (nat->nat) -> nat.
Hypothesis pick_lt : forall k, (pick k < d)%nat.
Hypothesis legit_le : forall i j, (i<d)%nat -> (1 <= j <= m i)%nat -> c i j <= range.
Hypothesis illegit_ge : forall i j, (i<d)%nat -> (m i < j)%nat -> range <= c i j.
Hypothesis weak_min : forall k i, (i<d)%nat -> c (pick k) (S (k (pick k))) <= c i (S (k i)).

Definition tie := exists a b, (a<d)%nat /\ (b<d)%nat /\ a <> b /\ c a (S (m a)) = range /\
   exists j, (1<=j<=m b)%nat /\ c b j = range.

Definition step (k:nat->nat) := upd k (pick k) (S (k (pick k))).

Fixpoint steps (s:nat) : nat->nat := match s with O => fun _ => O | S s' => step (steps s') end.

Theorem merge_counts : ~ tie -> forall s, (s <= sumf d m)%nat ->
  (forall i, (i<d)%nat -> (steps s i <= m i)%nat) /\ sumf d (steps s) = s.
Proof.
  intros Hnt. induction s as [|s IH]; intros Hs.
  - split; [intros; simpl; lia|]. simpl. apply sumf_zero.
  - destruct IH as [IHle IHsum]; [lia|]. simpl. unfold step. set (k := steps s) in *. set (a := pick k).
    assert (Ha: (a<d)%nat) by apply pick_lt.
    split; [|rewrite sumf_upd by exact Ha; lia].
    assert (Hka: (k a < m a)%nat).
    { destruct (Nat.lt_ge_cases (k a) (m a)) as [H|H]; [exact H|exfalso].
      assert (Heq: k a = m a) by (specialize (IHle a Ha); lia).
      destruct (sumf_lt_ex d k m IHle) as [b [Hb Hkb]]; [lia|].
      assert (Hab: a <> b) by (intros ->; lia).
      pose proof (weak_min k b Hb) as Hw. fold a in Hw. rewrite Heq in Hw.
      pose proof (illegit_ge a (S (m a)) Ha ltac:(lia)) as H1.
      pose proof (legit_le b (S (k b)) Hb ltac:(lia)) as H2.
      apply Hnt. exists a, b. repeat split; try assumption; [lra|].
      exists (S (k b)). split; [lia|lra]. }
    intros i Hi. unfold upd. destruct (Nat.eqb_spec i a) as [->|]; [lia|apply IHle; exact Hi].
Qed.

End Merge.
