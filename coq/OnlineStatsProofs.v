(* OnlineStatsProofs.v — C16, about OnlineStatsModel.v: a vector written as a ring holds the last cap items written
   (ring_write_logical, slide_lastn); the window invariant o_inv of OnlineAverage / OnlineVariance and what it gives for
   every history; the outputs read over the reals; the RingOfEigenVector index arithmetic (ring_kth). *)
From Coq Require Import ZArith List Bool Arith Lia Reals Lra.
From Romea Require Import Num NumR OnlineStatsModel.
Import ListNotations.

Definition lastn {A} (n : nat) (l : list A) : list A := skipn (length l - n) l.

Lemma lastn_length {A} n (l : list A) : length (lastn n l) = Nat.min n (length l).
Proof. unfold lastn. rewrite skipn_length. lia. Qed.

Lemma skipn_S_tl {A} n (l : list A) : skipn (S n) l = tl (skipn n l).
Proof. revert l. induction n as [|n IH]; intros [|a l]; try reflexivity. apply IH. Qed.

Lemma skipn_at {A} (a b : list A) : skipn (length a) (a ++ b) = b.
Proof. induction a; auto. Qed.

Lemma firstn_at {A} (a b : list A) : firstn (length a) (a ++ b) = a.
Proof. induction a; cbn; f_equal; auto. Qed.

Lemma split_at {A} p (l : list A) : p < length l -> exists a y b, l = a ++ y :: b /\ length a = p.
Proof.
  intros H. pose proof (firstn_skipn p l) as E. pose proof (skipn_length p l) as L.
  destruct (skipn p l) as [|y b]; [cbn in L; lia|].
  exists (firstn p l), y, b. split; [auto|apply firstn_length_le; lia].
Qed.

Lemma length_pos {A} (l : list A) : l <> [] -> 0 < length l.
Proof. destruct l; [congruence|]. intros _. apply Nat.lt_0_succ. Qed.

Lemma nth_error_rev {A} (l : list A) k : k < length l -> nth_error (rev l) k = nth_error l (length l - S k).
Proof.
  intros H. destruct l as [|d l'] eqn:E; [inversion H|]. rewrite <- E in *.
  rewrite (nth_error_nth' (rev l) d) by (rewrite rev_length; exact H). rewrite rev_nth by exact H.
  symmetry. apply nth_error_nth'. lia.
Qed.

Lemma replace_nth_length {A} p (x : A) l : length (replace_nth p x l) = length l.
Proof. revert p. induction l as [|a l IH]; intros [|p]; cbn; auto. Qed.

Lemma replace_nth_at {A} (x y : A) a b : replace_nth (length a) x (a ++ y :: b) = a ++ x :: b.
Proof. induction a; cbn; f_equal; auto. Qed.

Lemma replace_nth_map {A B} (f : A -> B) p x l : map f (replace_nth p x l) = replace_nth p (f x) (map f l).
Proof. revert p. induction l as [|a l IH]; intros [|p]; cbn; f_equal; auto. Qed.

Lemma ring_write_map {A B} (f : A -> B) cap l p x : map f (ring_write cap l p x) = ring_write cap (map f l) p (f x).
Proof. unfold ring_write. rewrite map_length. destruct (Nat.eqb _ _); [apply replace_nth_map|apply map_app]. Qed.

Lemma ring_logical_map {A B} (f : A -> B) cap l p : map f (ring_logical cap l p) = ring_logical cap (map f l) p.
Proof.
  unfold ring_logical. rewrite map_length. destruct (Nat.eqb _ _); [|reflexivity].
  rewrite map_app, skipn_map, firstn_map. reflexivity.
Qed.

Lemma ring_logical_length {A} cap (data : list A) p : p <= length data -> length (ring_logical cap data p) = length data.
Proof.
  intros H. unfold ring_logical. destruct (Nat.eqb _ _); [|reflexivity].
  rewrite app_length, skipn_length, firstn_length. lia.
Qed.

Section RingFacts.
Context {A : Type}.
Variable cap : nat.
Hypothesis cap_pos : 0 < cap.

(* p is the next write position: the end of the data while the ring fills up, any slot once it is full *)
Definition ring_inv (data : list A) (p : nat) : Prop :=
  length data <= cap /\ p < cap /\ (length data < cap -> p = length data).

Definition slide (l : list A) (x : A) : list A :=
  if Nat.ltb (length l) cap then l ++ [x] else tl l ++ [x].

Lemma ring_inv_nil : ring_inv [] 0.
Proof. unfold ring_inv. cbn. lia. Qed.

Lemma ring_write_inv data p x : ring_inv data p -> ring_inv (ring_write cap data p x) ((p + 1) mod cap).
Proof.
  intros (H1 & H2 & H3). pose proof (Nat.mod_upper_bound (p + 1) cap ltac:(lia)) as Hm.
  unfold ring_inv, ring_write. destruct (Nat.eqb_spec (length data) cap) as [E|E].
  - rewrite replace_nth_length. lia.
  - assert (p = length data) as -> by lia. rewrite app_length. cbn [length]. repeat split; try lia.
    intros. apply Nat.mod_small. lia.
Qed.

Lemma ring_write_pos data p x : ring_inv data p -> p < length (ring_write cap data p x).
Proof.
  intros (H1 & H2 & H3). unfold ring_write. destruct (Nat.eqb_spec (length data) cap) as [E|E].
  - rewrite replace_nth_length. lia.
  - rewrite app_length. cbn [length]. lia.
Qed.

Lemma ring_write_logical data p x : ring_inv data p ->
  ring_logical cap (ring_write cap data p x) ((p + 1) mod cap) = slide (ring_logical cap data p) x.
Proof.
  intros (H1 & H2 & H3). unfold slide. rewrite ring_logical_length by lia.
  unfold ring_write, ring_logical. destruct (Nat.eqb_spec (length data) cap) as [E|E].
  - (* full: data = a ++ y :: b with p = |a|; y, the oldest item, is overwritten *)
    rewrite (proj2 (Nat.ltb_ge _ _)) by lia.
    assert (Hp : p < length data) by lia. destruct (split_at p data Hp) as (a & y & b & -> & <-).
    rewrite replace_nth_at, skipn_at, firstn_at.
    rewrite app_length in *. cbn [length] in *. rewrite E, Nat.eqb_refl. destruct b as [|z b].
    + replace (length a + 1) with cap by lia. rewrite Nat.mod_same by lia. cbn. apply app_nil_r.
    + rewrite Nat.mod_small by (cbn [length] in E; lia).
      change (a ++ x :: z :: b) with (a ++ [x] ++ z :: b). rewrite app_assoc.
      replace (length a + 1) with (length (a ++ [x])) by (rewrite app_length; reflexivity).
      rewrite skipn_at, firstn_at. cbn [tl app]. rewrite app_assoc. reflexivity.
  - (* filling up: p = |data| *)
    rewrite (proj2 (Nat.ltb_lt _ _)), H3 by lia. rewrite app_length. cbn [length].
    destruct (Nat.eqb_spec (length data + 1) cap) as [Ep|Ep]; [|reflexivity].
    rewrite Ep, Nat.mod_same by lia. cbn. apply app_nil_r.
Qed.

(* the logical content after any sequence of writes is the last-cap window of what was written *)
Lemma slide_lastn xs x : lastn cap (xs ++ [x]) = slide (lastn cap xs) x.
Proof.
  unfold slide. rewrite lastn_length. unfold lastn. rewrite app_length. cbn [length].
  destruct (Nat.ltb_spec (Nat.min cap (length xs)) cap) as [H|H].
  - replace (length xs + 1 - cap) with 0 by lia. replace (length xs - cap) with 0 by lia. reflexivity.
  - replace (length xs + 1 - cap) with (S (length xs - cap)) by lia.
    rewrite skipn_S_tl, skipn_app. replace (length xs - cap - length xs) with 0 by lia.
    pose proof (skipn_length (length xs - cap) xs) as L.
    destruct (skipn (length xs - cap) xs); [cbn in L; lia|reflexivity].
Qed.

(* reading backwards from the write position: entry k of the reversed logical content *)
Lemma ring_logical_rev_nth data p k : ring_inv data p -> k < length data ->
  nth_error (rev (ring_logical cap data p)) k =
  nth_error data (if Nat.ltb k p then p - 1 - k else length data + p - 1 - k).
Proof.
  intros (H1 & H2 & H3) Hk. unfold ring_logical. destruct (Nat.eqb_spec (length data) cap) as [E|E].
  - rewrite <- (firstn_skipn p data) at 3 4. rewrite rev_app_distr.
    assert (Lf : length (firstn p data) = p) by (rewrite firstn_length; lia).
    assert (Ls : length (skipn p data) = length data - p) by apply skipn_length.
    destruct (Nat.ltb_spec k p) as [H|H].
    + rewrite !nth_error_app1, nth_error_rev by (rewrite ?rev_length; lia). f_equal. lia.
    + rewrite !nth_error_app2, nth_error_rev by (rewrite ?rev_length, ?app_length; lia).
      f_equal. rewrite rev_length, app_length. lia.
  - rewrite (proj2 (Nat.ltb_lt k p)), nth_error_rev by lia. f_equal. lia.
Qed.
End RingFacts.

Fixpoint zsum (l : list Z) : Z := match l with [] => 0%Z | x :: r => (x + zsum r)%Z end.

Lemma zsum_app a b : zsum (a ++ b) = (zsum a + zsum b)%Z.
Proof. induction a as [|x a IH]; cbn [app zsum]; lia. Qed.

Lemma zsum_logical W l p : zsum (ring_logical W l p) = zsum l.
Proof.
  unfold ring_logical. destruct (Nat.eqb _ _); [|reflexivity].
  rewrite <- (firstn_skipn p l) at 3. rewrite !zsum_app. lia.
Qed.

(* sumOfData_ += x - data_[index_] keeps the sum that of the stored data *)
Lemma zsum_ring_write W l p x : (length l = W -> p < W) ->
  zsum (ring_write W l p x) = (zsum l + x - (if Nat.eqb (length l) W then nth p l 0 else 0))%Z.
Proof.
  intros H. unfold ring_write. destruct (Nat.eqb_spec (length l) W) as [E|E].
  - destruct (split_at p l ltac:(lia)) as (a & y & b & -> & <-).
    rewrite replace_nth_at, nth_middle, !zsum_app. cbn [zsum]. lia.
  - rewrite zsum_app. cbn [zsum]. lia.
Qed.

Section Outputs.
Context {T : Type} (N : NumOps T).

Lemma o_average_some mult s : o_data s <> [] ->
  o_average N mult s = Some (ndiv N (nofZ N (o_sum s)) (nmul N (nofZ N mult) (nofZ N (Z.of_nat (length (o_data s)))))).
Proof. unfold o_average. destruct (o_data s); [congruence|reflexivity]. Qed.

Lemma o_variance_some mult s : o_data s <> [] ->
  o_variance N mult s =
  let n := nofZ N (Z.of_nat (length (o_data s))) in
  let avg := ndiv N (nofZ N (o_sum s)) (nmul N (nofZ N mult) n) in
  Some (ndiv N (nsub N (ndiv N (nofZ N (o_sumsq s)) (nofZ N (mult * mult)%Z)) (nmul N (nmul N n avg) avg))
               (nofZ N (Z.of_nat (o_W s) - 1)%Z)).
Proof. intros H. unfold o_variance. rewrite (o_average_some mult s H). reflexivity. Qed.
End Outputs.

Inductive iop := IUpdate (x : Z) | IReset.

Definition i_step (s : ostate) (o : iop) : ostate :=
  match o with IUpdate x => o_update s x | IReset => o_reset s end.

(* samples (already truncated) since the last reset, oldest first *)
Fixpoint since_reset (h : list iop) (acc : list Z) : list Z :=
  match h with
  | [] => acc
  | IUpdate x :: r => since_reset r (acc ++ [x])
  | IReset :: r => since_reset r []
  end.

Definition o_window (s : ostate) : list Z := ring_logical (o_W s) (o_data s) (o_index s).

(* squaredData_ is written at the same slots as data_, so it need not be followed as a ring of its own *)
Definition o_inv (W : nat) (s : ostate) (xs : list Z) : Prop :=
  o_W s = W /\ ring_inv W (o_data s) (o_index s) /\ o_window s = lastn W xs /\
  o_sq s = map (fun x => (x * x)%Z) (o_data s) /\
  o_sum s = zsum (o_data s) /\ o_sumsq s = zsum (o_sq s).

Lemma o_inv_W W s xs : o_inv W s xs -> o_W s = W.
Proof. intros H. apply H. Qed.

Lemma o_inv_index W s xs : o_inv W s xs -> o_index s < W.
Proof. intros (_ & (_ & H & _) & _). exact H. Qed.

Lemma o_inv_size W s xs : o_inv W s xs -> length (o_data s) <= W.
Proof. intros (_ & (H & _) & _). exact H. Qed.

Lemma o_inv_window W s xs : o_inv W s xs -> ring_logical W (o_data s) (o_index s) = lastn W xs.
Proof. intros (<- & _ & H & _). exact H. Qed.

Lemma o_inv_sq W s xs : o_inv W s xs -> o_sq s = map (fun x => (x * x)%Z) (o_data s).
Proof. intros H. apply H. Qed.

Lemma o_inv_init W : 0 < W -> o_inv W (o_init W) [].
Proof.
  intros HW. split; [reflexivity|]. split; [exact (ring_inv_nil W HW)|]. split; [|repeat split].
  unfold o_window, ring_logical. cbn. destruct W; reflexivity.
Qed.

Lemma o_inv_reset W s xs : 0 < W -> o_inv W s xs -> o_inv W (o_reset s) [].
Proof. intros HW [<- _]. exact (o_inv_init (o_W s) HW). Qed.

Lemma o_inv_update W s xs x : 0 < W -> o_inv W s xs -> o_inv W (o_update s x) (xs ++ [x]).
Proof.
  intros HW (HWs & Rd & Wd & Hq & Sd & Sq). unfold o_inv, o_window, o_update in *.
  cbn [o_W o_index o_data o_sq o_sum o_sumsq]. rewrite HWs in *.
  split; [reflexivity|]. split; [apply ring_write_inv; assumption|].
  split; [rewrite ring_write_logical, Wd by assumption; symmetry; apply slide_lastn; exact HW|].
  split; [rewrite Hq; symmetry; exact (ring_write_map (fun x => (x * x)%Z) W _ _ x)|].
  destruct Rd as (R1 & R2 & R3).
  split; rewrite zsum_ring_write by (rewrite ?Hq, ?map_length; lia).
  - rewrite Sd. reflexivity.
  - rewrite Sq, Hq, map_length. reflexivity.
Qed.

Lemma o_inv_steps W : 0 < W -> forall h s xs,
  o_inv W s xs -> o_inv W (fold_left i_step h s) (since_reset h xs).
Proof.
  intros HW h. induction h as [|[x|] h IH]; intros s xs H; cbn [fold_left since_reset i_step].
  - exact H.
  - apply IH, o_inv_update; assumption.
  - apply IH. eapply o_inv_reset; eassumption.
Qed.

Lemma o_inv_run W : 0 < W -> forall h, o_inv W (fold_left i_step h (o_init W)) (since_reset h []).
Proof. intros HW h. apply o_inv_steps, o_inv_init; exact HW. Qed.

(* what the invariant says of the stored data, in terms of the samples since the last reset *)
Lemma o_inv_facts W s xs : 0 < W -> o_inv W s xs ->
  length (o_data s) = Nat.min W (length xs) /\
  o_sum s = zsum (lastn W xs) /\
  o_sumsq s = zsum (map (fun x => (x * x)%Z) (lastn W xs)) /\
  (o_available s = true <-> W <= length xs).
Proof.
  intros HW H. pose proof (o_inv_window W s xs H) as Wd.
  destruct H as (HWs & (R1 & R2 & R3) & _ & Hq & Sd & Sq).
  assert (Hlen : length (o_data s) = Nat.min W (length xs)).
  { rewrite <- lastn_length, <- Wd. symmetry. apply ring_logical_length. lia. }
  split; [exact Hlen|]. rewrite <- Wd. split; [|split].
  - rewrite zsum_logical. exact Sd.
  - rewrite ring_logical_map, zsum_logical, <- Hq. exact Sq.
  - unfold o_available. rewrite HWs, Hlen, Nat.eqb_eq. lia.
Qed.

Lemma window_is_last_W W h : 0 < W ->
  let s := fold_left i_step h (o_init W) in
  let xs := since_reset h [] in
  o_window s = lastn W xs /\
  length (o_data s) = Nat.min W (length xs) /\
  o_sum s = zsum (lastn W xs) /\
  o_sumsq s = zsum (map (fun x => (x * x)%Z) (lastn W xs)) /\
  (o_available s = true <-> W <= length xs).
Proof. intros HW s xs. pose proof (o_inv_run W HW h) as H. split; [apply H|exact (o_inv_facts W s xs HW H)]. Qed.

Lemma zsum_bound l B : Forall (fun x => (Z.abs x <= B)%Z) l -> (Z.abs (zsum l) <= Z.of_nat (length l) * B)%Z.
Proof. induction 1 as [|x l Hx Hl IH]; cbn [zsum length]; [lia|]. rewrite Nat2Z.inj_succ. lia. Qed.

Lemma Forall_lastn {A} (P : A -> Prop) n l : Forall P l -> Forall P (lastn n l).
Proof. intros H. rewrite <- (firstn_skipn (length l - n) l) in H. apply Forall_app in H. apply H. Qed.

Lemma Forall_logical {A} (P : A -> Prop) W l p : Forall P (ring_logical W l p) -> Forall P l.
Proof.
  unfold ring_logical. destruct (Nat.eqb _ _); [|auto]. intros H. apply Forall_app in H.
  rewrite <- (firstn_skipn p l). apply Forall_app. tauto.
Qed.

(* what holds of every sample since the last reset holds of every stored sample *)
Lemma o_inv_Forall (P : Z -> Prop) W s xs : o_inv W s xs -> Forall P xs -> Forall P (o_data s).
Proof.
  intros H HF. apply (Forall_logical _ W _ (o_index s)). rewrite (o_inv_window W s xs H). apply Forall_lastn, HF.
Qed.

Lemma inv_sums_le W s xs B : (0 <= B)%Z -> o_inv W s xs -> Forall (fun x => (Z.abs x <= B)%Z) (o_data s) ->
  (Z.abs (o_sum s) <= Z.of_nat W * B)%Z /\ (Z.abs (o_sumsq s) <= Z.of_nat W * (B * B))%Z.
Proof.
  intros HB (_ & (R1 & _) & _ & Hq & Sd & Sq) HF. rewrite Sd, Sq, Hq.
  pose proof (zsum_bound _ B HF) as B1.
  assert (HF2 : Forall (fun x => (Z.abs x <= B * B)%Z) (map (fun x => (x * x)%Z) (o_data s))).
  { rewrite Forall_map. eapply Forall_impl; [|exact HF]. cbn. intros a Ha. nia. }
  pose proof (zsum_bound _ _ HF2) as B2. rewrite map_length in B2. nia.
Qed.

Lemma sums_le W h B : 0 < W -> (0 <= B)%Z -> Forall (fun x => (Z.abs x <= B)%Z) (since_reset h []) ->
  let s := fold_left i_step h (o_init W) in
  (Z.abs (o_sum s) <= Z.of_nat W * B)%Z /\ (Z.abs (o_sumsq s) <= Z.of_nat W * (B * B))%Z.
Proof.
  intros HW HB HF s. pose proof (o_inv_run W HW h) as Hinv.
  exact (inv_sums_le W s _ B HB Hinv (o_inv_Forall _ W s _ Hinv HF)).
Qed.

Local Open Scope R_scope.

Fixpoint rsum (l : list R) : R := match l with [] => 0 | x :: r => x + rsum r end.

Lemma rsum_div (m : Z) l : rsum (map (fun z => IZR z / IZR m) l) = IZR (zsum l) / IZR m.
Proof. induction l as [|z l IH]; cbn [map rsum zsum]; [|rewrite IH, plus_IZR]; unfold Rdiv; ring. Qed.

Lemma rsum_sq_div (m : Z) l : (0 < m)%Z ->
  rsum (map (fun z => IZR z / IZR m * (IZR z / IZR m)) l) = IZR (zsum (map (fun z => (z * z)%Z) l)) / IZR (m * m).
Proof.
  intros Hm. assert (IZR m <> 0) by (apply not_0_IZR; lia). rewrite mult_IZR.
  induction l as [|z l IH]; cbn [map rsum zsum]; [unfold Rdiv; ring|].
  rewrite IH, plus_IZR, mult_IZR. field. assumption.
Qed.

Lemma rsum_sq_shift c l :
  rsum (map (fun y => (y - c) * (y - c)) l) = rsum (map (fun y => y * y) l) - 2 * c * rsum l + INR (length l) * c * c.
Proof.
  induction l as [|y l IH]; [cbn; ring|].
  change (length (y :: l)) with (S (length l)). rewrite S_INR. cbn [map rsum]. rewrite IH. ring.
Qed.

Lemma INR_length_neq0 {A} (l : list A) : l <> [] -> INR (length l) <> 0.
Proof. intros H. apply not_0_INR. pose proof (length_pos l H). lia. Qed.

(* the squared deviations from the mean sum to the sum of squares minus n mean^2: what the code computes *)
Lemma rsum_sq_dev ys : ys <> [] -> let mean := rsum ys / INR (length ys) in
  rsum (map (fun y => (y - mean) * (y - mean)) ys) = rsum (map (fun y => y * y) ys) - INR (length ys) * mean * mean.
Proof. intros H mean. rewrite rsum_sq_shift. unfold mean. field. apply INR_length_neq0, H. Qed.

Lemma mean_of_zsum (m : Z) l : (0 < m)%Z -> l <> [] ->
  rsum (map (fun z => IZR z / IZR m) l) / INR (length l) = IZR (zsum l) / (IZR m * IZR (Z.of_nat (length l))).
Proof.
  intros Hm Hl. rewrite rsum_div, <- INR_IZR_INZ. field.
  split; [apply INR_length_neq0, Hl|apply not_0_IZR; lia].
Qed.

(* The average and the variance are functions of the count and the two sums alone, so they can be read on any list l
   that has those: the stored ring, or the window in arrival order. *)
Lemma average_of_sums (m : Z) s l : (0 < m)%Z -> l <> [] -> length (o_data s) = length l -> o_sum s = zsum l ->
  o_average ROps m s = Some (rsum (map (fun z => IZR z / IZR m) l) / INR (length l)).
Proof.
  intros Hm Hl Hn Hs. unfold o_average. rewrite Hn, Hs.
  destruct (o_data s); [destruct l; [congruence|discriminate]|].
  f_equal. symmetry. apply mean_of_zsum; assumption.
Qed.

Lemma average_formula (m : Z) s x xs' : (0 < m)%Z -> o_data s = x :: xs' ->
  o_sum s = zsum (o_data s) ->
  o_average ROps m s = Some (rsum (map (fun z => IZR z / IZR m) (o_data s)) / INR (length (o_data s))).
Proof. intros Hm Hd Hs. apply average_of_sums; [exact Hm|rewrite Hd; discriminate|reflexivity|exact Hs]. Qed.

(* with a full window (n = W >= 2) the reported variance is the unbiased sample variance of the y_i *)
Lemma variance_of_sums (m : Z) s l : (0 < m)%Z -> (2 <= length l)%nat ->
  length (o_data s) = length l -> o_W s = length l ->
  o_sum s = zsum l -> o_sumsq s = zsum (map (fun z => (z * z)%Z) l) ->
  let ys := map (fun z => IZR z / IZR m) l in
  let mean := rsum ys / INR (length ys) in
  o_variance ROps m s = Some (rsum (map (fun y => (y - mean) * (y - mean)) ys) / (INR (length ys) - 1)).
Proof.
  intros Hm Hl Hn HW Hs Hq ys mean.
  assert (Hne : l <> []) by (destruct l; [inversion Hl|discriminate]).
  unfold o_variance. rewrite (average_of_sums m s l Hm Hne Hn Hs). cbn [ndiv nofZ nmul nsub ROps].
  rewrite Hn, HW, Hq, minus_IZR, <- !INR_IZR_INZ.
  unfold mean. rewrite rsum_sq_dev by (unfold ys; destruct l; [congruence|discriminate]).
  unfold ys. rewrite map_map, rsum_sq_div, map_length by exact Hm. reflexivity.
Qed.

Local Close Scope R_scope.
Local Open Scope Z_scope.

Section RingBuf.
Context {A : Type}.

Fixpoint since_clear (h : list (rop A)) (acc : list A) : list A :=
  match h with
  | [] => acc
  | RAppend x :: r => since_clear r (acc ++ [x])
  | RClear :: r => since_clear r []
  end.

(* next write position of the buffer *)
Definition r_next (s : rstate A) : nat := Z.to_nat (((r_index s + 1) mod two64) mod Z.of_nat (r_cap s)).

Definition r_inv (cap : nat) (s : rstate A) (xs : list A) : Prop :=
  r_cap s = cap /\ ring_inv cap (r_ring s) (r_next s) /\
  ring_logical cap (r_ring s) (r_next s) = lastn cap xs /\
  (r_ring s <> [] -> 0 <= r_index s < Z.of_nat cap /\ (Z.to_nat (r_index s) < length (r_ring s))%nat).

Lemma two64_pos : 0 < two64. Proof. reflexivity. Qed.

Lemma mod_once a b : 0 <= a < 2 * b -> a mod b = if a <? b then a else a - b.
Proof.
  intros H. destruct (Z.ltb_spec a b); [apply Z.mod_small; lia|].
  replace a with (a - b + 1 * b) at 1 by lia. rewrite Z.mod_add, Z.mod_small; lia.
Qed.

(* operator[]'s index (ringIndex_ + size - k) % size, in size_t arithmetic, is slot k back from the next write position p:
   neither ringIndex_ + size nor the subtraction wraps, and each reduction left takes off its modulus at most once *)
Lemma r_get_index (i : Z) (len cap k : nat) : 0 <= i -> (Z.to_nat i < len <= cap)%nat -> 2 * Z.of_nat cap <= two64 ->
  (k < len)%nat ->
  let p := Z.to_nat (((i + 1) mod two64) mod Z.of_nat cap) in
  ((len < cap)%nat -> p = len) ->
  Z.to_nat ((((i + Z.of_nat len) mod two64 - Z.of_nat k) mod two64) mod Z.of_nat len) =
  (if Nat.ltb k p then p - 1 - k else len + p - 1 - k)%nat.
Proof.
  intros Hi Hl Hc Hk p Hp. subst p.
  rewrite (Z.mod_small (i + 1)), (Z.mod_small (i + _)), (Z.mod_small (i + _ - _)) in * by lia.
  rewrite (mod_once (i + 1)), (mod_once (i + _ - _)) in * by lia.
  destruct (Z.ltb_spec (i + 1) (Z.of_nat cap)) as [H1|H1].
  - destruct (Z.ltb_spec (i + Z.of_nat len - Z.of_nat k) (Z.of_nat len)) as [H2|H2].
    + rewrite (proj2 (Nat.ltb_ge _ _)) by lia. lia.
    + rewrite (proj2 (Nat.ltb_lt _ _)) by lia. lia.
  - (* the next write wraps to slot 0: the ring is full and ringIndex_ is its last slot *)
    rewrite (proj2 (Nat.ltb_ge _ _)) by lia.
    destruct (Z.ltb_spec (i + Z.of_nat len - Z.of_nat k) (Z.of_nat len)); lia.
Qed.

Lemma r_inv_init cap : (0 < cap)%nat -> r_inv cap (r_init cap) [].
Proof.
  intros Hc. unfold r_inv, r_init, r_next, ring_logical. cbn [r_cap r_index r_ring length].
  replace ((two64 - 1 + 1) mod two64) with 0 by reflexivity. rewrite Z.mod_0_l by lia.
  split; [reflexivity|]. split; [exact (ring_inv_nil cap Hc)|]. split; [destruct cap; reflexivity|congruence].
Qed.

Lemma r_inv_clear cap s xs : (0 < cap)%nat -> r_inv cap s xs -> r_inv cap (r_clear s) [].
Proof. intros Hc [<- _]. exact (r_inv_init (r_cap s) Hc). Qed.

Lemma r_inv_append cap s xs x : (0 < cap)%nat -> Z.of_nat cap < two64 ->
  r_inv cap s xs -> r_inv cap (r_append s x) (xs ++ [x]).
Proof.
  intros Hc Hc64 (Hcap & Rinv & Rlog & _).
  assert (Hnlt : (r_next s < cap)%nat) by apply Rinv.
  (* the appended state's index is r_next, and its ring is ring_write at r_next *)
  assert (Hidx : r_index (r_append s x) = Z.of_nat (r_next s)).
  { unfold r_append, r_next. cbn [r_index]. rewrite Z2Nat.id; [reflexivity|]. apply Z.mod_pos_bound. lia. }
  assert (Hring : r_ring (r_append s x) = ring_write cap (r_ring s) (r_next s) x).
  { unfold r_append, ring_write, r_next. cbn [r_ring]. rewrite Hcap. reflexivity. }
  assert (Hnext' : r_next (r_append s x) = ((r_next s + 1) mod cap)%nat).
  { unfold r_next at 1. rewrite Hidx. cbn [r_cap r_append]. rewrite Hcap.
    rewrite (Z.mod_small (Z.of_nat (r_next s) + 1)) by lia.
    replace (Z.of_nat (r_next s) + 1) with (Z.of_nat (r_next s + 1)) by lia.
    rewrite <- Nat2Z.inj_mod. apply Nat2Z.id. }
  pose proof (ring_write_pos cap Hc (r_ring s) (r_next s) x Rinv) as Hpos.
  unfold r_inv. rewrite Hnext', Hring, Hidx, Nat2Z.id. cbn [r_cap r_append]. split; [exact Hcap|].
  split; [apply ring_write_inv; assumption|].
  split; [rewrite ring_write_logical, Rlog by assumption; symmetry; apply slide_lastn; exact Hc|].
  intros _. lia.
Qed.

Lemma r_inv_steps cap : (0 < cap)%nat -> Z.of_nat cap < two64 -> forall h s xs,
  r_inv cap s xs -> r_inv cap (fold_left r_step h s) (since_clear h xs).
Proof.
  intros Hc Hc64 h. induction h as [|[x|] h IH]; intros s xs H; cbn [fold_left since_clear r_step].
  - exact H.
  - apply IH, r_inv_append; assumption.
  - apply IH. eapply r_inv_clear; eassumption.
Qed.

(* reading: entry k is the k-th most recent item *)
Lemma ring_kth cap h k : (0 < cap)%nat -> 2 * Z.of_nat cap <= two64 ->
  let s := fold_left r_step h (r_init cap) in
  let xs := since_clear h [] in
  r_size s = Nat.min cap (length xs) /\
  ((k < r_size s)%nat -> r_get s k = nth_error (rev xs) k).
Proof.
  intros Hc Hc2 s xs. assert (Hc64 : Z.of_nat cap < two64) by lia.
  destruct (r_inv_steps cap Hc Hc64 h _ _ (r_inv_init cap Hc)) as (Hcap & Rinv & Rlog & Hne).
  fold s xs in Hcap, Rinv, Rlog, Hne. pose proof Rinv as (R1 & R2 & R3). unfold r_size.
  assert (Hsize : length (r_ring s) = Nat.min cap (length xs)).
  { rewrite <- lastn_length, <- Rlog. symmetry. apply ring_logical_length. lia. }
  split; [exact Hsize|]. intros Hk.
  (* rev xs agrees with rev (lastn cap xs) on the first min(cap,|xs|) entries *)
  assert (Hrev : nth_error (rev xs) k = nth_error (rev (lastn cap xs)) k).
  { unfold lastn. rewrite <- (firstn_skipn (length xs - cap) xs) at 1. rewrite rev_app_distr.
    rewrite nth_error_app1; [reflexivity|]. rewrite rev_length, skipn_length. lia. }
  rewrite Hrev, <- Rlog, (ring_logical_rev_nth cap) by assumption.
  unfold r_get. destruct (r_ring s) as [|a0 r0] eqn:Er; [inversion Hk|]. rewrite <- Er in *. f_equal.
  destruct Hne as [[Hi0 Hi1] Hi2]; [rewrite Er; discriminate|].
  apply r_get_index; try lia. intros Hlt. apply R3. rewrite <- Hcap. exact Hlt.
Qed.
End RingBuf.
