(* KabschExamples.v — C04: concrete instances showing that the hypotheses of the theorems of KabschProper.v / KabschLists.v
   are satisfiable (non-vacuity), among them a noisy 3D set whose best ORTHOGONAL fit is a reflection with a positive last
   singular value (Umeyama's case): the repaired code flips the last direction and the theorem says the result is the
   optimal proper rotation. *)
From Coq Require Import Reals List Arith ZArith Lia Lra Bool Psatz.
From Romea Require Import Num NumR LinAlgBModel LinAlgBProofs LsProofs KabschModel KabschProofs KabschProper KabschLists KabschPrecond.
Import ListNotations.
Local Open Scope R_scope.

Local Notation mg := (mget ROps).
Local Notation vg := (vget ROps).

(* six sources on the axes; targets stretched by diag(3/2, 1, -1/2): cross covariance diag(3, 2, -1) *)
Definition ex_pairs : list (list R * list R) :=
  [([1;0;0], [3/2;0;0]); ([-1;0;0], [-3/2;0;0]); ([0;1;0], [0;1;0]); ([0;-1;0], [0;-1;0]);
   ([0;0;1], [0;0;-1/2]); ([0;0;-1], [0;0;1/2])].
Definition ex_svd (k : nat) (M : list (list R)) : (list (list R) * list R) * list (list R) :=
  (([[1;0;0];[0;1;0];[0;0;1]], [3;2;1]), [[1;0;0];[0;1;0];[0;0;-1]]).
Definition ex_cov : list (list R) := cross_cov ROps 3 ex_pairs (p_sm 3 ex_pairs) (p_tm 3 ex_pairs).

(* the contract for a matrix follows from the contract for a matrix with the same entries *)
Lemma svd_contract_ext k M M' r :
  (forall i j, (i < k)%nat -> (j < k)%nat -> mg M i j = mg M' i j) -> svd_contract k M' r -> svd_contract k M r.
Proof.
  destruct r as [[U sg] V]. intros He (HM & H). split; [|exact H]. intros i j Hi Hj. rewrite He by assumption. now apply HM.
Qed.

Lemma ex_cov_entries : forall i j, (i < 3)%nat -> (j < 3)%nat ->
  mg ex_cov i j = mg [[3;0;0];[0;2;0];[0;0;-1]] i j.
Proof.
  intros i j Hi Hj.
  destruct i as [|[|[|i]]]; try lia; destruct j as [|[|[|j]]]; try lia;
    cbv -[Rplus Rminus Rmult Rdiv Ropp Rinv IZR]; lra.
Qed.

Lemma ex_contract : svd_contract 3 ex_cov (ex_svd 3 ex_cov).
Proof.
  apply (svd_contract_ext 3 _ _ _ ex_cov_entries). unfold svd_contract, ex_svd. repeat split; intros; enumerate_indices.
Qed.

(* exact coplanar data: the unit square in the plane z = 0 under a quarter turn about z and a translation *)
Definition sq_pairs : list (list R * list R) :=
  [([1;0;0], [5;1+1;7]); ([0;1;0], [5-1;1;7]); ([-1;0;0], [5;1-1;7]); ([0;-1;0], [5+1;1;7])].
Definition sq_R0 (i j : nat) : R := mg [[0;-1;0];[1;0;0];[0;0;1]] i j.
Definition sq_tau0 (i : nat) : R := vg [5;1;7] i.

Lemma sq_R0_proper : is_orth 3 sq_R0 /\ fdet ROps 3 sq_R0 = 1.
Proof.
  split.
  - intros a b Ha Hb. destruct a as [|[|[|a]]]; try lia; destruct b as [|[|[|b]]]; try lia; cbn; unfold delta; cbn; lra.
  - cbn. unfold fdet3, sq_R0. cbn. lra.
Qed.

Lemma sq_rank : rank_ge_dm1 3 (p_N sq_pairs) (Sc 3 sq_pairs).
Proof.
  exists 0%nat, 1%nat, 2%nat. repeat split; try (cbn; lia).
  cbn. unfold Sc, p_src. cbn. unfold nat_to_T. cbn. lra.
Qed.

Lemma sq_exact : forall n i, (n < p_N sq_pairs)%nat -> (i < 3)%nat ->
  p_tgt sq_pairs n i = Rsum 3 (fun j => sq_R0 i j * p_src sq_pairs n j) + sq_tau0 i.
Proof.
  intros n i Hn Hi. unfold p_N in Hn. cbn in Hn.
  destruct n as [|[|[|[|n]]]]; try lia; destruct i as [|[|[|i]]]; try lia; cbn; lra.
Qed.

(* 2D: a rotation by a quarter turn, three points *)
Definition ex2_pairs : list (list R * list R) := [([1;0], [0;1]); ([0;1], [-1;0]); ([-1;-1], [1;-1])].
Definition ex2_R0 (i j : nat) : R := mg [[0;-1];[1;0]] i j.

(* an SVD of the square's cross covariance with det(V U^T) = -1: the flip branch on exact coplanar data *)
Definition sq_svd (k : nat) (M : list (list R)) : (list (list R) * list R) * list (list R) :=
  (([[1;0;0];[0;1;0];[0;0;1]], [2;2;0]), [[0;-1;0];[1;0;0];[0;0;-1]]).
Definition sq_cov : list (list R) := cross_cov ROps 3 sq_pairs (p_sm 3 sq_pairs) (p_tm 3 sq_pairs).

Lemma sq_cov_entries : forall i j, (i < 3)%nat -> (j < 3)%nat ->
  mg sq_cov i j = mg [[0;2;0];[-2;0;0];[0;0;0]] i j.
Proof.
  intros i j Hi Hj.
  destruct i as [|[|[|i]]]; try lia; destruct j as [|[|[|j]]]; try lia;
    cbv -[Rplus Rminus Rmult Rdiv Ropp Rinv IZR]; lra.
Qed.

Lemma sq_contract : svd_contract 3 sq_cov (sq_svd 3 sq_cov).
Proof.
  apply (svd_contract_ext 3 _ _ _ sq_cov_entries). unfold svd_contract, sq_svd. repeat split; intros; enumerate_indices.
Qed.

(* the square preconditioned by the scale 2 on both sets: cross covariance 4 times the original one *)
Definition sq2_svd (k : nat) (M : list (list R)) : (list (list R) * list R) * list (list R) :=
  (([[1;0;0];[0;1;0];[0;0;1]], [8;8;0]), [[0;-1;0];[1;0;0];[0;0;-1]]).
Definition sq2_cov : list (list R) :=
  cross_cov ROps 3 (scale_pairs 2 sq_pairs) (p_sm 3 (scale_pairs 2 sq_pairs)) (p_tm 3 (scale_pairs 2 sq_pairs)).

Lemma sq2_cov_entries : forall i j, (i < 3)%nat -> (j < 3)%nat ->
  mg sq2_cov i j = mg [[0;8;0];[-8;0;0];[0;0;0]] i j.
Proof.
  intros i j Hi Hj.
  destruct i as [|[|[|i]]]; try lia; destruct j as [|[|[|j]]]; try lia;
    cbv -[Rplus Rminus Rmult Rdiv Ropp Rinv IZR]; lra.
Qed.

Lemma sq2_contract : svd_contract 3 sq2_cov (sq2_svd 3 sq2_cov).
Proof.
  apply (svd_contract_ext 3 _ _ _ sq2_cov_entries). unfold svd_contract, sq2_svd. repeat split; intros; enumerate_indices.
Qed.
