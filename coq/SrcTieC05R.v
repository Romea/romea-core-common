(* SrcTieC05R.v — towards C05's residual identity for the coefficients the GENERATED row-filling loops write (gen/SrcP2p.v
   through SrcTieC05.source_tie_rows_2d/_3d), real-number dictionary: whatever coefficients hold the model's rows of the
   triples, the residual of row r is the residual of the Cartesian row of the r-th triple — for homogeneous points under the
   hypothesis that source and target carry the same last coordinate, as in C05_p2p_repr_invariant_residual. *)
From Coq Require Import Reals List Arith Lia Lra.
From Romea Require Import Num NumR LinAlgBModel LinAlgBProofs LsModel LsProofs LsHistoryProofs P2pModel P2pProofs P2pSecondOrder SrcP2pLib SrcTieC05.
Import ListNotations.
Local Open Scope R_scope.

Local Notation vg := (vget ROps).

Lemma rows_residual d ps (tr : list ((list R * list R) * list R)) (s0 s : fJY (T:=R)) (z : nat -> R) r :
  rows_of_triples ROps d ps tr s0 s -> (r < length tr)%nat -> same_w d ps (tsrc tr r) (ttgt tr r) ->
  Rsum (p2p_k d) (fun c => fst s r c * z c) - snd s r =
  Rsum (p2p_k d) (fun c => vg (p2p_row ROps d (tsrc tr r) (tnrm tr r)) c * z c) - p2p_y ROps d (tsrc tr r) (ttgt tr r) (tnrm tr r).
Proof.
  intros [H _] Hr Hw. destruct (H r Hr) as [HJ HY]. rewrite <- (p2p_y_same_w d ps _ _ _ Hw), HY.
  f_equal. apply Rsum_ext. intros c Hc. now rewrite HJ.
Qed.

(* so the residual identity of the model's Cartesian rows (value lin) holds of the coefficients written by two pairs of
   loops, one loop of each pair for Cartesian and one for homogeneous points, as source_tie_rows_2d/_3d describe them *)
Lemma rows_residual_identity d (tr : list ((list R * list R) * list R)) (s0 : fJY (T:=R)) (z : nat -> R) r (lin : R)
      (A B : Prop) (sV sH sV' sH' : fJY (T:=R)) :
  (r < length tr)%nat ->
  Rsum (p2p_k d) (fun c => vg (p2p_row ROps d (tsrc tr r) (tnrm tr r)) c * z c) - p2p_y ROps d (tsrc tr r) (ttgt tr r) (tnrm tr r) = lin ->
  (A -> rows_of_triples ROps d d tr s0 sV /\ rows_of_triples ROps d (S d) tr s0 sH) /\
  (B -> rows_of_triples ROps d d tr s0 sV' /\ rows_of_triples ROps d (S d) tr s0 sH') ->
  let res (s : fJY (T:=R)) := Rsum (p2p_k d) (fun c => fst s r c * z c) - snd s r in
  let sw := vg (tsrc tr r) d = vg (ttgt tr r) d in
  (A -> res sV = lin /\ (sw -> res sH = lin)) /\ (B -> res sV' = lin /\ (sw -> res sH' = lin)).
Proof.
  intros Hr Hlin [Hc Ha] res sw.
  assert (HR : forall ps s, rows_of_triples ROps d ps tr s0 s -> same_w d ps (tsrc tr r) (ttgt tr r) -> res s = lin).
  { intros ps s Hs Hw. rewrite <- Hlin. exact (rows_residual d ps tr s0 s z r Hs Hr Hw). }
  split; intros H; [destruct (Hc H) as [HV HH]|destruct (Ha H) as [HV HH]]; split; try intros Hw.
  1, 3: exact (HR _ _ HV (or_introl eq_refl)).
  all: exact (HR _ _ HH (or_intror (conj eq_refl Hw))).
Qed.
