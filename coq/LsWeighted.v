(* LsWeighted.v — the weighted path of the LeastSquares model (LsModel.v), real-number instance.
   C++: weightedEstimate() = weightJAndY_(); estimateUsingCholeskyDecomposition().
   weightJAndY_ multiplies, IN PLACE, entry r of Y_ and row r of J_ (r < dataSize_) by W_(r): the weights enter
   the residual linearly (not as square roots, not squared), so the cost that is minimised is
       sum_{r<n} (w_r * ((J x)_r - Y_r))^2          (normal equations  J^T W^2 (J x - Y) = 0).
   1. [weight_J] / [weight_Y] : the row-scaling identity of the model's [ls_weight], for EVERY state (no shape
      hypothesis is needed: outside the buffers both sides are the default 0).
   2. [ls_weighted_correct] : under the inverse contract for the weighted normal matrix, the value returned by
      [ls_weighted_estimate] is A z + b where z solves the weighted normal equations and is the unique global
      minimiser of the weighted cost; the state left behind holds the scaled rows (in-place effect).
   3. [ls_weighted_twice] : characterisation of that in-place effect: a second weightedEstimate on the same object
      (rows not rewritten) minimises sum (w_r^2 r_r)^2. *)
From Coq Require Import Reals List Arith Lia Lra Bool Psatz.
From Romea Require Import Num NumR LinAlgBModel LinAlgBProofs LsModel LsProofs LsHistoryProofs.
Import ListNotations.
Local Open Scope R_scope.

Section WeightedR.
Variables (n k : nat) (J : nat -> nat -> R) (Y w : nat -> R).

(* sum_r (w_r * r_r)^2 with r = J x - Y *)
Definition wcost (x : nat -> R) : R :=
  Rsum n (fun r => (w r * (Jx k J x r - Y r)) * (w r * (Jx k J x r - Y r))).
(* (J^T W^2 (J x - Y))_a *)
Definition wgrad (x : nat -> R) (a : nat) : R :=
  Rsum n (fun r => (w r * w r) * J r a * (Jx k J x r - Y r)).
(* (J^T W^2 J)_{ij} *)
Definition wnM (i j : nat) : R := Rsum n (fun r => (w r * w r) * (J r i * J r j)).

Variables (J' : nat -> nat -> R) (Y' : nat -> R).
Hypothesis HJ : forall r a, (r < n)%nat -> J' r a = J r a * w r.
Hypothesis HY : forall r, (r < n)%nat -> Y' r = Y r * w r.

Lemma Jx_scaled x r : (r < n)%nat -> Jx k J' x r = w r * Jx k J x r.
Proof.
  intros Hr. unfold Jx. rewrite <- Rsum_scal_l. apply Rsum_ext. intros c _. rewrite HJ by exact Hr. ring.
Qed.

Lemma cost_scaled x : cost n k J' Y' x = wcost x.
Proof.
  unfold cost, wcost. apply Rsum_ext. intros r Hr. rewrite Jx_scaled, HY by exact Hr. ring.
Qed.

Lemma grad_scaled x a : grad n k J' Y' x a = wgrad x a.
Proof.
  unfold grad, wgrad. apply Rsum_ext. intros r Hr. rewrite Jx_scaled, HY, HJ by exact Hr. ring.
Qed.

Lemma nM_scaled i j : nM n J' i j = wnM i j.
Proof. unfold nM, wnM. apply Rsum_ext. intros r Hr. rewrite !HJ by exact Hr. ring. Qed.

(* with non-zero weights the scaled matrix has the same kernel, i.e. full column rank is preserved *)
Lemma kernel_scaled z : (forall r, (r < n)%nat -> w r <> 0) ->
  ((forall r, (r < n)%nat -> Jx k J' z r = 0) <-> (forall r, (r < n)%nat -> Jx k J z r = 0)).
Proof.
  intros Hw. split; intros H r Hr.
  - specialize (H r Hr). rewrite Jx_scaled in H by exact Hr. specialize (Hw r Hr).
    apply Rmult_integral in H. tauto.
  - rewrite Jx_scaled, H by exact Hr. ring.
Qed.

End WeightedR.

(* the weighted cost, gradient and normal matrix only read the first n rows *)
Section WeightedExt.
Variables (n k : nat) (J1 : nat -> nat -> R) (Y1 w1 : nat -> R) (J2 : nat -> nat -> R) (Y2 w2 : nat -> R).
Hypothesis HJ : forall r c, (r < n)%nat -> J1 r c = J2 r c.
Hypothesis HY : forall r, (r < n)%nat -> Y1 r = Y2 r.
Hypothesis Hw : forall r, (r < n)%nat -> w1 r = w2 r.

Lemma wcost_ext x : wcost n k J1 Y1 w1 x = wcost n k J2 Y2 w2 x.
Proof. unfold wcost. apply Rsum_ext. intros r Hr. now rewrite (Jx_ext n k J1 J2), HY, Hw. Qed.
Lemma wgrad_ext x a : wgrad n k J1 Y1 w1 x a = wgrad n k J2 Y2 w2 x a.
Proof. unfold wgrad. apply Rsum_ext. intros r Hr. now rewrite (Jx_ext n k J1 J2), HY, HJ, Hw. Qed.
Lemma wnM_ext i j : wnM n J1 w1 i j = wnM n J2 w2 i j.
Proof. unfold wnM. apply Rsum_ext. intros r Hr. now rewrite !HJ, Hw. Qed.
End WeightedExt.

Lemma nth_map_R0 (g : R -> R) l a : g 0 = 0 -> nth a (map g l) 0 = g (nth a l 0).
Proof. intros H. rewrite <- H at 1. apply map_nth. Qed.

Lemma nth_nil_R a : nth a (@nil R) 0 = 0.
Proof. destruct a; reflexivity. Qed.

Lemma weight_fields (s : ls_state (T:=R)) :
  ls_n (ls_weight ROps s) = ls_n s /\ ls_k (ls_weight ROps s) = ls_k s /\ ls_A (ls_weight ROps s) = ls_A s /\
  ls_b (ls_weight ROps s) = ls_b s /\ ls_jcols (ls_weight ROps s) = ls_jcols s /\ ls_W (ls_weight ROps s) = ls_W s /\
  ls_inv (ls_weight ROps s) = ls_inv s.
Proof. repeat split. Qed.

(* row r < dataSize of J_ is multiplied by W_(r), every column; rows r >= dataSize are untouched *)
Lemma weight_J (s : ls_state (T:=R)) r a :
  Jf (ls_weight ROps s) r a = if Nat.ltb r (ls_n s) then Jf s r a * Wf s r else Jf s r a.
Proof.
  unfold Jf, Wf, mget, ls_weight. cbn [ls_J ls_n ls_W]. rsimpl.
  destruct (Nat.lt_ge_cases r (length (ls_J s))) as [Hr|Hr].
  - rewrite (nth_map_indexed _ (ls_J s) r [] []) by exact Hr.
    destruct (Nat.ltb r (ls_n s)); [|reflexivity].
    apply (nth_map_R0 (fun x => x * vget ROps (ls_W s) r)). ring.
  - rewrite (nth_overflow (map _ _)) by (rewrite map_length, combine_length, seq_length, Nat.min_id; exact Hr).
    rewrite (nth_overflow (ls_J s)) by exact Hr. rewrite nth_nil_R.
    destruct (Nat.ltb r (ls_n s)); lra.
Qed.

Lemma weight_Y (s : ls_state (T:=R)) r :
  Yf (ls_weight ROps s) r = if Nat.ltb r (ls_n s) then Yf s r * Wf s r else Yf s r.
Proof.
  unfold Yf, Wf, vget, ls_weight. cbn [ls_Y ls_n ls_W]. rsimpl.
  destruct (Nat.lt_ge_cases r (length (ls_Y s))) as [Hr|Hr].
  - rewrite (nth_map_indexed _ (ls_Y s) r 0 0) by exact Hr. reflexivity.
  - rewrite (nth_overflow (map _ _)) by (rewrite map_length, combine_length, seq_length, Nat.min_id; exact Hr).
    rewrite (nth_overflow (ls_Y s)) by exact Hr.
    destruct (Nat.ltb r (ls_n s)); lra.
Qed.

Lemma weight_J_in (s : ls_state (T:=R)) r a : (r < ls_n s)%nat -> Jf (ls_weight ROps s) r a = Jf s r a * Wf s r.
Proof. intros H. rewrite weight_J. apply Nat.ltb_lt in H. now rewrite H. Qed.
Lemma weight_Y_in (s : ls_state (T:=R)) r : (r < ls_n s)%nat -> Yf (ls_weight ROps s) r = Yf s r * Wf s r.
Proof. intros H. rewrite weight_Y. apply Nat.ltb_lt in H. now rewrite H. Qed.

(* the normal matrix that weightedEstimate hands to the LDLT solver is J^T W^2 J *)
Lemma weighted_JtJ_get (s : ls_state (T:=R)) i j : (i < ls_k s)%nat -> (j < ls_k s)%nat ->
  mget ROps (ls_JtJ ROps (ls_weight ROps s)) i j = wnM (ls_n s) (Jf s) (Wf s) i j.
Proof.
  intros Hi Hj. rewrite ls_JtJ_get by assumption. cbn [ls_n ls_weight].
  apply nM_scaled. intros r a Hr. now apply weight_J_in.
Qed.

Section WeightedEstimate.
Variable inverse_of : nat -> list (list R) -> list (list R).

Lemma weighted_result s st x : ls_weighted_estimate ROps inverse_of s = Some (st, x) ->
  ls_est_ok s = true /\ ls_estimate_chol ROps inverse_of (ls_weight ROps s) = Some (st, x).
Proof. unfold ls_weighted_estimate. destruct (ls_est_ok s); [auto|discriminate]. Qed.

Theorem ls_weighted_correct s st x :
  let sw := ls_weight ROps s in
  inv_contract (ls_k s) (ls_JtJ ROps sw) (inverse_of (ls_k s) (ls_JtJ ROps sw)) ->
  ls_weighted_estimate ROps inverse_of s = Some (st, x) ->
  let n := ls_n s in let k := ls_k s in
  let z := ls_z sw (inverse_of k (ls_JtJ ROps sw)) in
  (forall i, (i < k)%nat -> vget ROps x i = Rsum k (fun l => Af s i l * z l) + bf s i) /\
  (forall a, (a < k)%nat -> wgrad n k (Jf s) (Yf s) (Wf s) z a = 0) /\
  (forall y, wcost n k (Jf s) (Yf s) (Wf s) z <= wcost n k (Jf s) (Yf s) (Wf s) y) /\
  (forall y, wcost n k (Jf s) (Yf s) (Wf s) y = wcost n k (Jf s) (Yf s) (Wf s) z -> forall i, (i < k)%nat -> y i = z i) /\
  (forall r a, (r < n)%nat -> Jf st r a = Jf s r a * Wf s r) /\
  (forall r, (r < n)%nat -> Yf st r = Yf s r * Wf s r).
Proof.
  intros sw Hc He n k z. apply weighted_result in He. destruct He as (_ & He).
  apply (estimate_with_inv ROps inverse_of) in He. destruct He as (_ & -> & ->).
  destruct (ls_apply_correct sw _ Hc) as (H1 & H2 & _ & H4 & H5).
  pose proof (weight_J_in s) as HJ. pose proof (weight_Y_in s) as HY.
  split; [exact H1|]. split; [|split; [|split; [|split]]].
  - intros a Ha. rewrite <- (grad_scaled n k (Jf s) (Yf s) (Wf s) (Jf sw) (Yf sw) HJ HY). now apply H2.
  - intros y. rewrite <- !(cost_scaled n k (Jf s) (Yf s) (Wf s) (Jf sw) (Yf sw) HJ HY). apply H4.
  - intros y. rewrite <- !(cost_scaled n k (Jf s) (Yf s) (Wf s) (Jf sw) (Yf sw) HJ HY). apply H5.
  - exact HJ.
  - exact HY.
Qed.

(* the in-place effect: a second weightedEstimate on the same object without rewriting the rows works on the
   already scaled rows, i.e. it minimises sum (w_r^2 r_r)^2 of the ORIGINAL rows *)
Theorem ls_weighted_twice s st x st2 x2 :
  ls_weighted_estimate ROps inverse_of s = Some (st, x) ->
  inv_contract (ls_k s) (ls_JtJ ROps (ls_weight ROps st)) (inverse_of (ls_k s) (ls_JtJ ROps (ls_weight ROps st))) ->
  ls_weighted_estimate ROps inverse_of st = Some (st2, x2) ->
  let n := ls_n s in let k := ls_k s in
  let w2 := fun r => Wf s r * Wf s r in
  let z := ls_z (ls_weight ROps st) (inverse_of k (ls_JtJ ROps (ls_weight ROps st))) in
  (forall i, (i < k)%nat -> vget ROps x2 i = Rsum k (fun l => Af s i l * z l) + bf s i) /\
  (forall y, wcost n k (Jf s) (Yf s) w2 z <= wcost n k (Jf s) (Yf s) w2 y).
Proof.
  intros He1 Hc He2 n k w2 z. apply weighted_result in He1. destruct He1 as (_ & He1).
  apply (estimate_with_inv ROps inverse_of) in He1. destruct He1 as (_ & -> & _).
  (* the object now holds the rows of [ls_weight ROps s]; its other fields are those of [s] *)
  set (st := ls_with_inv (ls_weight ROps s) _) in *.
  destruct (ls_weighted_correct st st2 x2 Hc He2) as (H1 & _ & H3 & _).
  split; [exact H1|].
  assert (Hcost : forall y, wcost n k (Jf (ls_weight ROps s)) (Yf (ls_weight ROps s)) (Wf s) y = wcost n k (Jf s) (Yf s) w2 y).
  { intros y. apply Rsum_ext. intros r Hr.
    rewrite (Jx_scaled n k (Jf s) (Wf s) _ (weight_J_in s) y r Hr), weight_Y_in by exact Hr. unfold w2. ring. }
  intros y. rewrite <- !Hcost. apply H3.
Qed.

End WeightedEstimate.

(* non-vacuity witness: 2 rows, 1 unknown, weights (2, 3)
   J = (1, 1)^T, Y = (1, 2)^T, W = (2, 3):  J^T W^2 J = 13, J^T W^2 Y = 4 + 18 = 22, x = 22/13
   (the W-not-squared reading sum w_r r_r^2 would give 8/5, the unweighted one 3/2). *)
Definition wwit_state : ls_state (T:=R) := mk_ls 2 1 [[1]] [0] 1 [[1]; [1]] [1; 2] [2; 3] [[0]].
Definition wwit_inv (k : nat) (M : list (list R)) : list (list R) := [[/ mget ROps M 0 0]].
