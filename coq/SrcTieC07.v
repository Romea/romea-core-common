(* SrcTieC07.v — SYNTACTIC SOURCE TIE of C07 (and, through the same class, C05 / C12): the state transformers regenerated on
   every run from the clang AST of src/regression/leastsquares/LeastSquares.cpp (gen/SrcLs.v, written by
   translate/tr_C07_ls.py; vocabulary SrcEigenDyn.v) ARE the operations of the state machine LsModel.v that the theorems
   of Properties_C07.v / C05 / C12 are about — for EVERY numeric dictionary N whose literals 1 / 1.0 are n_one and whose
   product commutes ([LsDictOK]: the reals, IEEE floats).

   (Base definitions [abs], [src_dims] and the covariance tie are in SrcTieLs.v.)
   [abs] reads the generated record of data members (src_ls: the ten fields of the class, in declaration order) as the
   model's state: the model has no JtJ_ / JtY_ fields because computeJTJ_ / computeJTY_ overwrite every entry they later
   read — which is exactly what [tie_computeJTJ] / [tie_computeJTY] prove about the generated loops (the result is the
   table of the dot products over the first dataSize_ rows, whatever JtJ_ / JtY_ and the rows beyond dataSize_ held).
   [src_dims]: the shapes the class keeps (Ac_ k x k, inverseJtJ_ with k columns, JtJ_ k x k, JtY_ of size k); it is
   established by the constructors and kept by every member (lemmas dims_...), given a k x k argument of setPreconditionner.
   The model returns None where the C++ is undefined (ls_est_ok / ls_row_ok false); the ties are stated where it is defined.

   The Eigen solvers are ORACLES in both: the generated terms take [ldlt_solve : dmat -> dmat -> dmat] and
   [jacobi_svd : dmat -> svd_res]; the model's oracles are the readings [inverse_of_src] / [svd_of_src] of them (solve against
   the identity; (U, sigma, V) as row lists), so every theorem of Properties_C07.v stated for arbitrary oracles applies. *)
From Coq Require Import List Arith Bool Lia ZArith.
From Romea Require Import Num LinAlgBModel LinAlgBProofs LsModel LsHistoryProofs SrcEigenDyn SrcEigenDynFacts SrcTieLs.
From Romea.gen Require Import SrcLs.
Import ListNotations.

Section Tie.
Context {T : Type} (N : NumOps T).
Variable fill : T.
Variable ldlt_solve : dmat (T:=T) -> dmat (T:=T) -> dmat (T:=T).
Variable jacobi_svd : dmat (T:=T) -> svd_res (T:=T).
Implicit Types (s : src_ls (T:=T)) (M : dmat (T:=T)).

(* the model's oracles, read off the oracles of the generated terms *)
Definition inverse_of_src (k : nat) (M : list (list T)) : list (list T) :=
  dm_rows (ldlt_solve (mkdm k M) (dm_identity N k k)).
Definition svd_of_src (k : nat) (M : list (list T)) : (list (list T) * list T) * list (list T) :=
  let r := jacobi_svd (mkdm k M) in (dm_rows (svd_U r), svd_sigma r, dm_rows (svd_V r)).

(* what Eigen guarantees about the shapes of the results (premises of the estimate ties) *)
Definition ldlt_dims : Prop := forall M B, dm_cols (ldlt_solve M B) = dm_cols B.
Definition svd_dims : Prop := forall M, let r := jacobi_svd M in
  dm_shape (dm_nrows M) (dm_nrows M) (svd_U r) /\ dm_shape (dm_nrows M) (dm_nrows M) (svd_V r) /\ length (svd_sigma r) = dm_nrows M.

Lemma tie_new0 : abs (src_new0 (T:=T)) = ls_new0 (T:=T).
Proof. reflexivity. Qed.
Lemma tie_new1 k : abs (src_new1 N k) = ls_new1 N k.
Proof. reflexivity. Qed.
Lemma tie_new2 k n : abs (src_new2 N k n) = ls_new2 N k n.
Proof. reflexivity. Qed.

Lemma dims_zero r c : dm_shape r c (dm_zero N r c).
Proof. apply dm_shape_mtab. Qed.

(* what the constructors and setEstimateSize leave in Ac_, JtJ_, inverseJtJ_, JtY_ *)
Lemma dims_fresh n k Bc J Y W :
  src_dims (mk_src n k (dm_identity N k k) Bc J Y W (dm_zero N k k) (dm_zero N k k) (dv_zero N k)).
Proof.
  unfold src_dims, dm_nrows; cbn. rewrite length_mtab.
  repeat split; try reflexivity; try apply length_mtab; try apply Forall_mtab; apply length_tab.
Qed.

Lemma dims_new1 k : src_dims (src_new1 N k).
Proof. apply dims_fresh. Qed.
Lemma dims_new2 k n : src_dims (src_new2 N k n).
Proof. apply dims_fresh. Qed.

Lemma tie_setEstimateSize k s : abs (src_setEstimateSize N k s) = ls_set_estimate_size N k (abs s).
Proof. reflexivity. Qed.
Lemma dims_setEstimateSize k s : src_dims (src_setEstimateSize N k s).
Proof. apply dims_fresh. Qed.

(* grow-only buffers: the reallocation happens exactly when Y_.rows() < dataSize, resets W_ to ones and leaves [fill] in J_ / Y_ *)
Lemma tie_setDataSize (D : LsDictOK N) n s :
  (abs (fst (src_setDataSize N fill n s)), snd (src_setDataSize N fill n s)) = ls_set_data_size N fill n (abs s).
Proof.
  unfold src_setDataSize, ls_set_data_size. cbv zeta. cbn [abs ls_Y].
  destruct (Nat.ltb (length (Y_ s)) n); cbn [fst snd]; [|reflexivity].
  unfold abs; cbn. unfold dv_const, dv_resize. rewrite length_tab, (lsd_one_dec N D). reflexivity.
Qed.
Lemma dims_setDataSize n s : src_dims s -> src_dims (fst (src_setDataSize N fill n s)).
Proof. unfold src_setDataSize. cbv zeta. destruct (Nat.ltb (length (Y_ s)) n); cbn [fst]; exact (fun H => H). Qed.

Lemma tie_setPreconditionner2 A b s : abs (src_setPreconditionner2 A b s) = ls_set_precond (dm_rows A) b (abs s).
Proof. reflexivity. Qed.
(* setPreconditionner(Ac) resets Bc_ to zero *)
Lemma tie_setPreconditionner1 A s : abs (src_setPreconditionner1 N A s) = ls_set_precond_A N (dm_rows A) (abs s).
Proof. reflexivity. Qed.
Lemma dims_setPreconditionner2 A b s : src_dims s -> dm_nrows A = estimateSize_ s -> dm_cols A = estimateSize_ s ->
  src_dims (src_setPreconditionner2 A b s).
Proof. intros (H1 & H2 & H3 & H4 & H5) Ha Hb. unfold src_dims, src_setPreconditionner2; cbn. auto. Qed.
Lemma dims_setPreconditionner1 A s : src_dims s -> dm_nrows A = estimateSize_ s -> dm_cols A = estimateSize_ s ->
  src_dims (src_setPreconditionner1 N A s).
Proof. intros H Ha Hb. unfold src_setPreconditionner1. cbv zeta. apply dims_setPreconditionner2; assumption. Qed.

(* getJ() / getY() / getW() return references to J_ / Y_ / W_ *)
Lemma tie_getters s : src_getJ s = J_ s /\ src_getY s = Y_ s /\ src_getW s = W_ s.
Proof. repeat split. Qed.

(* the harness writes row i as  getJ()(i,j) = row_j (j < cols), getY()(i) = y, getW()(i) = w : stores through the references *)
Definition src_set_row (i : nat) (row : list T) (y w : T) (s : src_ls (T:=T)) : src_ls (T:=T) :=
  let s1 := src_getJ_put s (fold_left (fun M j => dm_set M i j (nth j row (nzero N))) (seq 0 (dm_cols (src_getJ s))) (src_getJ s)) in
  let s2 := src_getY_put s1 (dv_set (src_getY s1) i y) in
  src_getW_put s2 (dv_set (src_getW s2) i w).

Lemma set_row_fold c i (rowv : list T) M : (i < length (dm_rows M))%nat -> length (nth i (dm_rows M) []) = c -> length rowv = c ->
  let M' := fold_left (fun M j => dm_set M i j (nth j rowv (nzero N))) (seq 0 c) M in
  dm_cols M' = dm_cols M /\ dm_rows M' = set_nth i rowv (dm_rows M).
Proof.
  intros Hi Hc Hr.
  pose (P := fun (j : nat) (M' : dmat (T:=T)) =>
     dm_cols M' = dm_cols M /\ length (dm_rows M') = length (dm_rows M) /\
     (forall a, a <> i -> nth a (dm_rows M') [] = nth a (dm_rows M) []) /\
     length (nth i (dm_rows M') []) = c /\
     forall b, (b < j)%nat -> nth b (nth i (dm_rows M') []) (nzero N) = nth b rowv (nzero N)).
  assert (HP : P (0 + c)%nat (fold_left (fun M j => dm_set M i j (nth j rowv (nzero N))) (seq 0 c) M)).
  { apply (fold_seq_inv _ P).
    - repeat split; auto. intros b Hb; lia.
    - intros j M1 Hj (H1 & H2 & H3 & H4 & H5). unfold P, dm_set; cbn [dm_cols dm_rows]. repeat split.
      + exact H1.
      + rewrite length_set_nth. exact H2.
      + intros a Ha. rewrite nth_set_nth_neq by auto. apply H3. exact Ha.
      + rewrite nth_set_nth_eq by lia. rewrite length_set_nth. exact H4.
      + intros b Hb. rewrite nth_set_nth_eq by lia. destruct (Nat.eq_dec b j) as [->|Hne].
        * apply nth_set_nth_eq. lia.
        * rewrite nth_set_nth_neq by auto. apply H5. lia. }
  destruct HP as (H1 & H2 & H3 & H4 & H5). split; [exact H1|].
  apply (nth_ext _ _ [] []).
  - rewrite length_set_nth. exact H2.
  - intros a Ha. destruct (Nat.eq_dec a i) as [->|Hne].
    + rewrite nth_set_nth_eq by exact Hi. apply (nth_ext _ _ (nzero N) (nzero N)); [lia|]. intros b Hb. apply H5. lia.
    + rewrite nth_set_nth_neq by auto. apply H3. exact Hne.
Qed.

Lemma tie_set_row i row y w s : ls_wf (abs s) -> ls_row_ok i row (abs s) = true ->
  Some (abs (src_set_row i row y w s)) = ls_set_row i row y w (abs s).
Proof.
  intros (HJ & HW & Hn & Hf) Hok. unfold ls_set_row. rewrite Hok. f_equal.
  unfold ls_row_ok in Hok. apply andb_true_iff in Hok. destruct Hok as (Hi & Hl).
  apply Nat.ltb_lt in Hi. apply Nat.eqb_eq in Hl. cbn [abs ls_Y ls_jcols ls_J ls_W] in *.
  assert (Hrow : length (nth i (dm_rows (J_ s)) []) = dm_cols (J_ s)).
  { rewrite Forall_forall in Hf. apply Hf. apply nth_In. lia. }
  destruct (set_row_fold (dm_cols (J_ s)) i row (J_ s) ltac:(lia) Hrow Hl) as (E1 & E2).
  unfold src_set_row, src_getJ_put, src_getY_put, src_getW_put, src_getJ, src_getY, src_getW, abs. cbn.
  rewrite E1, E2. reflexivity.
Qed.

Definition with_JtJ (s : src_ls (T:=T)) (M : dmat (T:=T)) : src_ls (T:=T) :=
  mk_src (dataSize_ s) (estimateSize_ s) (Ac_ s) (Bc_ s) (J_ s) (Y_ s) (W_ s) M (inverseJtJ_ s) (JtY_ s).
Definition with_JtY (s : src_ls (T:=T)) (v : list T) : src_ls (T:=T) :=
  mk_src (dataSize_ s) (estimateSize_ s) (Ac_ s) (Bc_ s) (J_ s) (Y_ s) (W_ s) (JtJ_ s) (inverseJtJ_ s) v.

(* whatever JtJ_ held and whatever lies in the rows of J_ beyond dataSize_, computeJTJ_ leaves the table of the dot products of the
   column heads of length dataSize_ : this is the history-independence of the normal matrix, on the code as written *)
Lemma tie_computeJTJ (D : LsDictOK N) s : src_dims s -> (dataSize_ s <= dm_nrows (J_ s))%nat ->
  src_computeJTJ_ N s = with_JtJ s (mkdm (estimateSize_ s) (ls_JtJ N (abs s))).
Proof.
  intros (_ & _ & _ & Hs & _) Hn. unfold src_computeJTJ_, with_JtJ. cbv zeta. f_equal.
  unfold ls_JtJ. cbn [abs ls_k ls_n ls_J].
  apply (sym_fill_fold N (estimateSize_ s)); [|exact Hs].
  intros M i j HM Hij. split.
  - repeat apply dm_set_shape; try exact HM; lia.
  - intros a b Ha Hb. rewrite !(dm_get_set N (estimateSize_ s) (estimateSize_ s));
      try lia; try exact HM; try (apply dm_set_shape; [exact HM|lia]).
    rewrite !dot_col_col by exact Hn.
    destruct (Nat.eqb_spec a i), (Nat.eqb_spec b j), (Nat.eqb_spec a j), (Nat.eqb_spec b i); cbn [andb orb]; subst;
      try reflexivity; apply sumn_ext; intros r _; apply (lsd_mul_comm N D).
Qed.

Lemma tie_computeJTY s : src_dims s -> (dataSize_ s <= dm_nrows (J_ s))%nat ->
  src_computeJTY_ N s = with_JtY s (ls_JtY N (abs s)).
Proof.
  intros (_ & _ & _ & _ & Hl) Hn. unfold src_computeJTY_, with_JtY. cbv zeta. f_equal.
  unfold ls_JtY. cbn [abs ls_k ls_n ls_J ls_Y].
  apply (vec_fill_fold N (estimateSize_ s)); [|exact Hl].
  intros v i Hv Hi. split.
  - unfold dv_set. rewrite length_set_nth. exact Hv.
  - intros a Ha. rewrite dv_get_set by lia. rewrite dot_col_vec by exact Hn. destruct (Nat.eqb_spec a i); subst; reflexivity.
Qed.

Lemma dims_with_JtJ s (f : nat -> nat -> T) : src_dims s -> src_dims (with_JtJ s (mkdm (estimateSize_ s) (mtab (estimateSize_ s) (estimateSize_ s) f))).
Proof. intros (H1 & H2 & H3 & H4 & H5). unfold src_dims, with_JtJ; cbn. repeat split; auto; try apply length_mtab; apply Forall_mtab. Qed.

(* the state after computeJTJ_(); computeJTY_() *)
Definition normal_state s : src_ls (T:=T) := with_JtY (with_JtJ s (mkdm (estimateSize_ s) (ls_JtJ N (abs s)))) (ls_JtY N (abs s)).

Lemma dims_normal s : src_dims s -> src_dims (normal_state s).
Proof.
  intros (H1 & H2 & H3 & _ & _). repeat split; try assumption; cbn; try apply length_mtab; try apply Forall_mtab; apply length_tab.
Qed.

Lemma tie_normal (D : LsDictOK N) s : src_dims s -> (dataSize_ s <= dm_nrows (J_ s))%nat ->
  src_computeJTY_ N (src_computeJTJ_ N s) = normal_state s.
Proof.
  intros Hd Hn. rewrite (tie_computeJTJ D s Hd Hn). rewrite tie_computeJTY; [reflexivity| |exact Hn].
  apply dims_with_JtJ. exact Hd.
Qed.

Lemma tie_normal' (D : LsDictOK N) s : src_dims s -> (dataSize_ s <= dm_nrows (J_ s))%nat ->
  src_computeJTJ_ N (src_computeJTY_ N s) = normal_state s.
Proof.
  intros Hd Hn. rewrite (tie_computeJTY s Hd Hn). rewrite (tie_computeJTJ D); [reflexivity| |exact Hn].
  destruct Hd as (H1 & H2 & H3 & H4 & H5). repeat split; try assumption; try apply H4. apply length_tab.
Qed.

Lemma est_ok_rows s : ls_wf (abs s) -> (dataSize_ s <= dm_nrows (J_ s))%nat.
Proof. intros (HJ & _ & Hn & _). cbn [abs ls_J ls_Y ls_n] in *. unfold dm_nrows. lia. Qed.

(* Both estimate functions end with  inverseJtJ_ = M;  return Ac_ * inverseJtJ_ * JtY_ + Bc_  on the state after
   computeJTJ_ / computeJTY_ : in the model, [ls_with_inv] and [ls_apply]. *)
Definition with_inverse s M : src_ls (T:=T) :=
  mk_src (dataSize_ s) (estimateSize_ s) (Ac_ s) (Bc_ s) (J_ s) (Y_ s) (W_ s) (JtJ_ s) M (JtY_ s).

Lemma dims_with_inverse s M : src_dims s -> dm_cols M = estimateSize_ s -> src_dims (with_inverse s M).
Proof. intros (H1 & H2 & _ & H4 & H5) HM. repeat split; try assumption; apply H4. Qed.

Lemma apply_eq s M : src_dims s -> dm_cols M = estimateSize_ s ->
  dv_add N (dm_mulv N (dm_mul N (Ac_ s) M) (ls_JtY N (abs s))) (Bc_ s) = ls_apply N (abs s) (dm_rows M).
Proof.
  intros (H1 & H2 & _) H3. rewrite (dm_mul_eq N _ _ _ _ _ H1 H2 H3).
  rewrite (dm_mulv_eq N _ _ (estimateSize_ s) (estimateSize_ s)); [|unfold dm_nrows; cbn; apply length_mtab|reflexivity].
  apply dv_add_eq. unfold mvmul. apply length_tab.
Qed.

Lemma tie_estimate s M : src_dims s -> dm_cols M = estimateSize_ s ->
  let s2 := normal_state s in
  (abs (with_inverse s2 M), dv_add N (dm_mulv N (dm_mul N (Ac_ s2) M) (JtY_ s2)) (Bc_ s2)) =
  (ls_with_inv (abs s) (dm_rows M), ls_apply N (abs s) (dm_rows M)) /\ src_dims (with_inverse s2 M).
Proof.
  intros Hd HM s2. split; [|apply dims_with_inverse; [apply dims_normal; exact Hd|exact HM]].
  f_equal. exact (apply_eq s M Hd HM).
Qed.

Lemma src_chol_eq (D : LsDictOK N) s : src_dims s -> ls_wf (abs s) ->
  src_estimateUsingCholeskyDecomposition N ldlt_solve s =
  let s2 := normal_state s in
  let M := ldlt_solve (mkdm (estimateSize_ s) (ls_JtJ N (abs s))) (dm_identity N (estimateSize_ s) (estimateSize_ s)) in
  (with_inverse s2 M, dv_add N (dm_mulv N (dm_mul N (Ac_ s2) M) (JtY_ s2)) (Bc_ s2)).
Proof.
  intros Hd Hwf. unfold src_estimateUsingCholeskyDecomposition. cbv zeta.
  first [rewrite (tie_normal D s Hd (est_ok_rows s Hwf)) | rewrite (tie_normal' D s Hd (est_ok_rows s Hwf))]. reflexivity.
Qed.

(* each estimate function is the model's (state and returned vector) and keeps the shapes *)
Lemma tie_chol (D : LsDictOK N) s : ldlt_dims -> src_dims s -> ls_wf (abs s) -> ls_est_ok (abs s) = true ->
  Some (abs (fst (src_estimateUsingCholeskyDecomposition N ldlt_solve s)), snd (src_estimateUsingCholeskyDecomposition N ldlt_solve s))
  = ls_estimate_chol N inverse_of_src (abs s) /\
  src_dims (fst (src_estimateUsingCholeskyDecomposition N ldlt_solve s)).
Proof.
  intros Hl Hd Hwf Hok. unfold ls_estimate_chol. rewrite Hok, (src_chol_eq D s Hd Hwf). cbv zeta. cbn [fst snd].
  split; [f_equal|]; (apply tie_estimate; [exact Hd|apply Hl]).
Qed.

Lemma svd_loop_eq k (thr : T) (sigma : list T) : length sigma = k ->
  fold_left (fun M n => if nltb N thr (dm_get N M n n) then dm_set M n n (ndiv N (n_one N) (dm_get N M n n)) else M)
            (seq 0 k) (dm_of_diag N sigma)
  = mkdm k (mtab k k (fdiag N (svd_inv_diag N thr sigma))).
Proof.
  intros Hs.
  assert (H0 : dm_shape k k (dm_of_diag N sigma)). { unfold dm_of_diag. rewrite Hs. apply dm_shape_mtab. }
  rewrite (diag_map_fold N k _ (fun x => if nltb N thr x then ndiv N (n_one N) x else x) _); [|clear H0|exact H0].
  - f_equal. apply mtab_ext. intros a b Ha Hb. unfold dm_get, dm_of_diag; cbn [dm_rows]. rewrite Hs.
    rewrite !mget_mtab by assumption. unfold fdiag, svd_inv_diag. rewrite Nat.eqb_refl. destruct (Nat.eqb a b); reflexivity.
  - intros M n HM Hn. destruct (nltb N thr (dm_get N M n n)) eqn:E.
    + split; [apply dm_set_shape; [exact HM|lia]|]. intros a b Ha Hb.
      rewrite (dm_get_set N k k) by (try exact HM; lia). reflexivity.
    + split; [exact HM|]. intros a b Ha Hb.
      destruct (Nat.eqb_spec a n), (Nat.eqb_spec b n); cbn [andb]; subst; reflexivity.
Qed.

Lemma src_svd_eq (D : LsDictOK N) s : svd_dims -> src_dims s -> ls_wf (abs s) ->
  src_estimateUsingSVD N jacobi_svd s =
  let s2 := normal_state s in
  let M := mkdm (estimateSize_ s) (pinv_of N svd_of_src true (estimateSize_ s) (ls_JtJ N (abs s))) in
  (with_inverse s2 M, dv_add N (dm_mulv N (dm_mul N (Ac_ s2) M) (JtY_ s2)) (Bc_ s2)).
Proof.
  intros Hsv Hd Hwf. unfold src_estimateUsingSVD. cbv zeta.
  first [rewrite (tie_normal D s Hd (est_ok_rows s Hwf)) | rewrite (tie_normal' D s Hd (est_ok_rows s Hwf))].
  unfold with_inverse, normal_state, with_JtY, with_JtJ, pinv_of, svd_of_src.
  cbn [dataSize_ estimateSize_ Ac_ Bc_ J_ Y_ W_ JtJ_ inverseJtJ_ JtY_ fst snd].
  set (k := estimateSize_ s). set (r := jacobi_svd (mkdm k (ls_JtJ N (abs s)))).
  destruct (Hsv (mkdm k (ls_JtJ N (abs s)))) as ((HU1 & HU2 & _) & (HV1 & HV2 & _) & Hsg). fold r in HU1, HU2, HV1, HV2, Hsg.
  replace (dm_nrows (mkdm k (ls_JtJ N (abs s)))) with k in * by (symmetry; apply length_mtab).
  rewrite ?(lsd_one N D), ?(lsd_one_dec N D).      (* the literal 1 / 1.0 of the source is the model's n_one *)
  rewrite (svd_loop_eq k _ _ Hsg).
  (* V * D * U^T *)
  rewrite (dm_mul_eq N (svd_V r) (mkdm k _) k k k HV2 HV1 eq_refl), (dm_transpose_eq N (svd_U r) k k HU2 HU1).
  rewrite (dm_mul_eq N _ _ k k k); [|unfold dm_nrows; cbn; apply length_mtab|reflexivity|reflexivity]. cbn [dm_rows].
  (* the threshold: epsilon * sigma_0 when estimateSize_ > 0; with estimateSize_ = 0 there is no singular value to compare
     and every product below is empty *)
  destruct (Nat.ltb_spec 0 k) as [Hpos|Hz]; [reflexivity|].
  assert (E : k = 0%nat) by lia. rewrite E. reflexivity.
Qed.

Lemma tie_svd (D : LsDictOK N) s : svd_dims -> src_dims s -> ls_wf (abs s) -> ls_est_ok (abs s) = true ->
  Some (abs (fst (src_estimateUsingSVD N jacobi_svd s)), snd (src_estimateUsingSVD N jacobi_svd s))
  = ls_estimate_svd N svd_of_src (abs s) /\
  src_dims (fst (src_estimateUsingSVD N jacobi_svd s)).
Proof.
  intros Hsv Hd Hwf Hok. unfold ls_estimate_svd. rewrite Hok, (src_svd_eq D s Hsv Hd Hwf). cbv zeta. cbn [fst snd].
  split; [f_equal|]; (apply tie_estimate; [exact Hd|reflexivity]).
Qed.

(* Y_.head(n).array() *= W_.head(n).array() *)
Lemma weight_Y_eq (Y W : list T) n : (n <= length Y)%nat ->
  dv_set_head n Y (dv_cwise_mul N (dv_head n Y) (dv_head n W)) =
  map (fun iy : nat * T => let (i, y) := iy in if Nat.ltb i n then nmul N y (vget N W i) else y) (combine (seq 0 (length Y)) Y).
Proof.
  intros Hn. unfold dv_set_head, dv_cwise_mul, dv_head. rewrite (firstn_length_le _ Hn).
  rewrite firstn_all2 by (rewrite length_tab; lia).
  apply (nth_ext _ _ (nzero N) (nzero N)).
  - rewrite app_length, length_tab, skipn_length, map_length, combine_length, seq_length. lia.
  - intros a Ha. rewrite app_length, length_tab, skipn_length in Ha.
    rewrite (nth_map_indexed _ Y a (nzero N) (nzero N)) by lia.
    destruct (Nat.ltb_spec a n) as [Hlt|Hge].
    + rewrite app_nth1 by (rewrite length_tab; exact Hlt).
      rewrite nth_tab by exact Hlt. unfold vget. now rewrite !nth_firstn_lt.
    + rewrite app_nth2 by (rewrite length_tab; exact Hge). rewrite length_tab, nth_skipn_add. f_equal. lia.
Qed.

Lemma dm_set_col_shape r c M i (u : list T) : dm_shape r c M -> dm_shape r c (dm_set_col N M i u).
Proof.
  intros (Hc & Hr & Hf). repeat split; cbn.
  - exact Hc.
  - rewrite map_length, combine_length, seq_length. lia.
  - apply Forall_forall. intros x Hx. apply in_map_iff in Hx. destruct Hx as ((a, row) & <- & Hin). cbn [fst snd].
    rewrite length_set_nth. rewrite Forall_forall in Hf. apply Hf. apply in_combine_r in Hin. exact Hin.
Qed.

Lemma dm_get_set_col r c M i (u : list T) a b : dm_shape r c M -> (i < c)%nat -> (a < r)%nat ->
  dm_get N (dm_set_col N M i u) a b = if Nat.eqb b i then vget N u a else dm_get N M a b.
Proof.
  intros (Hc & Hr & Hf) Hi Ha. unfold dm_get, dm_set_col, mget. cbn [dm_rows].
  rewrite (nth_map_indexed _ (dm_rows M) a [] []) by lia. cbn [fst snd].
  assert (Hl : length (nth a (dm_rows M) []) = c). { rewrite Forall_forall in Hf. apply Hf. apply nth_In. lia. }
  destruct (Nat.eqb_spec b i) as [->|Hne].
  - apply nth_set_nth_eq. lia.
  - apply nth_set_nth_neq. auto.
Qed.

(* one pass of the loop: column i, rows below n, multiplied by W *)
Lemma weight_col_get r c M (W : list T) n i a b : dm_shape r c M -> (i < c)%nat -> (a < r)%nat -> (n <= r)%nat ->
  dm_get N (dm_set_col N M i (dv_set_head n (dm_col N M i) (dv_cwise_mul N (dv_head n (dm_col N M i)) (dv_head n W)))) a b =
  if andb (Nat.eqb b i) (Nat.ltb a n) then nmul N (dm_get N M a i) (vget N W a) else dm_get N M a b.
Proof.
  intros HM Hi Ha Hn. rewrite (dm_get_set_col r c) by assumption.
  destruct (Nat.eqb_spec b i) as [->|Hne]; cbn [andb]; [|reflexivity].
  destruct HM as (Hc & Hr & Hf).
  assert (Hlen : length (dm_col N M i) = r) by (unfold dm_col; rewrite map_length; exact Hr).
  rewrite (weight_Y_eq (dm_col N M i) W n) by lia. unfold vget at 1.
  rewrite (nth_map_indexed _ (dm_col N M i) a (nzero N) (nzero N)) by lia.
  rewrite dm_col_get. reflexivity.
Qed.

Lemma weight_J_fold r c M0 (W : list T) n : dm_shape r c M0 -> (n <= r)%nat ->
  fold_left (fun M i => dm_set_col N M i (dv_set_head n (dm_col N M i) (dv_cwise_mul N (dv_head n (dm_col N M i)) (dv_head n W))))
            (seq 0 c) M0
  = mkdm c (mtab r c (fun a b => if Nat.ltb a n then nmul N (dm_get N M0 a b) (vget N W a) else dm_get N M0 a b)).
Proof.
  intros H0 Hn.
  pose (P := fun (i : nat) (M : dmat (T:=T)) => dm_shape r c M /\
               forall a b, (a < r)%nat -> (b < c)%nat ->
                 dm_get N M a b = if andb (Nat.ltb b i) (Nat.ltb a n) then nmul N (dm_get N M0 a b) (vget N W a) else dm_get N M0 a b).
  assert (HP : P (0 + c)%nat (fold_left (fun M i => dm_set_col N M i (dv_set_head n (dm_col N M i)
                  (dv_cwise_mul N (dv_head n (dm_col N M i)) (dv_head n W)))) (seq 0 c) M0)).
  { apply (fold_seq_inv _ P).
    - split; [exact H0|]. intros a b _ _. reflexivity.
    - intros i M Hi (Hs & Hg). split; [apply dm_set_col_shape; exact Hs|]. intros a b Ha Hb.
      rewrite (weight_col_get r c) by (try assumption; lia). rewrite !Hg by lia. rewrite Nat.ltb_irrefl.
      destruct (Nat.eqb_spec b i), (Nat.ltb_spec a n), (Nat.ltb_spec b i), (Nat.ltb_spec b (S i));
        cbn [andb]; subst; try reflexivity; try lia. }
  destruct HP as (Hs & Hg). apply (dm_shape_ext N r c); [exact Hs|]. intros a b Ha Hb. rewrite Hg by assumption.
  destruct (Nat.ltb_spec b (0 + c)); [|lia]. reflexivity.
Qed.

Lemma tie_weight s : ls_wf (abs s) -> ls_est_ok (abs s) = true -> abs (src_weightJAndY_ N s) = ls_weight N (abs s).
Proof.
  intros Hwf Hok. pose proof (wf_weight N _ Hwf) as (_ & _ & _ & HFw). pose proof Hwf as (HJ & HW & Hn & Hf).
  apply andb_true_iff in Hok. destruct Hok as (Hk & _). apply Nat.eqb_eq in Hk.
  cbn [abs ls_J ls_Y ls_W ls_n ls_jcols ls_k] in HJ, HW, Hn, Hf, Hk.
  unfold src_weightJAndY_, ls_weight, abs at 1. cbv zeta.
  cbn [abs dataSize_ estimateSize_ Ac_ Bc_ J_ Y_ W_ JtJ_ inverseJtJ_ JtY_ ls_n ls_k ls_A ls_b ls_jcols ls_J ls_Y ls_W ls_inv].
  rewrite <- Hk.
  rewrite (weight_J_fold (length (dm_rows (J_ s))) (dm_cols (J_ s)) (J_ s) (W_ s) (dataSize_ s)); [|repeat split; assumption|lia].
  rewrite (weight_Y_eq (Y_ s) (W_ s) (dataSize_ s) Hn). cbn [dm_cols dm_rows]. f_equal.
  (* the model scales whole rows, the code column after column: same table *)
  symmetry. etransitivity.
  { apply (rows_eq_mtab N _ (length (dm_rows (J_ s))) (dm_cols (J_ s))); [|exact HFw].
    now rewrite map_length, combine_length, seq_length, Nat.min_id. }
  apply mtab_ext. intros a b Ha Hb. exact (weight_J_get N (abs s) a b Hwf Ha Hb).
Qed.

Lemma tie_weighted (D : LsDictOK N) s : ldlt_dims -> src_dims s -> ls_wf (abs s) -> ls_est_ok (abs s) = true ->
  Some (abs (fst (src_weightedEstimate N ldlt_solve s)), snd (src_weightedEstimate N ldlt_solve s))
  = ls_weighted_estimate N inverse_of_src (abs s) /\
  src_dims (fst (src_weightedEstimate N ldlt_solve s)).
Proof.
  intros Hl Hd Hwf Hok. unfold ls_weighted_estimate. rewrite Hok. rewrite <- (tie_weight s Hwf Hok).
  unfold src_weightedEstimate. cbv zeta. cbn [fst snd].
  (* weightJAndY_ does not touch the members [src_dims] speaks of *)
  apply (tie_chol D (src_weightJAndY_ N s) Hl Hd); rewrite (tie_weight s Hwf Hok).
  - apply wf_weight. exact Hwf.
  - rewrite est_ok_weight. exact Hok.
Qed.

(* one op of the model's op language, executed by the GENERATED transformers (the repaired SVD path) *)
Definition src_step s (o : ls_op (T:=T)) : src_ls (T:=T) * ls_out (T:=T) :=
  match o with
  | OpSetEstimateSize k => (src_setEstimateSize N k s, OutNone)
  | OpSetDataSize n => (fst (src_setDataSize N fill n s), OutFlag (snd (src_setDataSize N fill n s)))
  | OpSetRow i row y w => (src_set_row i row y w s, OutNone)
  | OpSetPrecond A b => (src_setPreconditionner2 (mkdm (estimateSize_ s) A) b s, OutNone)
  | OpSetPrecondA A => (src_setPreconditionner1 N (mkdm (estimateSize_ s) A) s, OutNone)
  | OpEstimateChol => (fst (src_estimateUsingCholeskyDecomposition N ldlt_solve s), OutVec (snd (src_estimateUsingCholeskyDecomposition N ldlt_solve s)))
  | OpEstimateSVD => (fst (src_estimateUsingSVD N jacobi_svd s), OutVec (snd (src_estimateUsingSVD N jacobi_svd s)))
  | OpWeightedEstimate => (fst (src_weightedEstimate N ldlt_solve s), OutVec (snd (src_weightedEstimate N ldlt_solve s)))
  | OpCovariance var => (fst (src_computeEstimateCovariance N var s), OutMat (dm_rows (snd (src_computeEstimateCovariance N var s))))
  end.

Fixpoint src_run (ops : list (ls_op (T:=T))) s : src_ls (T:=T) * list (ls_out (T:=T)) :=
  match ops with
  | [] => (s, [])
  | o :: r => let s' := fst (src_step s o) in (fst (src_run r s'), snd (src_step s o) :: snd (src_run r s'))
  end.

(* the caller passes a preconditioner matrix with estimateSize_ rows (Eigen asserts the shapes; anything else is undefined) *)
Definition op_dims s (o : ls_op (T:=T)) : Prop :=
  match o with OpSetPrecond A _ | OpSetPrecondA A => length A = estimateSize_ s | _ => True end.
Fixpoint run_dims (ops : list (ls_op (T:=T))) s : Prop :=
  match ops with [] => True | o :: r => op_dims s o /\ run_dims r (fst (src_step s o)) end.

Lemma sim_step (D : LsDictOK N) s o t out : ldlt_dims -> svd_dims -> src_dims s -> ls_wf (abs s) -> op_dims s o ->
  ls_step N inverse_of_src svd_of_src fill true (abs s) o = Some (t, out) ->
  abs (fst (src_step s o)) = t /\ snd (src_step s o) = out /\ src_dims (fst (src_step s o)).
Proof.
  (* [src_step s o] is named before the case analysis: reducing [fst (src_step s o)] in place would leave the kernel to
     compare [fst (fst r, _)] with [fst r] for the large terms [r] of the estimate functions, which it does argument first *)
  intros Hl Hsv Hd Hwf Ho. destruct (src_step s o) as [s1 o1] eqn:E. cbn [fst snd].
  destruct o; cbn [src_step] in E; try rewrite (tie_covariance N _ s Hd) in E; injection E as <- <-; cbn [ls_step op_dims] in Ho |- *.
  - intros [= <- <-]. exact (conj eq_refl (conj eq_refl (dims_setEstimateSize k s))).
  - rewrite <- (tie_setDataSize D n s). intros [= <- <-]. exact (conj eq_refl (conj eq_refl (dims_setDataSize n s Hd))).
  - destruct (ls_row_ok i row (abs s)) eqn:Hok; [|unfold ls_set_row; rewrite Hok; discriminate].
    rewrite <- (tie_set_row i row y w s Hwf Hok). intros [= <- <-]. exact (conj eq_refl (conj eq_refl Hd)).
  - intros [= <- <-]. exact (conj eq_refl (conj eq_refl (dims_setPreconditionner2 (mkdm _ A) b s Hd Ho eq_refl))).
  - intros [= <- <-]. exact (conj eq_refl (conj eq_refl (dims_setPreconditionner1 (mkdm _ A) s Hd Ho eq_refl))).
  - destruct (ls_est_ok (abs s)) eqn:Hok; [|unfold ls_estimate_chol; rewrite Hok; discriminate].
    destruct (tie_chol D s Hl Hd Hwf Hok) as (<- & Hd'). intros [= <- <-]. exact (conj eq_refl (conj eq_refl Hd')).
  - destruct (ls_est_ok (abs s)) eqn:Hok; [|unfold ls_estimate_svd; rewrite Hok; discriminate].
    destruct (tie_svd D s Hsv Hd Hwf Hok) as (<- & Hd'). intros [= <- <-]. exact (conj eq_refl (conj eq_refl Hd')).
  - destruct (ls_est_ok (abs s)) eqn:Hok; [|unfold ls_weighted_estimate; rewrite Hok; discriminate].
    destruct (tie_weighted D s Hl Hd Hwf Hok) as (<- & Hd'). intros [= <- <-]. exact (conj eq_refl (conj eq_refl Hd')).
  - intros [= <- <-]. exact (conj eq_refl (conj eq_refl Hd)).
Qed.

(* SIMULATION: wherever the model's run is defined, the run of the generated transformers produces the same outputs and a state
   whose reading is the model's state *)
Theorem sim_run (D : LsDictOK N) : ldlt_dims -> svd_dims -> forall ops s t outs, src_dims s -> ls_wf (abs s) -> run_dims ops s ->
  ls_run N inverse_of_src svd_of_src fill true ops (abs s) = Some (t, outs) ->
  abs (fst (src_run ops s)) = t /\ snd (src_run ops s) = outs /\ src_dims (fst (src_run ops s)).
Proof.
  intros Hl Hsv. induction ops as [|o r IH]; intros s t outs Hd Hwf Hrd Hr.
  - injection Hr as <- <-. exact (conj eq_refl (conj eq_refl Hd)).
  - apply run_cons in Hr. destruct Hr as (s1 & o1 & o2 & E & E2 & ->). destruct Hrd as (Ho & Hrd).
    destruct (sim_step D s o s1 o1 Hl Hsv Hd Hwf Ho E) as (A1 & A2 & A3).
    pose proof (step_wf _ _ _ _ _ _ _ _ _ Hwf E) as Hwf1.
    rewrite <- A1 in E2, Hwf1. destruct (IH _ _ _ A3 Hwf1 Hrd E2) as (B1 & B2 & B3).
    cbn [src_run fst snd]. rewrite A2, B2. exact (conj B1 (conj eq_refl B3)).
Qed.

Lemma run_dims_app ops1 : forall ops2 s, run_dims ops1 s -> run_dims ops2 (fst (src_run ops1 s)) -> run_dims (ops1 ++ ops2) s.
Proof.
  induction ops1 as [|o r IH]; intros ops2 s H1 H2; [exact H2|].
  destruct H1 as (Ho & Hr). split; [exact Ho|]. apply IH; [exact Hr|exact H2].
Qed.

Lemma src_run_app ops1 : forall ops2 s, fst (src_run (ops1 ++ ops2) s) = fst (src_run ops2 (fst (src_run ops1 s))).
Proof. induction ops1 as [|o r IH]; intros ops2 s; [reflexivity|]. cbn [app src_run fst]. apply IH. Qed.

Definition is_load_op (o : ls_op (T:=T)) : bool := match o with OpSetDataSize _ | OpSetRow _ _ _ _ => true | _ => false end.

Lemma load_run_dims ops : forall s, forallb is_load_op ops = true ->
  run_dims ops s /\ estimateSize_ (fst (src_run ops s)) = estimateSize_ s.
Proof.
  induction ops as [|o r IH]; intros s H; [split; [exact I|reflexivity]|].
  cbn in H. apply andb_true_iff in H. destruct H as (Ho & Hr).
  destruct (IH (fst (src_step s o)) Hr) as (I1 & I2). cbn [run_dims src_run fst]. rewrite I2.
  destruct o; try discriminate; cbn [op_dims src_step fst].
  - split; [split; [exact I|exact I1]|]. unfold src_setDataSize. cbv zeta. destruct (Nat.ltb (length (Y_ s)) n); reflexivity.
  - split; [split; [exact I|exact I1]|]. reflexivity.
Qed.

Lemma load_ops_are_loads n rows ys ws : forallb is_load_op (load_ops N n rows ys ws) = true.
Proof. unfold load_ops, row_ops. cbn [forallb is_load_op andb]. apply forallb_forall. intros o Ho. apply in_map_iff in Ho. destruct Ho as (i & <- & _). reflexivity. Qed.

Lemma problem_run_dims n rows ys ws A (b : list T) s : length A = estimateSize_ s ->
  run_dims (load_ops N n rows ys ws ++ [OpSetPrecond A b]) s.
Proof.
  intros HA. destruct (load_run_dims (load_ops N n rows ys ws) s (load_ops_are_loads n rows ys ws)) as (H1 & H2).
  apply run_dims_app; [exact H1|]. cbn [run_dims op_dims]. rewrite H2. split; [exact HA|exact I].
Qed.

(* a problem run by the generated transformers from a state that reads as a ready one, then an estimate op: the vector returned
   is the model's *)
Lemma src_problem_out (D : LsDictOK N) s k n rows ys ws A (b : list T) est t o : ldlt_dims -> svd_dims ->
  src_dims s -> ready k (abs s) -> length A = k -> (1 <= n)%nat -> (forall i, (i < n)%nat -> length (nth i rows []) = k) ->
  (est = OpEstimateChol \/ est = OpEstimateSVD \/ est = OpWeightedEstimate) ->
  let prob := load_ops N n rows ys ws ++ [OpSetPrecond A b] in
  ls_run N inverse_of_src svd_of_src fill true prob (abs s) = Some (t, o) ->
  exists x, snd (src_step (fst (src_run prob s)) est) = OutVec x /\ est_out N inverse_of_src svd_of_src true est t = Some x.
Proof.
  intros Hl Hsv Hd R HA Hn Hrows Hest prob Hrun.
  destruct (run_problem N inverse_of_src svd_of_src fill true k n rows ys ws A b (abs s) R Hn Hrows)
    as (t' & o' & Hrun' & Wt & _ & _ & _ & _ & Okt & _).
  fold prob in Hrun'. rewrite Hrun in Hrun'. injection Hrun' as <- <-.
  assert (HA' : length A = estimateSize_ s) by (rewrite HA; symmetry; exact (ready_k k _ R)).
  destruct (sim_run D Hl Hsv prob s t o Hd (ready_wf k _ R) (problem_run_dims n rows ys ws A b s HA') Hrun) as (<- & _ & Hd').
  destruct Hest as [->|[->| ->]]; cbn [src_step snd est_out]; eexists; (split; [reflexivity|]).
  - rewrite <- (proj1 (tie_chol D _ Hl Hd' Wt Okt)). reflexivity.
  - rewrite <- (proj1 (tie_svd D _ Hsv Hd' Wt Okt)). reflexivity.
  - rewrite <- (proj1 (tie_weighted D _ Hl Hd' Wt Okt)). reflexivity.
Qed.

(* THE HEADLINE ON THE CODE AS WRITTEN: run ANY history [hist] (estimate size kept, defined in the model, preconditioner arguments
   with estimateSize_ rows) with the generated transformers on one object, then load a problem and call any of the three estimate
   functions: the returned vector is the one a freshly constructed object returns *)
Theorem src_history_independent (D : LsDictOK N) : ldlt_dims -> svd_dims ->
  forall k hist (ms : ls_state (T:=T)) outs n rows ys ws A (b : list T) est,
  forallb keeps_estimate_size hist = true ->
  ls_run N inverse_of_src svd_of_src fill true hist (ls_new1 N k) = Some (ms, outs) ->
  run_dims hist (src_new1 N k) -> length A = k ->
  (1 <= n)%nat -> (forall i, (i < n)%nat -> length (nth i rows []) = k) ->
  (est = OpEstimateChol \/ est = OpEstimateSVD \/ est = OpWeightedEstimate) ->
  let prob := load_ops N n rows ys ws ++ [OpSetPrecond A b] in
  exists x,
    snd (src_step (fst (src_run prob (fst (src_run hist (src_new1 N k))))) est) = OutVec x /\
    snd (src_step (fst (src_run prob (src_new1 N k))) est) = OutVec x.
Proof.
  intros Hl Hsv k hist ms outs n rows ys ws A b est Hkeep Hrun Hrd HA Hn Hrows Hest prob.
  destruct (sim_run D Hl Hsv hist (src_new1 N k) ms outs (dims_new1 k) (wf_new1 N k) Hrd Hrun) as (A1 & _ & A3).
  assert (Rs : ready k ms) by (eapply run_ready; [apply ready_new1|exact Hkeep|exact Hrun]).
  destruct (history_independent N inverse_of_src svd_of_src fill true k hist ms outs n rows ys ws A b est Hkeep Hrun Hn Hrows)
    as (t1 & o1 & t2 & o2 & R1 & R2 & E).
  rewrite <- A1 in R1, Rs.
  destruct (src_problem_out D _ k n rows ys ws A b est t1 o1 Hl Hsv A3 Rs HA Hn Hrows Hest R1) as (x1 & X1 & Y1).
  destruct (src_problem_out D (src_new1 N k) k n rows ys ws A b est t2 o2 Hl Hsv (dims_new1 k) (ready_new1 N k) HA Hn Hrows Hest R2)
    as (x2 & X2 & Y2).
  rewrite Y1, Y2 in E. injection E as ->. exists x2. split; assumption.
Qed.

End Tie.
