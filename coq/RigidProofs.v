(* RigidProofs.v — lemmas about the RansacRigidTransformationModel part of coq/RansacModel.v (real-number instance). *)
From Coq Require Import Reals ZArith List Bool Lra Lia Sorted Permutation.
From Romea Require Import Num NumR RansacModel RansacProofs EstimateProofs.
From Romea.gen Require Import RepoConstants.
Import ListNotations.
Local Open Scope R_scope.

Notation corrR := (corr R).
Definition lenZ {A} (l : list A) : Z := Z.of_nat (length l).

Lemma fold_plus_nonneg l : forall acc, 0 <= acc -> Forall (fun x => 0 <= x) l -> 0 <= fold_left Rplus l acc.
Proof.
  induction l as [|x r IH]; intros acc Ha Hl; cbn [fold_left]; [assumption|].
  inversion Hl; subst. apply IH; [lra | assumption].
Qed.

Lemma sum_list_zero (l : list R) : Forall (fun x => x = 0) l -> sum_list ROps l = 0.
Proof.
  intros H. unfold sum_list. cbn [nadd nzero ROps]. enough (E : forall acc, fold_left Rplus l acc = acc) by apply E.
  induction H as [|x r -> _ IH]; intros acc; cbn [fold_left]; [reflexivity|]. rewrite IH. lra.
Qed.

Lemma sq_dist_nonneg a b : 0 <= sq_dist ROps a b.
Proof.
  unfold sq_dist, sum_list. cbn [nadd nzero ROps]. apply fold_plus_nonneg; [lra|].
  apply Forall_forall. intros x Hx. apply in_map_iff in Hx. destruct Hx as (p & <- & _).
  change (0 <= Rsqr (fst p - snd p)). apply Rle_0_sqr.
Qed.

Lemma residual_nonneg hom dim M src tgt c : 0 <= residual ROps hom dim M src tgt c.
Proof. unfold residual. apply sq_dist_nonneg. Qed.

Lemma gate_R sigma : rigid_gate_factor = 9%Z -> gate ROps sigma = (3 * sigma) * (3 * sigma).
Proof. intros H. unfold gate. rewrite H. cbn [nmul nofZ ROps]. ring. Qed.

Lemma Rltb_iff a b c d : (a < b <-> c < d) -> Rltb a b = Rltb c d.
Proof.
  intros H. destruct (Rltb c d) eqn:E; [apply Rltb_true, H, Rltb_true, E|].
  apply Rltb_false. apply Rltb_false in E. destruct (Rle_lt_dec b a) as [L|L]; [exact L | apply H in L; lra].
Qed.

Lemma gate_as_3sigma x sigma : rigid_gate_factor = 9%Z -> 0 <= x -> 0 < sigma ->
  Rltb x (gate ROps sigma) = Rltb (sqrt x) (3 * sigma).
Proof.
  intros H Hx Hs. rewrite (gate_R sigma H). apply Rltb_iff.
  rewrite <- (sqrt_square (3 * sigma)) at 3 by lra. split; [intros; apply sqrt_lt_1_alt; lra | apply sqrt_lt_0_alt].
Qed.

Lemma with_residuals_sq hom dim M src tgt sorted c :
  In c (with_residuals ROps hom dim M src tgt sorted) ->
  exists c0, In c0 sorted /\ c_src c = c_src c0 /\ c_tgt c = c_tgt c0 /\ c_sq c = residual ROps hom dim M src tgt c0.
Proof.
  unfold with_residuals. intros H. apply in_map_iff in H. destruct H as (c0 & <- & Hin).
  exists c0. cbn. auto.
Qed.

Lemma inliers_3sigma hom dim M src tgt sigma sorted :
  rigid_gate_factor = 9%Z -> 0 < sigma ->
  inliers ROps hom dim M src tgt sigma sorted =
  filter (fun c => Rltb (sqrt (c_sq c)) (3 * sigma)) (with_residuals ROps hom dim M src tgt sorted).
Proof.
  intros H Hs. unfold inliers, gate_filter. apply filter_ext_in. intros c Hc.
  destruct (with_residuals_sq _ _ _ _ _ _ _ Hc) as (c0 & _ & _ & _ & E).
  cbn [nltb ROps]. apply gate_as_3sigma; [assumption | rewrite E; apply residual_nonneg | assumption].
Qed.

Lemma app_cons_assoc {A} (l : list A) x r : l ++ x :: r = (l ++ [x]) ++ r.
Proof. rewrite <- app_assoc. reflexivity. Qed.

Lemma in_combine_same {A} (l : list A) a b : In (a, b) (combine l l) -> a = b.
Proof. induction l as [|y r IH]; cbn [combine]; [intros []|]. intros [E|H]; [now inversion E | now apply IH]. Qed.

Lemma sum_combine_same (g : R * R -> R) (l : list R) :
  (forall a, g (a, a) = 0) -> sum_list ROps (map g (combine l l)) = 0.
Proof.
  intros Hg. apply sum_list_zero, Forall_forall. intros x Hx. apply in_map_iff in Hx.
  destruct Hx as ((a & b) & <- & Hin). apply in_combine_same in Hin. subst. apply Hg.
Qed.

(* std::sort modelled by the stable insertion sort: a permutation for any predicate; sorted when "not less" is
   transitive and holds of x, y whenever y is less than x *)
Section Sort.
  Context {A : Type} (lt : A -> A -> bool).
  Let le (a b : A) : Prop := lt b a = false.

  Lemma insert_by_perm x l : Permutation (x :: l) (insert_by lt x l).
  Proof.
    induction l as [|y r IH]; cbn [insert_by]; [reflexivity|].
    destruct (lt x y); [reflexivity|]. rewrite perm_swap. apply perm_skip. exact IH.
  Qed.

  Lemma sort_by_perm l : Permutation l (sort_by lt l).
  Proof.
    unfold sort_by. rewrite <- (app_nil_r l) at 1. generalize (@nil A) as acc.
    induction l as [|x r IH]; intros acc; cbn [fold_left app]; [reflexivity|].
    rewrite <- IH, <- insert_by_perm. apply Permutation_middle.
  Qed.

  Hypothesis le_trans : forall a b c, le a b -> le b c -> le a c.
  Hypothesis lt_le : forall a b, lt a b = true -> le a b.

  Lemma insert_by_sorted x l : StronglySorted le l -> StronglySorted le (insert_by lt x l).
  Proof.
    induction l as [|y r IH]; intros Hs; cbn [insert_by]; [repeat constructor|].
    inversion Hs as [|y' r' Hr Hy]; subst. destruct (lt x y) eqn:E.
    - constructor; [exact Hs|]. constructor; [apply lt_le; exact E|].
      eapply Forall_impl; [|exact Hy]. intros z Hz. eapply le_trans; [apply lt_le; exact E | exact Hz].
    - constructor; [apply IH; exact Hr|]. rewrite <- insert_by_perm. constructor; assumption.
  Qed.

  Lemma sort_by_sorted l : StronglySorted le (sort_by lt l).
  Proof.
    unfold sort_by. generalize (SSorted_nil le). generalize (@nil A) as acc.
    induction l as [|x r IH]; intros acc Ha; cbn [fold_left]; [exact Ha | apply IH, insert_by_sorted, Ha].
  Qed.
End Sort.

(* std::unique (both forms) only rearranges / drops elements *)
Section Uniq.
  Context {A : Type} (eq : A -> A -> bool).

  Lemma unique_from_incl l : forall a x, In x (unique_from eq a l) -> In x l.
  Proof.
    induction l as [|y r IH]; intros a x H; cbn [unique_from] in H; [destruct H|].
    destruct (eq a y).
    - right. eapply IH; eassumption.
    - destruct H as [->|H]; [left; reflexivity | right; eapply IH; eassumption].
  Qed.

  Lemma unique_by_incl l x : In x (unique_by eq l) -> In x l.
  Proof.
    destruct l as [|y r]; cbn [unique_by]; [tauto|].
    intros [->|H]; [left; reflexivity | right; eapply unique_from_incl; eassumption].
  Qed.

  Lemma unique_inplace_incl l x : In x (unique_inplace eq l) -> In x l.
  Proof.
    unfold unique_inplace. intros H. apply in_app_or in H. destruct H as [H|H].
    - eapply unique_by_incl; eassumption.
    - rewrite <- (firstn_skipn (length (unique_by eq l)) l). apply in_or_app. right. exact H.
  Qed.

  Lemma unique_from_length l : forall a, (length (unique_from eq a l) <= length l)%nat.
  Proof.
    induction l as [|y r IH]; intros a; cbn [unique_from length]; [lia|].
    destruct (eq a y); cbn [length]; [specialize (IH a) | specialize (IH y)]; lia.
  Qed.

  (* the vector keeps its size: the return value of std::unique is discarded *)
  Lemma unique_inplace_length l : length (unique_inplace eq l) = length l.
  Proof.
    unfold unique_inplace. rewrite app_length, skipn_length.
    assert (length (unique_by eq l) <= length l)%nat.
    { destruct l as [|y r]; cbn [unique_by length]; [lia|]. pose proof (unique_from_length r y). lia. }
    lia.
  Qed.

  (* when no two neighbours are equal under the predicate nothing changes *)
  Lemma unique_from_id l : forall a,
    (forall pre x y post, a :: l = pre ++ x :: y :: post -> eq x y = false) -> unique_from eq a l = l.
  Proof.
    induction l as [|y r IH]; intros a H; cbn [unique_from]; [reflexivity|].
    rewrite (H [] a y r eq_refl). f_equal. apply IH.
    intros pre x z post E. apply (H (a :: pre) x z post). cbn. rewrite E. reflexivity.
  Qed.

  Lemma unique_inplace_id l :
    (forall pre x y post, l = pre ++ x :: y :: post -> eq x y = false) -> unique_inplace eq l = l.
  Proof.
    intros H. unfold unique_inplace. destruct l as [|a r]; [reflexivity|].
    cbn [unique_by]. rewrite (unique_from_id r a H). cbn [length skipn].
    rewrite skipn_all. apply app_nil_r.
  Qed.
End Uniq.

Definition cand : Type := (list corrR * R)%type.
Definition cand_of (st : rigid_state R) : cand := (rs_best st, rs_rmse st).

(* the two gates of countInliers *)
Definition passes (mininl : Z) (sigma : R) (c : cand) : Prop := (mininl <= lenZ (fst c))%Z /\ snd c < sigma.
(* c is strictly better than d in the order the code uses: more inliers, or as many and a lower rmse *)
Definition beats (c d : cand) : Prop :=
  (lenZ (fst d) < lenZ (fst c))%Z \/ (lenZ (fst c) = lenZ (fst d) /\ snd c < snd d).

Lemma beats_trans a b c : beats a b -> beats b c -> beats a c.
Proof. unfold beats. intros [H1|[H1 H1']] [H2|[H2 H2']]; [left; lia | left; lia | left; lia | right; split; [lia | lra]]. Qed.

Lemma beats_irrefl a : ~ beats a a.
Proof. unfold beats. intros [H|[_ H]]; [lia | lra]. Qed.

Lemma cand_passes_spec mininl sigma l r :
  cand_passes ROps mininl sigma (lenZ l) r = true <-> passes mininl sigma (l, r).
Proof.
  unfold cand_passes, passes. cbn [nltb ROps fst snd]. rewrite andb_true_iff, Z.leb_le, Rltb_true. tauto.
Qed.

Lemma cand_better_spec l r bl br :
  cand_better ROps (lenZ l) r (lenZ bl) br = true <-> beats (l, r) (bl, br).
Proof.
  unfold cand_better, beats. cbn [nltb ROps fst snd].
  rewrite orb_true_iff, andb_true_iff, Z.ltb_lt, Z.eqb_eq, Rltb_true. tauto.
Qed.

Lemma rigid_store_cases mininl sigma st l r :
  (passes mininl sigma (l, r) /\ beats (l, r) (cand_of st) /\ rigid_store ROps mininl sigma st l r = mkRigid l r) \/
  (~ (passes mininl sigma (l, r) /\ beats (l, r) (cand_of st)) /\ rigid_store ROps mininl sigma st l r = st).
Proof.
  unfold rigid_store. fold (lenZ l). fold (lenZ (rs_best st)).
  destruct (cand_passes ROps mininl sigma (lenZ l) r) eqn:E1; cbn [andb].
  - destruct (cand_better ROps (lenZ l) r (lenZ (rs_best st)) (rs_rmse st)) eqn:E2.
    + left. apply cand_passes_spec in E1. apply cand_better_spec in E2. auto.
    + right. split; [|reflexivity]. intros [_ H]. apply cand_better_spec in H. unfold cand_of in H.
      cbn in H. congruence.
  - right. split; [|reflexivity]. intros [H _]. apply cand_passes_spec in H. congruence.
Qed.

(* invariant: either nothing has passed the gates and the object is in its initial state, or the stored consensus
   is one of the candidates seen, passes both gates, and no seen passing candidate beats it *)
Definition best_inv (mininl : Z) (sigma : R) (st : rigid_state R) (seen : list cand) : Prop :=
  (st = rigid_init ROps /\ forall c, In c seen -> ~ passes mininl sigma c) \/
  (In (cand_of st) seen /\ passes mininl sigma (cand_of st) /\
   forall c, In c seen -> passes mininl sigma c -> ~ beats c (cand_of st)).

Lemma best_inv_step mininl sigma st seen l r :
  (1 <= mininl)%Z -> best_inv mininl sigma st seen ->
  best_inv mininl sigma (rigid_store ROps mininl sigma st l r) (seen ++ [(l, r)]).
Proof.
  intros Hm Hinv.
  destruct (rigid_store_cases mininl sigma st l r) as [(Hp & Hb & ->)|(Hn & ->)].
  - right. unfold cand_of. cbn [rs_best rs_rmse]. split; [apply in_or_app; right; left; reflexivity|].
    split; [exact Hp|]. intros c Hc Hpc Hbc. apply in_app_or in Hc. destruct Hc as [Hc|[<-|[]]].
    + destruct Hinv as [[-> Hnone]|(_ & _ & Hmax)].
      * exact (Hnone c Hc Hpc).
      * exact (Hmax c Hc Hpc (beats_trans _ _ _ Hbc Hb)).
    + exact (beats_irrefl _ Hbc).
  - destruct Hinv as [[-> Hnone]|(Hin & Hp & Hmax)].
    + left. split; [reflexivity|]. intros c Hc Hpc. apply in_app_or in Hc. destruct Hc as [Hc|[<-|[]]].
      * exact (Hnone c Hc Hpc).
      * apply Hn. split; [exact Hpc|]. unfold beats, cand_of, rigid_init, passes, lenZ in *. cbn in *. left. lia.
    + right. split; [apply in_or_app; left; exact Hin|]. split; [exact Hp|].
      intros c Hc Hpc Hbc. apply in_app_or in Hc. destruct Hc as [Hc|[<-|[]]].
      * exact (Hmax c Hc Hpc Hbc).
      * apply Hn. split; assumption.
Qed.

(* the model object driven by a list of candidate matrices *)
Definition cand_of_matrix hom dim src tgt sigma sorted (M : list (list R)) : cand :=
  let inl := consensus ROps hom dim M src tgt sigma sorted in (inl, rmse_of ROps inl).

Lemma rigid_fold_cons hom dim mininl src tgt sigma L M Ms st :
  rigid_fold ROps hom dim mininl src tgt sigma L (M :: Ms) st =
  rigid_fold ROps hom dim mininl src tgt sigma L Ms
    (rigid_store ROps mininl sigma st (consensus ROps hom dim M src tgt sigma L)
       (rmse_of ROps (consensus ROps hom dim M src tgt sigma L))).
Proof. reflexivity. Qed.

Lemma rigid_fold_inv hom dim mininl src tgt sigma sorted Ms : forall st seen,
  (1 <= mininl)%Z -> best_inv mininl sigma st seen ->
  best_inv mininl sigma (rigid_fold ROps hom dim mininl src tgt sigma sorted Ms st)
    (seen ++ map (cand_of_matrix hom dim src tgt sigma sorted) Ms).
Proof.
  induction Ms as [|M Ms IH]; intros st seen Hm Hinv; cbn [map]; [rewrite app_nil_r; exact Hinv|].
  rewrite rigid_fold_cons, app_cons_assoc. apply IH; [exact Hm|]. apply best_inv_step; assumption.
Qed.

Section Success.
  Variables (hom : bool) (dim : nat) (src tgt : list (list R)) (sigma : R) (sorted : list corrR) (mininl : Z).

  (* nothing stored yet, or what is stored passed the two gates *)
  Definition st_ok (st : rigid_state R) : Prop := rs_best st = [] \/ passes mininl sigma (cand_of st).

  Lemma rigid_store_ok st l r : st_ok st -> st_ok (rigid_store ROps mininl sigma st l r).
  Proof.
    intros H. destruct (rigid_store_cases mininl sigma st l r) as [(Hp & _ & ->)|(_ & ->)]; [right; exact Hp | exact H].
  Qed.

  Lemma rigid_store_len st l r : (lenZ (rs_best st) <= lenZ (rs_best (rigid_store ROps mininl sigma st l r)))%Z.
  Proof.
    destruct (rigid_store_cases mininl sigma st l r) as [(_ & Hb & ->)|(_ & ->)]; [|lia].
    unfold beats, cand_of in Hb. cbn in *. lia.
  Qed.

  Lemma obj_draw_st o : ro_st (fst (obj_draw ROps hom dim src tgt sigma o)) = ro_st o.
  Proof. unfold obj_draw. destruct (ro_script o) as [|[M s] r]; reflexivity. Qed.

  Lemma obj_count_st o :
    ro_st (fst (obj_count ROps hom dim mininl src tgt sigma sorted o)) =
      rigid_store ROps mininl sigma (ro_st o) (consensus ROps hom dim (ro_M o) src tgt sigma sorted)
        (rmse_of ROps (consensus ROps hom dim (ro_M o) src tgt sigma sorted)) /\
    snd (obj_count ROps hom dim mininl src tgt sigma sorted o) =
      lenZ (rs_best (ro_st (fst (obj_count ROps hom dim mininl src tgt sigma sorted o)))).
  Proof. unfold obj_count, rigid_count. cbn. split; reflexivity. Qed.
End Success.

Lemma rigid_draw_size_pos d : (0 <= rigid_draw_size d)%Z.
Proof. unfold rigid_draw_size, rigid_draw_size_2d, rigid_draw_size_3d. destruct (d =? 2)%Z; lia. Qed.

Lemma success_error_lemma hom dim src tgt sigma corrs npoints p maxit script r :
  estimate_rigid ROps hom dim src tgt sigma corrs npoints p maxit script = Some r ->
  er_ok r = true ->
  rs_rmse (ro_st (er_state r)) < sigma /\
  (rigid_min_inliers (Z.of_nat dim) <= lenZ (rs_best (ro_st (er_state r))))%Z.
Proof.
  unfold estimate_rigid. set (mininl := rigid_min_inliers (Z.of_nat dim)).
  set (sorted := sort_by (tgt_dist_lt ROps) corrs). intros H Hok.
  assert (Hinv : st_ok sigma mininl (ro_st (er_state r))).
  { eapply (estimate_inv ROps _ _ _ _ (fun o => st_ok sigma mininl (ro_st o))); [| | |exact H|].
    - intros o Ho. rewrite obj_draw_st. exact Ho.
    - intros o Ho. destruct (obj_count_st hom dim src tgt sigma sorted mininl o) as [-> _].
      apply rigid_store_ok. exact Ho.
    - intros o Ho. exact Ho.
    - left. reflexivity. }
  assert (Hmu : (0 < lenZ (rs_best (ro_st (er_state r))))%Z).
  { eapply (estimate_measure ROps _ _ _ _ (fun o => lenZ (rs_best (ro_st o)))); [| | | |exact H| |exact Hok].
    - intros o. rewrite obj_draw_st. lia.
    - intros o. destruct (obj_count_st hom dim src tgt sigma sorted mininl o) as [-> _]. apply rigid_store_len.
    - intros o. destruct (obj_count_st hom dim src tgt sigma sorted mininl o) as [_ ->]. lia.
    - intros o. cbn. lia.
    - apply rigid_draw_size_pos. }
  destruct Hinv as [E|[Hlen Hrmse]]; [|split; assumption].
  rewrite E in Hmu. cbn in Hmu. lia.
Qed.

Section Outliers.
  Variables (hom : bool) (dim : nat) (src tgt : list (list R)) (sigma : R) (mininl : Z).
  Variable keep : Z -> Z -> bool.             (* true on the pairs that are not outliers *)
  Definition keepc (c : corrR) : bool := keep (c_src c) (c_tgt c).

  Definition outside_gate (M : list (list R)) (c : corrR) : Prop :=
    Rltb (residual ROps hom dim M src tgt c) (gate ROps sigma) = false.

  Lemma with_residuals_filter M L :
    with_residuals ROps hom dim M src tgt (filter keepc L) = filter keepc (with_residuals ROps hom dim M src tgt L).
  Proof.
    unfold with_residuals. induction L as [|c r IH]; [reflexivity|]. cbn [filter map].
    change (keepc (mkCorr (c_src c) (c_tgt c) (residual ROps hom dim M src tgt c))) with (keepc c).
    destruct (keepc c); cbn [map]; rewrite IH; reflexivity.
  Qed.

  Lemma filter_absorb {A} (f g : A -> bool) (X : list A) :
    (forall x, In x X -> f x = false -> g x = false) -> filter g X = filter g (filter f X).
  Proof.
    induction X as [|x r IH]; intros H; [reflexivity|]. cbn [filter].
    assert (Hr : forall y, In y r -> f y = false -> g y = false) by (intros; apply H; [right|]; assumption).
    destruct (f x) eqn:F.
    - cbn [filter]. destruct (g x); rewrite (IH Hr); reflexivity.
    - rewrite (H x (or_introl eq_refl) F). apply IH. exact Hr.
  Qed.

  Lemma inliers_keep M L :
    (forall c, In c L -> keepc c = false -> outside_gate M c) ->
    inliers ROps hom dim M src tgt sigma L = inliers ROps hom dim M src tgt sigma (filter keepc L).
  Proof.
    intros H. unfold inliers, gate_filter. rewrite with_residuals_filter. apply filter_absorb.
    intros x Hx K. destruct (with_residuals_sq _ _ _ _ _ _ _ Hx) as (c0 & Hin & Es & Et & Eq).
    cbn [nltb ROps]. rewrite Eq. apply (H c0 Hin). unfold keepc in *. rewrite <- Es, <- Et. exact K.
  Qed.

  Lemma inliers_all_keep M L c : In c (inliers ROps hom dim M src tgt sigma (filter keepc L)) -> keepc c = true.
  Proof.
    unfold inliers, gate_filter. intros H. apply filter_In in H. destruct H as [H _].
    apply with_residuals_sq in H. destruct H as (c0 & Hin & Es & Et & _).
    apply filter_In in Hin. destruct Hin as [_ K]. unfold keepc in *. rewrite Es, Et. exact K.
  Qed.

  Lemma rigid_fold_keep Ms L : forall st,
    (forall M c, In M Ms -> In c L -> keepc c = false -> outside_gate M c) ->
    Forall (fun c => keepc c = true) (rs_best st) ->
    rigid_fold ROps hom dim mininl src tgt sigma L Ms st =
      rigid_fold ROps hom dim mininl src tgt sigma (filter keepc L) Ms st /\
    Forall (fun c => keepc c = true) (rs_best (rigid_fold ROps hom dim mininl src tgt sigma L Ms st)).
  Proof.
    induction Ms as [|M r IH]; intros st H Hst; [split; [reflexivity | exact Hst]|].
    assert (E : consensus ROps hom dim M src tgt sigma L = consensus ROps hom dim M src tgt sigma (filter keepc L)).
    { unfold consensus. rewrite (inliers_keep M L); [reflexivity|]. intros c Hc K. apply (H M c); [left; reflexivity | assumption | assumption]. }
    rewrite !rigid_fold_cons. rewrite <- E.
    apply IH.
    - intros M' c HM. apply H. right. exact HM.
    - rewrite E. set (cs := consensus ROps hom dim M src tgt sigma (filter keepc L)).
      destruct (rigid_store_cases mininl sigma st cs (rmse_of ROps cs)) as [(_ & _ & ->)|(_ & ->)]; [|exact Hst].
      cbn [rs_best]. apply Forall_forall. intros c Hc. unfold cs, consensus in Hc.
      apply unique_inplace_incl in Hc. eapply inliers_all_keep; eassumption.
  Qed.
End Outliers.
