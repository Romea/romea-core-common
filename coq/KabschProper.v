(* KabschProper.v — C04: least-squares optimality among PROPER rotations (d = 2, 3), and uniqueness of the rotation on
   exact data of rank >= d-1.  Lemmas only; the model is KabschModel.v, the trace argument is in KabschProofs.v.

   Orthogonal matrices are given on the function view (nat -> nat -> R) with orthonormal columns ([is_orth d M]).
   The facts about 3x3 / 2x2 orthogonal matrices are proved on plain real variables first (ring identities + lra). *)
From Coq Require Import Reals List Arith Lia Lra Bool Psatz.
From Romea Require Import Num NumR LinAlgBModel LinAlgBProofs LsProofs KabschModel KabschProofs.
Import ListNotations.
Local Open Scope R_scope.

Local Notation mg := (mget ROps).

(* the cofactor matrix of an orthogonal matrix is det * the matrix; entry (0,0), from column 0 being a unit vector orthogonal
   to columns 1 and 2:  cof_00 = sum_j (M^T M)_0j cof_0j = sum_l m_l0 (sum_j m_lj cof_0j) = m_00 det *)
Lemma cofactor00 m00 m01 m02 m10 m11 m12 m20 m21 m22 D :
  m00 * m00 + m10 * m10 + m20 * m20 = 1 -> m00 * m01 + m10 * m11 + m20 * m21 = 0 -> m00 * m02 + m10 * m12 + m20 * m22 = 0 ->
  m00 * (m11 * m22 - m12 * m21) - m01 * (m10 * m22 - m12 * m20) + m02 * (m10 * m21 - m11 * m20) = D ->
  m11 * m22 - m12 * m21 = D * m00.
Proof.
  intros H00 H01 H02 HD.
  assert (E : (m00 * m00 + m10 * m10 + m20 * m20) * (m11 * m22 - m12 * m21)
            + (m00 * m01 + m10 * m11 + m20 * m21) * (m12 * m20 - m10 * m22)
            + (m00 * m02 + m10 * m12 + m20 * m22) * (m10 * m21 - m11 * m20)
            = m00 * (m00 * (m11 * m22 - m12 * m21) - m01 * (m10 * m22 - m12 * m20) + m02 * (m10 * m21 - m11 * m20))) by ring.
  rewrite H00, H01, H02, HD in E. lra.
Qed.

Section Orth3.
Variables m00 m01 m02 m10 m11 m12 m20 m21 m22 D : R.
Hypothesis H00 : m00 * m00 + m10 * m10 + m20 * m20 = 1.
Hypothesis H11 : m01 * m01 + m11 * m11 + m21 * m21 = 1.
Hypothesis H22 : m02 * m02 + m12 * m12 + m22 * m22 = 1.
Hypothesis H01 : m00 * m01 + m10 * m11 + m20 * m21 = 0.
Hypothesis H02 : m00 * m02 + m10 * m12 + m20 * m22 = 0.
Hypothesis H12 : m01 * m02 + m11 * m12 + m21 * m22 = 0.
Hypothesis HD : m00 * (m11 * m22 - m12 * m21) - m01 * (m10 * m22 - m12 * m20) + m02 * (m10 * m21 - m11 * m20) = D.

(* the other entries: the same fact for the matrix with its rows and its columns rotated (a cyclic rotation of rows or of
   columns keeps the determinant and the orthonormality of the columns) *)
Lemma cof00 : m11 * m22 - m12 * m21 = D * m00.
Proof. apply (cofactor00 m00 m01 m02 m10 m11 m12 m20 m21 m22); lra. Qed.
Lemma cof01 : m12 * m20 - m10 * m22 = D * m01.
Proof. apply (cofactor00 m01 m02 m00 m11 m12 m10 m21 m22 m20); lra. Qed.
Lemma cof02 : m10 * m21 - m11 * m20 = D * m02.
Proof. apply (cofactor00 m02 m00 m01 m12 m10 m11 m22 m20 m21); lra. Qed.
Lemma cof10 : m02 * m21 - m01 * m22 = D * m10.
Proof. replace (m02 * m21 - m01 * m22) with (m21 * m02 - m22 * m01) by ring. apply (cofactor00 m10 m11 m12 m20 m21 m22 m00 m01 m02); lra. Qed.
Lemma cof11 : m00 * m22 - m02 * m20 = D * m11.
Proof. replace (m00 * m22 - m02 * m20) with (m22 * m00 - m20 * m02) by ring. apply (cofactor00 m11 m12 m10 m21 m22 m20 m01 m02 m00); lra. Qed.
Lemma cof12 : m01 * m20 - m00 * m21 = D * m12.
Proof. replace (m01 * m20 - m00 * m21) with (m20 * m01 - m21 * m00) by ring. apply (cofactor00 m12 m10 m11 m22 m20 m21 m02 m00 m01); lra. Qed.
Lemma cof20 : m01 * m12 - m02 * m11 = D * m20.
Proof. apply (cofactor00 m20 m21 m22 m00 m01 m02 m10 m11 m12); lra. Qed.
Lemma cof21 : m02 * m10 - m00 * m12 = D * m21.
Proof. apply (cofactor00 m21 m22 m20 m01 m02 m00 m11 m12 m10); lra. Qed.
Lemma cof22 : m00 * m11 - m01 * m10 = D * m22.
Proof. apply (cofactor00 m22 m20 m21 m02 m00 m01 m12 m10 m11); lra. Qed.

Lemma diag_le_1 : m00 <= 1 /\ m11 <= 1 /\ m22 <= 1 /\ -1 <= m00 /\ -1 <= m11 /\ -1 <= m22.
Proof. repeat split; nra. Qed.

(* (m21 - m12)^2 + (m02 - m20)^2 + (m10 - m01)^2 = 3 - tr^2 + 2 D tr *)
Lemma axis_identity :
  (m21 - m12) * (m21 - m12) + (m02 - m20) * (m02 - m20) + (m10 - m01) * (m10 - m01)
  = 3 - (m00 + m11 + m22) * (m00 + m11 + m22) + 2 * D * (m00 + m11 + m22).
Proof.
  pose proof cof00 as C0. pose proof cof11 as C1. pose proof cof22 as C2.
  assert (E : (m21 - m12) * (m21 - m12) + (m02 - m20) * (m02 - m20) + (m10 - m01) * (m10 - m01)
            = (m00 * m00 + m10 * m10 + m20 * m20) + (m01 * m01 + m11 * m11 + m21 * m21) + (m02 * m02 + m12 * m12 + m22 * m22)
              - (m00 + m11 + m22) * (m00 + m11 + m22)
              + 2 * ((m11 * m22 - m12 * m21) + (m00 * m22 - m02 * m20) + (m00 * m11 - m01 * m10))) by ring.
  rewrite E, H00, H11, H22, C0, C1, C2. ring.
Qed.

(* hence, for the trace t (|t| <= 3):  0 <= 3 - t^2 + 2 D t *)
Lemma trace_quadratic : let t := m00 + m11 + m22 in 0 <= 3 - t * t + 2 * D * t /\ -3 <= t <= 3.
Proof.
  pose proof diag_le_1. intros t. split; [|unfold t; lra]. unfold t. rewrite <- axis_identity.
  repeat apply Rplus_le_le_0_compat; apply Rle_0_sqr.
Qed.

(* an improper orthogonal 3x3 matrix has trace <= 1 (it is minus a rotation, and a rotation has trace >= -1):
   0 <= 3 - t^2 - 2 t = (3 + t) (1 - t) *)
Lemma improper_trace_le_1 : D = -1 -> m00 + m11 + m22 <= 1.
Proof.
  intros HDm. destruct trace_quadratic as (P & Ht). rewrite HDm in P. set (t := m00 + m11 + m22) in *.
  destruct (Rle_dec t 1) as [Hle|Hgt]; [exact Hle|exfalso].
  assert (0 < (3 + t) * (t - 1)) by (apply Rmult_lt_0_compat; lra). nra.
Qed.

(* a proper rotation has trace >= -1:  0 <= 3 - t^2 + 2 t = (3 - t) (1 + t) *)
Lemma proper_trace_ge_m1 : D = 1 -> -1 <= m00 + m11 + m22.
Proof.
  intros HDp. destruct trace_quadratic as (P & Ht). rewrite HDp in P. set (t := m00 + m11 + m22) in *.
  destruct (Rle_dec (-1) t) as [Hle|Hgt]; [exact Hle|exfalso].
  assert (0 < (3 - t) * (-1 - t)) by (apply Rmult_lt_0_compat; lra). nra.
Qed.

(* weighted diagonal of an improper orthogonal matrix: sum s_i m_ii <= s0 + s1 - s2 for s0 >= s1 >= s2 >= 0 *)
Lemma improper_weighted_diag s0 s1 s2 : D = -1 -> s2 <= s1 -> s1 <= s0 -> 0 <= s2 ->
  s0 * m00 + s1 * m11 + s2 * m22 <= s0 + s1 - s2.
Proof.
  intros HDm h21 h10 h2. pose proof (improper_trace_le_1 HDm) as Ht. pose proof diag_le_1 as (a & b & _).
  assert (E : s0 * m00 + s1 * m11 + s2 * m22 = s2 * (m00 + m11 + m22) + (s0 - s2) * m00 + (s1 - s2) * m11) by ring.
  rewrite E.
  assert (s2 * (m00 + m11 + m22) <= s2 * 1) by (apply Rmult_le_compat_l; lra).
  assert ((s0 - s2) * m00 <= (s0 - s2) * 1) by (apply Rmult_le_compat_l; lra).
  assert ((s1 - s2) * m11 <= (s1 - s2) * 1) by (apply Rmult_le_compat_l; lra).
  lra.
Qed.

(* a proper rotation maps cross products to cross products: M (u x v) = (M u) x (M v) *)
Lemma proper_cross u0 u1 u2 v0 v1 v2 : D = 1 ->
  let w0 := u1 * v2 - u2 * v1 in let w1 := u2 * v0 - u0 * v2 in let w2 := u0 * v1 - u1 * v0 in
  let a0 := m00 * u0 + m01 * u1 + m02 * u2 in let a1 := m10 * u0 + m11 * u1 + m12 * u2 in let a2 := m20 * u0 + m21 * u1 + m22 * u2 in
  let b0 := m00 * v0 + m01 * v1 + m02 * v2 in let b1 := m10 * v0 + m11 * v1 + m12 * v2 in let b2 := m20 * v0 + m21 * v1 + m22 * v2 in
  m00 * w0 + m01 * w1 + m02 * w2 = a1 * b2 - a2 * b1 /\
  m10 * w0 + m11 * w1 + m12 * w2 = a2 * b0 - a0 * b2 /\
  m20 * w0 + m21 * w1 + m22 * w2 = a0 * b1 - a1 * b0.
Proof.
  intros HDp w0 w1 w2 a0 a1 a2 b0 b1 b2.
  pose proof cof00 as C00. pose proof cof01 as C01. pose proof cof02 as C02.
  pose proof cof10 as C10. pose proof cof11 as C11. pose proof cof12 as C12.
  pose proof cof20 as C20. pose proof cof21 as C21. pose proof cof22 as C22.
  rewrite HDp in *.
  (* (M u) x (M v) = cof(M) (u x v) is a ring identity *)
  assert (E0 : a1 * b2 - a2 * b1 = (m11 * m22 - m12 * m21) * w0 + (m12 * m20 - m10 * m22) * w1 + (m10 * m21 - m11 * m20) * w2)
    by (unfold a1, a2, b1, b2, w0, w1, w2; ring).
  assert (E1 : a2 * b0 - a0 * b2 = (m02 * m21 - m01 * m22) * w0 + (m00 * m22 - m02 * m20) * w1 + (m01 * m20 - m00 * m21) * w2)
    by (unfold a0, a2, b0, b2, w0, w1, w2; ring).
  assert (E2 : a0 * b1 - a1 * b0 = (m01 * m12 - m02 * m11) * w0 + (m02 * m10 - m00 * m12) * w1 + (m00 * m11 - m01 * m10) * w2)
    by (unfold a0, a1, b0, b1, w0, w1, w2; ring).
  rewrite E0, E1, E2, C00, C01, C02, C10, C11, C12, C20, C21, C22. repeat split; ring.
Qed.

End Orth3.

Section Orth2.
Variables m00 m01 m10 m11 D : R.
Hypothesis H00 : m00 * m00 + m10 * m10 = 1.
Hypothesis H11 : m01 * m01 + m11 * m11 = 1.
Hypothesis H01 : m00 * m01 + m10 * m11 = 0.
Hypothesis HD : m00 * m11 - m01 * m10 = D.

Lemma cof2_00 : m11 = D * m00.
Proof.
  assert (E : (m00 * m00 + m10 * m10) * m11 + (m00 * m01 + m10 * m11) * (- m10) = m00 * (m00 * m11 - m01 * m10)) by ring.
  rewrite H00, H01, HD in E. lra.
Qed.
Lemma cof2_01 : - m10 = D * m01.
Proof.
  assert (E : (m00 * m01 + m10 * m11) * m11 + (m01 * m01 + m11 * m11) * (- m10) = m01 * (m00 * m11 - m01 * m10)) by ring.
  rewrite H11, H01, HD in E. lra.
Qed.

Lemma diag2_le_1 : m00 <= 1 /\ m11 <= 1.
Proof. split; nra. Qed.

Lemma improper_weighted_diag2 s0 s1 : D = -1 -> s1 <= s0 -> s0 * m00 + s1 * m11 <= s0 - s1.
Proof.
  intros HDm h10. pose proof cof2_00 as C. pose proof diag2_le_1 as (a & _). rewrite HDm in C.
  rewrite C. assert ((s0 - s1) * m00 <= (s0 - s1) * 1) by (apply Rmult_le_compat_l; lra). lra.
Qed.
End Orth2.

Ltac orth_eq H a b :=
  let E := fresh "E" in
  pose proof (H a b ltac:(lia) ltac:(lia)) as E;
  cbn [sumn] in E; rsimpl; unfold delta in E; cbn [Nat.eqb] in E.

Lemma is_orth3_eqs (M : nat -> nat -> R) : is_orth 3 M ->
  M 0%nat 0%nat * M 0%nat 0%nat + M 1%nat 0%nat * M 1%nat 0%nat + M 2%nat 0%nat * M 2%nat 0%nat = 1 /\
  M 0%nat 1%nat * M 0%nat 1%nat + M 1%nat 1%nat * M 1%nat 1%nat + M 2%nat 1%nat * M 2%nat 1%nat = 1 /\
  M 0%nat 2%nat * M 0%nat 2%nat + M 1%nat 2%nat * M 1%nat 2%nat + M 2%nat 2%nat * M 2%nat 2%nat = 1 /\
  M 0%nat 0%nat * M 0%nat 1%nat + M 1%nat 0%nat * M 1%nat 1%nat + M 2%nat 0%nat * M 2%nat 1%nat = 0 /\
  M 0%nat 0%nat * M 0%nat 2%nat + M 1%nat 0%nat * M 1%nat 2%nat + M 2%nat 0%nat * M 2%nat 2%nat = 0 /\
  M 0%nat 1%nat * M 0%nat 2%nat + M 1%nat 1%nat * M 1%nat 2%nat + M 2%nat 1%nat * M 2%nat 2%nat = 0.
Proof.
  intros H. unfold is_orth in H.
  orth_eq H 0%nat 0%nat. orth_eq H 1%nat 1%nat. orth_eq H 2%nat 2%nat. orth_eq H 0%nat 1%nat. orth_eq H 0%nat 2%nat. orth_eq H 1%nat 2%nat.
  repeat split; lra.
Qed.

Lemma is_orth2_eqs (M : nat -> nat -> R) : is_orth 2 M ->
  M 0%nat 0%nat * M 0%nat 0%nat + M 1%nat 0%nat * M 1%nat 0%nat = 1 /\
  M 0%nat 1%nat * M 0%nat 1%nat + M 1%nat 1%nat * M 1%nat 1%nat = 1 /\
  M 0%nat 0%nat * M 0%nat 1%nat + M 1%nat 0%nat * M 1%nat 1%nat = 0.
Proof.
  intros H. unfold is_orth in H.
  orth_eq H 0%nat 0%nat. orth_eq H 1%nat 1%nat. orth_eq H 0%nat 1%nat.
  repeat split; lra.
Qed.

Lemma fdet3_R (M : nat -> nat -> R) :
  fdet ROps 3 M = M 0%nat 0%nat * (M 1%nat 1%nat * M 2%nat 2%nat - M 1%nat 2%nat * M 2%nat 1%nat) - M 0%nat 1%nat * (M 1%nat 0%nat * M 2%nat 2%nat - M 1%nat 2%nat * M 2%nat 0%nat)
                  + M 0%nat 2%nat * (M 1%nat 0%nat * M 2%nat 1%nat - M 1%nat 1%nat * M 2%nat 0%nat).
Proof. reflexivity. Qed.
Lemma fdet2_R (M : nat -> nat -> R) : fdet ROps 2 M = M 0%nat 0%nat * M 1%nat 1%nat - M 0%nat 1%nat * M 1%nat 0%nat.
Proof. reflexivity. Qed.

(* the product of two matrices with orthonormal columns has orthonormal columns *)
Lemma is_orth_mul d (A B : nat -> nat -> R) : is_orth d A -> is_orth d B ->
  is_orth d (fun i j => Rsum d (fun l => A i l * B l j)).
Proof.
  intros HA HB a b Ha Hb. cbv beta.
  rewrite (collapse d A (fun l => B l a) (fun l => B l b) HA). now apply HB.
Qed.

(* the weighted diagonal of an improper orthogonal matrix is at most the weighted sum with the last weight negated *)
Lemma improper_diag_bound d (M : nat -> nat -> R) (sg : nat -> R) : (d = 2 \/ d = 3)%nat ->
  is_orth d M -> fdet ROps d M = -1 ->
  (forall a, (a < d)%nat -> 0 <= sg a) ->
  (forall a b, (a <= b)%nat -> (b < d)%nat -> sg b <= sg a) ->
  Rsum d (fun a => sg a * M a a) <= Rsum d (fun a => sg a * elast d a).
Proof.
  intros [->| ->] HM HD Hnn Hord.
  - destruct (is_orth2_eqs M HM) as (H00 & H11 & H01). rewrite fdet2_R in HD.
    pose proof (improper_weighted_diag2 _ _ _ _ _ H00 H11 H01 HD (sg 0%nat) (sg 1%nat) eq_refl (Hord 0%nat 1%nat ltac:(lia) ltac:(lia))).
    cbn [sumn]. unfold elast. cbn [Nat.eqb]. rsimpl. lra.
  - destruct (is_orth3_eqs M HM) as (H00 & H11 & H22 & H01 & H02 & H12). rewrite fdet3_R in HD.
    pose proof (improper_weighted_diag _ _ _ _ _ _ _ _ _ _ H00 H11 H22 H01 H02 H12 HD (sg 0%nat) (sg 1%nat) (sg 2%nat) eq_refl
                  (Hord 1%nat 2%nat ltac:(lia) ltac:(lia)) (Hord 0%nat 1%nat ltac:(lia) ltac:(lia)) (Hnn 2%nat ltac:(lia))).
    cbn [sumn]. unfold elast. cbn [Nat.eqb]. rsimpl. lra.
Qed.

(* the sign pattern the repaired code applies: flip the last singular direction iff det(V U^T) < 0 *)
Definition e_star (d : nat) (U V : nat -> nat -> R) : nat -> R :=
  if Rltb (fdet ROps d (Re d U V (fun _ => 1))) 0 then elast d else (fun _ => 1).

Lemma det_Re_ones d (U V : nat -> nat -> R) : (d = 2 \/ d = 3)%nat ->
  fdet ROps d (Re d U V (fun _ => 1)) = fdet ROps d V * fdet ROps d U.
Proof.
  intros Hd. rewrite <- (fdet_tr d U Hd).
  rewrite <- (fdet_mul d V (fun a j => U j a) Hd). apply fdet_ext; [exact Hd|].
  intros i j _ _. unfold Re. apply Rsum_ext. intros; ring.
Qed.

Section ProperOptimal.
Variables (d N : nat) (S T : nat -> nat -> R) (U V : nat -> nat -> R) (sg : nat -> R).
Hypothesis Hd : (d = 2 \/ d = 3)%nat.
Hypothesis HUtU : is_orth d U.
Hypothesis HUUt : is_orth d (fun a i => U i a).
Hypothesis HVtV : is_orth d V.
Hypothesis HVVt : is_orth d (fun a i => V i a).
Hypothesis Hsg : forall a, (a < d)%nat -> 0 <= sg a.
Hypothesis Hord : forall a b, (a <= b)%nat -> (b < d)%nat -> sg b <= sg a.
Hypothesis HC : forall j i, (j < d)%nat -> (i < d)%nat -> Ccov N S T j i = Cm d U V sg j i.

(* M = V^T Q U *)
Definition VtQU (Q : nat -> nat -> R) (a b : nat) : R := Rsum d (fun i => V i a * Rsum d (fun j => Q i j * U j b)).

Lemma VtQU_orth Q : is_orth d Q -> is_orth d (VtQU Q).
Proof.
  intros HQ.
  exact (is_orth_mul d (fun a i => V i a) (fun i b => Rsum d (fun j => Q i j * U j b)) HVVt (is_orth_mul d Q U HQ HUtU)).
Qed.

Lemma VtQU_det Q : fdet ROps d (VtQU Q) = fdet ROps d V * fdet ROps d Q * fdet ROps d U.
Proof.
  unfold VtQU.
  pose proof (fdet_mul d (fun a i => V i a) (fun i b => Rsum d (fun j => Q i j * U j b)) Hd) as E1. cbv beta in E1.
  rewrite E1. rewrite (fdet_tr d V Hd). rewrite (fdet_mul d Q U Hd). ring.
Qed.

Lemma dets_pm1 : fdet ROps d V * fdet ROps d U = 1 \/ fdet ROps d V * fdet ROps d U = -1.
Proof.
  pose proof (orthogonal_det_sq d U Hd HUtU) as EU. pose proof (orthogonal_det_sq d V Hd HVtV) as EV.
  set (u := fdet ROps d U) in *. set (v := fdet ROps d V) in *.
  assert (E : (v * u - 1) * (v * u + 1) = 0) by nra.
  apply Rmult_integral in E. destruct E; [left|right]; lra.
Qed.

(* when det V det U = -1, every proper rotation Q has trace(Q C) <= sum_a sg_a elast_a = trace(R_flipped C) *)
Lemma trace_proper_flipped Q : is_orth d Q -> fdet ROps d Q = 1 -> fdet ROps d V * fdet ROps d U = -1 ->
  trQC d U V sg Q <= trQC d U V sg (Re d U V (elast d)).
Proof.
  intros HQ HdQ Hneg. rewrite (trace_Re d U V sg HUtU HVtV). rewrite trQC_diag.
  change (Rsum d (fun a => sg a * VtQU Q a a) <= Rsum d (fun a => sg a * elast d a)).
  apply (improper_diag_bound d (VtQU Q) sg Hd (VtQU_orth Q HQ)); [|exact Hsg|exact Hord].
  rewrite VtQU_det, HdQ. lra.
Qed.

Lemma e_star_sq a : e_star d U V a * e_star d U V a = 1.
Proof. unfold e_star. destruct (Rltb _ 0); [apply elast_sq|lra]. Qed.

Lemma e_star_pos : fdet ROps d V * fdet ROps d U = 1 -> e_star d U V = (fun _ => 1).
Proof.
  intros H. unfold e_star. rewrite (det_Re_ones d U V Hd), H.
  assert (E : Rltb 1 0 = false) by (apply Rltb_false; lra). now rewrite E.
Qed.
Lemma e_star_neg : fdet ROps d V * fdet ROps d U = -1 -> e_star d U V = elast d.
Proof.
  intros H. unfold e_star. rewrite (det_Re_ones d U V Hd), H.
  assert (E : Rltb (-1) 0 = true) by (apply Rltb_true; lra). now rewrite E.
Qed.

(* the matrix the repaired code returns is a proper rotation ... *)
Lemma Re_star_proper : fdet ROps d (Re d U V (e_star d U V)) = 1.
Proof.
  destruct dets_pm1 as [H|H].
  - rewrite (e_star_pos H), det_Re_ones by exact Hd. exact H.
  - rewrite (e_star_neg H), det_Re_flip, det_Re_ones by exact Hd. lra.
Qed.

(* ... and it is least-squares optimal among ALL proper rotations (noisy data included) *)
Theorem kabsch_optimal_proper Q : is_orth d Q -> fdet ROps d Q = 1 ->
  rcost d N S T (Re d U V (e_star d U V)) <= rcost d N S T Q.
Proof.
  intros HQ HdQ. destruct dets_pm1 as [H|H].
  - rewrite (e_star_pos H). exact (kabsch_optimal d N S T U V sg HUtU HUUt HVtV Hsg HC Q HQ).
  - rewrite (e_star_neg H).
    rewrite (rcost_trace d N S T U V sg HC Q HQ).
    rewrite (rcost_trace d N S T U V sg HC _ (Re_is_orth d U V HUUt HVtV (elast d) (fun a _ => elast_sq d a))).
    pose proof (trace_proper_flipped Q HQ HdQ H). lra.
Qed.

(* exact data T_n = R0 S_n with R0 a PROPER rotation: the returned matrix maps every centred source onto its target,
   whichever branch is taken and whatever the rank of the point set *)
Theorem kabsch_exact_maps_proper R0 : is_orth d R0 -> fdet ROps d R0 = 1 ->
  (forall n i, (n < N)%nat -> (i < d)%nat -> T n i = Rsum d (fun j => R0 i j * S n j)) ->
  forall n i, (n < N)%nat -> (i < d)%nat -> Rsum d (fun j => Re d U V (e_star d U V) i j * S n j) = T n i.
Proof.
  intros H0 Hd0 Hex. apply rcost_zero_maps. rewrite <- (rcost_exact d N S T R0 Hex). now apply kabsch_optimal_proper.
Qed.

End ProperOptimal.

(* a vector orthogonal to u, v and u x v is zero when u x v <> 0 (Cramer, with det[u v w] = |w|^2) *)
Lemma row_zero3 d0 d1 d2 u0 u1 u2 v0 v1 v2 :
  let w0 := u1 * v2 - u2 * v1 in let w1 := u2 * v0 - u0 * v2 in let w2 := u0 * v1 - u1 * v0 in
  d0 * u0 + d1 * u1 + d2 * u2 = 0 -> d0 * v0 + d1 * v1 + d2 * v2 = 0 -> d0 * w0 + d1 * w1 + d2 * w2 = 0 ->
  w0 * w0 + w1 * w1 + w2 * w2 <> 0 -> d0 = 0 /\ d1 = 0 /\ d2 = 0.
Proof.
  intros w0 w1 w2 Eu Ev Ew Hw.
  assert (E0 : d0 * (w0 * w0 + w1 * w1 + w2 * w2)
             = (d0 * u0 + d1 * u1 + d2 * u2) * (v1 * w2 - v2 * w1) + (d0 * v0 + d1 * v1 + d2 * v2) * (w1 * u2 - w2 * u1)
               + (d0 * w0 + d1 * w1 + d2 * w2) * w0) by (unfold w0, w1, w2; ring).
  assert (E1 : d1 * (w0 * w0 + w1 * w1 + w2 * w2)
             = (d0 * u0 + d1 * u1 + d2 * u2) * (v2 * w0 - v0 * w2) + (d0 * v0 + d1 * v1 + d2 * v2) * (w2 * u0 - w0 * u2)
               + (d0 * w0 + d1 * w1 + d2 * w2) * w1) by (unfold w0, w1, w2; ring).
  assert (E2 : d2 * (w0 * w0 + w1 * w1 + w2 * w2)
             = (d0 * u0 + d1 * u1 + d2 * u2) * (v0 * w1 - v1 * w0) + (d0 * v0 + d1 * v1 + d2 * v2) * (w0 * u1 - w1 * u0)
               + (d0 * w0 + d1 * w1 + d2 * w2) * w2) by (unfold w0, w1, w2; ring).
  repeat split; apply (Rmult_eq_reg_r (w0 * w0 + w1 * w1 + w2 * w2)); try exact Hw;
    [rewrite E0|rewrite E1|rewrite E2]; rewrite Eu, Ev, Ew; ring.
Qed.

(* the same for the difference of two rows *)
Lemma row_eq3 a0 a1 a2 b0 b1 b2 u0 u1 u2 v0 v1 v2 :
  let w0 := u1 * v2 - u2 * v1 in let w1 := u2 * v0 - u0 * v2 in let w2 := u0 * v1 - u1 * v0 in
  a0 * u0 + a1 * u1 + a2 * u2 = b0 * u0 + b1 * u1 + b2 * u2 ->
  a0 * v0 + a1 * v1 + a2 * v2 = b0 * v0 + b1 * v1 + b2 * v2 ->
  a0 * w0 + a1 * w1 + a2 * w2 = b0 * w0 + b1 * w1 + b2 * w2 ->
  w0 * w0 + w1 * w1 + w2 * w2 <> 0 -> a0 = b0 /\ a1 = b1 /\ a2 = b2.
Proof.
  intros w0 w1 w2 Eu Ev Ew Hw.
  destruct (row_zero3 (a0 - b0) (a1 - b1) (a2 - b2) u0 u1 u2 v0 v1 v2) as (z0 & z1 & z2);
    [lra|lra|fold w0 w1 w2; lra|exact Hw|repeat split; lra].
Qed.

(* 2D: a rotation (a, b) is determined by the image of one non-zero vector *)
Lemma rot2_eq a b a' b' u0 u1 :
  a * u0 - b * u1 = a' * u0 - b' * u1 -> b * u0 + a * u1 = b' * u0 + a' * u1 ->
  u0 * u0 + u1 * u1 <> 0 -> a = a' /\ b = b'.
Proof.
  intros H1 H2 Hn. split; apply (Rmult_eq_reg_r (u0 * u0 + u1 * u1)); try exact Hn.
  - transitivity (u0 * (a * u0 - b * u1) + u1 * (b * u0 + a * u1)); [ring|]. rewrite H1, H2. ring.
  - transitivity (u0 * (b * u0 + a * u1) - u1 * (a * u0 - b * u1)); [ring|]. rewrite H1, H2. ring.
Qed.

Lemma sumsq3_zero a b c : a * a + b * b + c * c = 0 -> a = 0 /\ b = 0 /\ c = 0.
Proof. intros H. repeat split; nra. Qed.
Lemma sumsq2_zero a b : a * a + b * b = 0 -> a = 0 /\ b = 0.
Proof. intros H. repeat split; nra. Qed.

Lemma Rsum3 f : Rsum 3 f = f 0%nat + f 1%nat + f 2%nat.
Proof. cbn [sumn]. rsimpl. ring. Qed.
Lemma Rsum2 f : Rsum 2 f = f 0%nat + f 1%nat.
Proof. cbn [sumn]. rsimpl. ring. Qed.

Lemma lt3_cases (P : nat -> Prop) : P 0%nat -> P 1%nat -> P 2%nat -> forall i, (i < 3)%nat -> P i.
Proof. intros p0 p1 p2 i Hi. destruct i as [|[|[|i]]]; try assumption; lia. Qed.
Lemma lt2_cases (P : nat -> Prop) : P 0%nat -> P 1%nat -> forall i, (i < 2)%nat -> P i.
Proof. intros p0 p1 i Hi. destruct i as [|[|i]]; try assumption; lia. Qed.

(* d = 3: two proper rotations that agree on two vectors with a non-zero cross product are equal *)
Lemma proper3_unique (A B : nat -> nat -> R) (u v : nat -> R) :
  is_orth 3 A -> fdet ROps 3 A = 1 -> is_orth 3 B -> fdet ROps 3 B = 1 ->
  (forall i, (i < 3)%nat -> Rsum 3 (fun j => A i j * u j) = Rsum 3 (fun j => B i j * u j)) ->
  (forall i, (i < 3)%nat -> Rsum 3 (fun j => A i j * v j) = Rsum 3 (fun j => B i j * v j)) ->
  (exists k, (k < 3)%nat /\ cross3 ROps u v k <> 0) ->
  forall i j, (i < 3)%nat -> (j < 3)%nat -> A i j = B i j.
Proof.
  intros HA HdA HB HdB Hu Hv (k & Hk & Hw).
  destruct (is_orth3_eqs A HA) as (a00 & a11 & a22 & a01 & a02 & a12). rewrite fdet3_R in HdA.
  destruct (is_orth3_eqs B HB) as (b00 & b11 & b22 & b01 & b02 & b12). rewrite fdet3_R in HdB.
  pose proof (proper_cross _ _ _ _ _ _ _ _ _ _ a00 a11 a22 a01 a02 a12 HdA (u 0%nat) (u 1%nat) (u 2%nat) (v 0%nat) (v 1%nat) (v 2%nat) eq_refl) as PA.
  pose proof (proper_cross _ _ _ _ _ _ _ _ _ _ b00 b11 b22 b01 b02 b12 HdB (u 0%nat) (u 1%nat) (u 2%nat) (v 0%nat) (v 1%nat) (v 2%nat) eq_refl) as PB.
  cbv zeta in PA, PB. destruct PA as (PA0 & PA1 & PA2). destruct PB as (PB0 & PB1 & PB2).
  pose proof (Hu 0%nat ltac:(lia)) as U0. pose proof (Hu 1%nat ltac:(lia)) as U1. pose proof (Hu 2%nat ltac:(lia)) as U2.
  pose proof (Hv 0%nat ltac:(lia)) as V0. pose proof (Hv 1%nat ltac:(lia)) as V1. pose proof (Hv 2%nat ltac:(lia)) as V2.
  rewrite !Rsum3 in U0, U1, U2, V0, V1, V2.
  (* A (u x v) = (A u) x (A v) = (B u) x (B v) = B (u x v), row by row *)
  rewrite U1, U2, V1, V2, <- PB0 in PA0. rewrite U0, U2, V0, V2, <- PB1 in PA1. rewrite U0, U1, V0, V1, <- PB2 in PA2.
  assert (Hnz : (u 1%nat * v 2%nat - u 2%nat * v 1%nat) * (u 1%nat * v 2%nat - u 2%nat * v 1%nat)
              + (u 2%nat * v 0%nat - u 0%nat * v 2%nat) * (u 2%nat * v 0%nat - u 0%nat * v 2%nat)
              + (u 0%nat * v 1%nat - u 1%nat * v 0%nat) * (u 0%nat * v 1%nat - u 1%nat * v 0%nat) <> 0).
  { revert Hw. unfold cross3. rsimpl. destruct k as [|[|[|k]]]; try lia; intros Hw Hz; apply Hw; apply sumsq3_zero in Hz; tauto. }
  assert (Hrow : forall i, (i < 3)%nat -> A i 0%nat = B i 0%nat /\ A i 1%nat = B i 1%nat /\ A i 2%nat = B i 2%nat).
  { apply lt3_cases.
    - exact (row_eq3 _ _ _ _ _ _ _ _ _ _ _ _ U0 V0 PA0 Hnz).
    - exact (row_eq3 _ _ _ _ _ _ _ _ _ _ _ _ U1 V1 PA1 Hnz).
    - exact (row_eq3 _ _ _ _ _ _ _ _ _ _ _ _ U2 V2 PA2 Hnz). }
  intros i j Hi Hj. destruct (Hrow i Hi) as (r0 & r1 & r2).
  revert j Hj. apply lt3_cases; assumption.
Qed.

(* d = 2: two proper rotations that agree on one non-zero vector are equal *)
Lemma proper2_unique (A B : nat -> nat -> R) (u : nat -> R) :
  is_orth 2 A -> fdet ROps 2 A = 1 -> is_orth 2 B -> fdet ROps 2 B = 1 ->
  (forall i, (i < 2)%nat -> Rsum 2 (fun j => A i j * u j) = Rsum 2 (fun j => B i j * u j)) ->
  (exists k, (k < 2)%nat /\ u k <> 0) ->
  forall i j, (i < 2)%nat -> (j < 2)%nat -> A i j = B i j.
Proof.
  intros HA HdA HB HdB Hu (k & Hk & Hnzk).
  destruct (is_orth2_eqs A HA) as (a00 & a11 & a01). rewrite fdet2_R in HdA.
  destruct (is_orth2_eqs B HB) as (b00 & b11 & b01). rewrite fdet2_R in HdB.
  pose proof (cof2_00 _ _ _ _ _ a00 a01 HdA) as A11. pose proof (cof2_01 _ _ _ _ _ a11 a01 HdA) as A10.
  pose proof (cof2_00 _ _ _ _ _ b00 b01 HdB) as B11. pose proof (cof2_01 _ _ _ _ _ b11 b01 HdB) as B10.
  pose proof (Hu 0%nat ltac:(lia)) as U0. pose proof (Hu 1%nat ltac:(lia)) as U1. rewrite !Rsum2 in U0, U1.
  assert (Hn : u 0%nat * u 0%nat + u 1%nat * u 1%nat <> 0).
  { destruct k as [|[|k]]; try lia; intros Hz; apply Hnzk; apply sumsq2_zero in Hz; tauto. }
  assert (A01 : A 0%nat 1%nat = - A 1%nat 0%nat) by lra. assert (B01 : B 0%nat 1%nat = - B 1%nat 0%nat) by lra.
  assert (A11' : A 1%nat 1%nat = A 0%nat 0%nat) by lra. assert (B11' : B 1%nat 1%nat = B 0%nat 0%nat) by lra.
  rewrite A01, B01 in U0. rewrite A11', B11' in U1.
  destruct (rot2_eq (A 0%nat 0%nat) (A 1%nat 0%nat) (B 0%nat 0%nat) (B 1%nat 0%nat) (u 0%nat) (u 1%nat)) as (Ea & Eb); [lra|lra|exact Hn|].
  intros i j Hi Hj. destruct i as [|[|i]]; destruct j as [|[|j]]; try lia; lra.
Qed.

(* the centred sources span at least d-1 dimensions: not all coincident (2D) / not all collinear (3D) *)
Definition rank_ge_dm1 (d N : nat) (S : nat -> nat -> R) : Prop :=
  match d with
  | 2%nat => exists n k, (n < N)%nat /\ (k < 2)%nat /\ S n k <> 0
  | 3%nat => exists n1 n2 k, (n1 < N)%nat /\ (n2 < N)%nat /\ (k < 3)%nat /\ cross3 ROps (S n1) (S n2) k <> 0
  | _ => False
  end.

(* a proper rotation is determined by its action on a set of rank >= d-1 *)
Lemma proper_unique_on_data d N (S : nat -> nat -> R) (A B : nat -> nat -> R) :
  is_orth d A -> fdet ROps d A = 1 -> is_orth d B -> fdet ROps d B = 1 -> rank_ge_dm1 d N S ->
  (forall n i, (n < N)%nat -> (i < d)%nat -> Rsum d (fun j => A i j * S n j) = Rsum d (fun j => B i j * S n j)) ->
  forall i j, (i < d)%nat -> (j < d)%nat -> A i j = B i j.
Proof.
  intros HA HdA HB HdB Hr Hag.
  destruct d as [|[|[|[|d]]]]; try contradiction.
  - destruct Hr as (n & k & Hn & Hk & Hnz).
    apply (proper2_unique A B (S n) HA HdA HB HdB); [intros; now apply Hag|now exists k].
  - destruct Hr as (n1 & n2 & k & Hn1 & Hn2 & Hk & Hnz).
    apply (proper3_unique A B (S n1) (S n2) HA HdA HB HdB); [intros; now apply Hag|intros; now apply Hag|now exists k].
Qed.

Section Recovery.
Variables (d N : nat) (S T : nat -> nat -> R) (U V : nat -> nat -> R) (sg : nat -> R).
Hypothesis Hd : (d = 2 \/ d = 3)%nat.
Hypothesis HUtU : forall a b, (a < d)%nat -> (b < d)%nat -> Rsum d (fun l => U l a * U l b) = delta a b.
Hypothesis HUUt : forall i j, (i < d)%nat -> (j < d)%nat -> Rsum d (fun a => U i a * U j a) = delta i j.
Hypothesis HVtV : forall a b, (a < d)%nat -> (b < d)%nat -> Rsum d (fun l => V l a * V l b) = delta a b.
Hypothesis HVVt : forall i j, (i < d)%nat -> (j < d)%nat -> Rsum d (fun a => V i a * V j a) = delta i j.
Hypothesis Hsg : forall a, (a < d)%nat -> 0 <= sg a.
Hypothesis Hord : forall a b, (a <= b)%nat -> (b < d)%nat -> sg b <= sg a.
Hypothesis HC : forall j i, (j < d)%nat -> (i < d)%nat -> Ccov N S T j i = Cm d U V sg j i.

(* exact data of rank >= d-1: the returned rotation IS R0 *)
Theorem kabsch_exact_recovery R0 : is_orth d R0 -> fdet ROps d R0 = 1 -> rank_ge_dm1 d N S ->
  (forall n i, (n < N)%nat -> (i < d)%nat -> T n i = Rsum d (fun j => R0 i j * S n j)) ->
  forall i j, (i < d)%nat -> (j < d)%nat -> Re d U V (e_star d U V) i j = R0 i j.
Proof.
  intros H0 Hd0 Hr Hex.
  apply (proper_unique_on_data d N S).
  - apply (Re_is_orth d U V HUUt HVtV). intros a _. apply e_star_sq.
  - exact (Re_star_proper d U V Hd HUtU HVtV).
  - exact H0.
  - exact Hd0.
  - exact Hr.
  - intros n i Hn Hi. rewrite <- (Hex n i Hn Hi).
    exact (kabsch_exact_maps_proper d N S T U V sg Hd HUtU HUUt HVtV HVVt Hsg Hord HC R0 H0 Hd0 Hex n i Hn Hi).
Qed.
End Recovery.

Section ModelRotation.
Variable svd_of : nat -> list (list R) -> (list (list R) * list R) * list (list R).

(* the repaired code returns exactly V diag(e_star) U^T *)
Lemma rotation_is_Re_star d cov : (d = 2 \/ d = 3)%nat ->
  let '(U, _, V) := svd_of d cov in
  forall i j, (i < d)%nat -> (j < d)%nat ->
    mg (rotation_of ROps svd_of true d cov) i j = Re d (mg U) (mg V) (e_star d (mg U) (mg V)) i j.
Proof.
  intros Hd. unfold rotation_of. destruct (svd_of d cov) as [[U sg] V]. cbn [andb]. rsimpl.
  rewrite (fdet_ext d (mg (mmul ROps d d d V (mtrans ROps d d U))) (Re d (mg U) (mg V) (fun _ => 1)) Hd)
    by (intros; now apply R0_get).
  unfold e_star. destruct (Rltb _ 0); intros i j Hi Hj; [now apply R1_get|now apply R0_get].
Qed.

Lemma rcost_ext d N S T Q Q' : (forall i j, (i < d)%nat -> (j < d)%nat -> Q i j = Q' i j) ->
  rcost d N S T Q = rcost d N S T Q'.
Proof.
  intros H. unfold rcost. apply Rsum_ext. intros n _. apply Rsum_ext. intros i Hi.
  rewrite (Rsum_ext d (fun j => Q i j * S n j) (fun j => Q' i j * S n j)) by (intros j Hj; now rewrite H).
  reflexivity.
Qed.

(* the rotation block computed by the repaired code is least-squares optimal among all proper rotations, for any SVD
   the oracle returns within its contract and any N centred pairs whose cross covariance is the matrix handed to it *)
Theorem rotation_of_optimal_proper d cov N (S T : nat -> nat -> R) : (d = 2 \/ d = 3)%nat ->
  svd_contract d cov (svd_of d cov) ->
  (forall j i, (j < d)%nat -> (i < d)%nat -> Ccov N S T j i = mg cov j i) ->
  forall Q, is_orth d Q -> fdet ROps d Q = 1 ->
  rcost d N S T (mg (rotation_of ROps svd_of true d cov)) <= rcost d N S T Q.
Proof.
  intros Hd Hc HC Q HQ HdQ. pose proof (rotation_is_Re_star d cov Hd) as Hget. unfold svd_contract in Hc.
  destruct (svd_of d cov) as [[U sg] V]. destruct Hc as (HM & HUtU & HUUt & HVtV & HVVt & Hnn & Hord).
  rewrite (rcost_ext d N S T _ _ Hget).
  apply (kabsch_optimal_proper d N S T (mg U) (mg V) (vget ROps sg) Hd HUtU HUUt HVtV HVVt Hnn Hord); [|exact HQ|exact HdQ].
  intros j i Hj Hi. rewrite HC by assumption. now apply HM.
Qed.

(* exact data of rank >= d-1: the rotation block computed by the repaired code is R0 *)
Theorem rotation_of_exact_recovery d cov N (S T : nat -> nat -> R) : (d = 2 \/ d = 3)%nat ->
  svd_contract d cov (svd_of d cov) ->
  (forall j i, (j < d)%nat -> (i < d)%nat -> Ccov N S T j i = mg cov j i) ->
  forall R0, is_orth d R0 -> fdet ROps d R0 = 1 -> rank_ge_dm1 d N S ->
  (forall n i, (n < N)%nat -> (i < d)%nat -> T n i = Rsum d (fun j => R0 i j * S n j)) ->
  forall i j, (i < d)%nat -> (j < d)%nat -> mg (rotation_of ROps svd_of true d cov) i j = R0 i j.
Proof.
  intros Hd Hc HC R0 H0 Hd0 Hr Hex i j Hi Hj. pose proof (rotation_is_Re_star d cov Hd) as Hget. unfold svd_contract in Hc.
  destruct (svd_of d cov) as [[U sg] V]. destruct Hc as (HM & HUtU & HUUt & HVtV & HVVt & Hnn & Hord).
  rewrite Hget by assumption.
  apply (kabsch_exact_recovery d N S T (mg U) (mg V) (vget ROps sg) Hd HUtU HUUt HVtV HVVt Hnn Hord); try assumption.
  intros j' i' Hj' Hi'. rewrite HC by assumption. now apply HM.
Qed.

End ModelRotation.
