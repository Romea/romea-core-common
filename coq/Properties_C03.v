(* Properties_C03.v — C03: the Lambert conic projection is conformal, true-scale on its parallels, invertible.
   Statements about the real-number instance of coq/LambertModel.v; the longer proofs are in LambertProofs.v and
   LambertContraction.v.
   e is the ellipsoid's first eccentricity (0 <= e < 1); latitudes strictly inside (-PI/2, PI/2). *)
From Coq Require Import Reals ZArith List Bool Lra.
From Coquelicot Require Import Coquelicot.
From Romea Require Import Num NumR GeodesyModel GeodesyProofs LambertModel LambertProofs LambertContraction.
From Romea.gen Require Import RepoConstants.
Local Open Scope R_scope.

Theorem C03_isolat_derivative : forall e lat, 0 <= e < 1 -> - PI / 2 < lat < PI / 2 ->
  is_derive (fun x => isometricLatitude ROps x e) lat
            ((1 - e * e) / ((1 - e * e * (sin lat * sin lat)) * cos lat)).
Proof. exact isolat_derivative. Qed.
Print Assumptions C03_isolat_derivative.

(* conformality: at every point, for every projection constants (n, c, lon0, xs, ys) — either hemisphere —
   the partial derivatives of toLambert with respect to latitude and longitude exist, are orthogonal, and the
   scale along the meridian (|dF/dlat| / M) equals the scale along the parallel (|dF/dlon| / (N cos lat));
   M and N cos lat are EarthEllipsoid::meridionalRadius / transversalRadius; orientation is preserved *)
Theorem C03_lambert_conformal : forall (el : ellipsoid (T:=R)) (pr : projection (T:=R)) lat lon,
  0 < el_a el -> 0 <= el_e el < 1 -> el_e el * el_e el = el_e2 el -> - PI / 2 < lat < PI / 2 ->
  let e := el_e el in
  exists xlat ylat xlon ylon,
    is_derive (fun x => v2x (toLambert ROps pr e (mkWgs x lon))) lat xlat /\
    is_derive (fun x => v2y (toLambert ROps pr e (mkWgs x lon))) lat ylat /\
    is_derive (fun l => v2x (toLambert ROps pr e (mkWgs lat l))) lon xlon /\
    is_derive (fun l => v2y (toLambert ROps pr e (mkWgs lat l))) lon ylon /\
    xlat * xlon + ylat * ylon = 0 /\
    (xlat * xlat + ylat * ylat) / (meridionalRadius ROps el lat * meridionalRadius ROps el lat) =
    (xlon * xlon + ylon * ylon) / (transversalRadius ROps el lat * transversalRadius ROps el lat) /\
    (xlon * xlon + ylon * ylon) / (transversalRadius ROps el lat * transversalRadius ROps el lat) =
    Rsqr (parallel_scale pr el lat) /\
    0 <= xlon * ylat - ylon * xlat.
Proof.
  intros el pr lat lon Ha He Hee Hl e.
  destruct (toLambert_dlat pr e lat lon He Hl) as [D1 D2].
  destruct (toLambert_dlon pr e lat lon) as [D3 D4].
  destruct (conformal_algebra el Ha He Hee pr lat lon Hl) as [A1 [A2 [A3 A4]]].
  exact (ex_intro _ _ (ex_intro _ _ (ex_intro _ _ (ex_intro _ _
           (conj D1 (conj D2 (conj D3 (conj D4 (conj A1 (conj A2 (conj A3 A4))))))))))).
Qed.
Print Assumptions C03_lambert_conformal.

(* scale exactly 1 on both standard parallels (secant constructor) *)
Theorem C03_secant_true_scale : forall (el : ellipsoid (T:=R)) sp,
  0 < el_a el -> 0 <= el_e el < 1 ->
  - PI / 2 < sp_lat1 sp < PI / 2 -> - PI / 2 < sp_lat2 sp < PI / 2 ->
  isometricLatitude ROps (sp_lat1 sp) (el_e el) <> isometricLatitude ROps (sp_lat2 sp) (el_e el) ->
  p_n (secant_projection ROps sp el) <> 0 ->
  parallel_scale (secant_projection ROps sp el) el (sp_lat1 sp) = 1 /\
  parallel_scale (secant_projection ROps sp el) el (sp_lat2 sp) = 1.
Proof. intros el sp Ha He. exact (secant_true_scale el Ha He sp). Qed.
Print Assumptions C03_secant_true_scale.

Theorem C03_tangent_scale : forall (el : ellipsoid (T:=R)) tp,
  0 < el_a el -> 0 <= el_e el < 1 -> - PI / 2 < tp_lat0 tp < PI / 2 -> sin (tp_lat0 tp) <> 0 ->
  parallel_scale (tangent_projection ROps tp el) el (tp_lat0 tp) = tp_k0 tp.
Proof. intros el tp Ha He. exact (tangent_scale el Ha He tp). Qed.
Print Assumptions C03_tangent_scale.

(* projection origin -> false origin (secant: origin away from the pole, i.e. the branch |lat0 - pi/2| > 1e-9) *)
Theorem C03_origin_to_false_origin : forall (el : ellipsoid (T:=R)),
  (forall sp, pole_eps ROps < Rabs (sp_lat0 sp - PI / 2) ->
     toLambert ROps (secant_projection ROps sp el) (el_e el) (mkWgs (sp_lat0 sp) (sp_lon0 sp))
     = mkV2 (sp_x0 sp) (sp_y0 sp)) /\
  (forall tp,
     toLambert ROps (tangent_projection ROps tp el) (el_e el) (mkWgs (tp_lat0 tp) (tp_lon0 tp))
     = mkV2 (tp_x0 tp) (tp_y0 tp)).
Proof. intros el. exact (conj (secant_origin el) (tangent_origin el)). Qed.
Print Assumptions C03_origin_to_false_origin.

(* the central meridian maps onto the line x = x0 *)
Theorem C03_central_meridian : forall (el : ellipsoid (T:=R)) lat,
  (forall sp, v2x (toLambert ROps (secant_projection ROps sp el) (el_e el) (mkWgs lat (sp_lon0 sp))) = sp_x0 sp) /\
  (forall tp, v2x (toLambert ROps (tangent_projection ROps tp el) (el_e el) (mkWgs lat (tp_lon0 tp))) = tp_x0 tp).
Proof. intros el lat. split; intros p; exact (f_equal v2x (toLambert_central_meridian _ (el_e el) lat)). Qed.
Print Assumptions C03_central_meridian.

(* inverse: isometric latitude and longitude are recovered exactly for cone constants of either sign
   (both hemispheres); the result is the latitude iteration run on the exact isometric latitude *)
Theorem C03_inverse_recovers_isolat_and_longitude : forall (pr : projection (T:=R)) e fuel lat lon,
  p_c pr <> 0 -> p_n pr <> 0 -> - PI / 2 < p_n pr * (lon - p_lon0 pr) < PI / 2 ->
  toWGS84 ROps fuel pr e (toLambert ROps pr e (mkWgs lat lon)) =
  match computeLatitude ROps fuel (isometricLatitude ROps lat e) e with
  | Some l => Some (mkWgs l lon) | None => None end.
Proof. intros pr e fuel lat lon. exact (toWGS84_of_toLambert pr e fuel lat lon). Qed.
Print Assumptions C03_inverse_recovers_isolat_and_longitude.

(* the true latitude is a fixed point of the iteration at its own isometric latitude, and the loop started
   there returns it at once *)
Theorem C03_latitude_fixed_point : forall e lat fuel, 0 <= e < 1 -> - PI / 2 < lat < PI / 2 ->
  latitude_step ROps (isometricLatitude ROps lat e) e lat = lat /\
  latitude_iter ROps (S fuel) (isometricLatitude ROps lat e) e lat = Some lat.
Proof.
  intros e lat fuel He Hl. pose proof (latitude_step_fixed_point e lat He Hl) as F. split; [exact F|].
  fold (isolat e lat) in *. rewrite latitude_iter_done; rewrite F; [reflexivity|].
  unfold Rminus. rewrite Rplus_opp_r, Rabs_R0, lambert_eps_eq. lra.
Qed.
Print Assumptions C03_latitude_fixed_point.

(* the loop body is a global contraction with factor e^2/(1-e^2) (mean value theorem on its derivative) *)
Theorem C03_latitude_iteration_contracts : forall L e x y, 0 <= e < 1 ->
  Rabs (latitude_step ROps L e y - latitude_step ROps L e x) <= e * e / (1 - e * e) * Rabs (y - x).
Proof. exact latitude_step_lipschitz. Qed.
Print Assumptions C03_latitude_iteration_contracts.

(* exit of the loop: the last pass moved the latitude by less than EPSILON <= 1e-11 (read from the source) *)
Theorem C03_latitude_exit : forall fuel L e lat r,
  latitude_iter ROps fuel L e lat = Some r ->
  exists prev, r = latitude_step ROps L e prev /\ Rabs (r - prev) < lambert_eps ROps.
Proof. exact latitude_iter_exit. Qed.
Print Assumptions C03_latitude_exit.

(* inverse map: for e <= 0.1, cone constants of either sign (both hemispheres), |n (lon - lon0)| < PI/2:
   whenever toWGS84 returns, the longitude is exact and the latitude is within EPSILON/98 <= 1.1e-13 rad.
   (Conditional on the loop returning; C03_inverse_total below removes the condition for fuel >= 8.) *)
Theorem C03_inverse_exact : forall (pr : projection (T:=R)) e fuel lat lon w,
  0 <= e <= / 10 -> - PI / 2 < lat < PI / 2 ->
  p_c pr <> 0 -> p_n pr <> 0 -> - PI / 2 < p_n pr * (lon - p_lon0 pr) < PI / 2 ->
  toWGS84 ROps fuel pr e (toLambert ROps pr e (mkWgs lat lon)) = Some w ->
  Rabs (w_lat w - lat) <= lambert_eps ROps / 98 /\ w_lon w = lon.
Proof.
  intros pr e fuel lat lon w He Hl Hc Hn Hg H.
  rewrite (toWGS84_of_toLambert pr e fuel lat lon Hc Hn Hg) in H.
  destruct (computeLatitude ROps fuel (isolat e lat) e) as [l|] eqn:E; [|discriminate].
  inversion H; subst w; cbn [w_lat w_lon]. split; [|reflexivity].
  exact (computeLatitude_accuracy fuel e lat l He Hl E).
Qed.
Print Assumptions C03_inverse_exact.

(* termination: for e <= 0.1 the loop of computeLatitude exits within 8 passes for every isometric latitude
   (so the fuel 500 used by the executed model is never exhausted on the property's domain) *)
Theorem C03_latitude_loop_terminates : forall L e k, 0 <= e <= / 10 ->
  exists r, computeLatitude ROps (8 + k) L e = Some r.
Proof. exact computeLatitude_terminates. Qed.
Print Assumptions C03_latitude_loop_terminates.

(* inverse map, total form: with fuel >= 8 toWGS84 returns, the longitude is exact and the latitude is within
   EPSILON/98 of the original, on cones of either hemisphere *)
Theorem C03_inverse_total : forall (pr : projection (T:=R)) e k lat lon,
  0 <= e <= / 10 -> - PI / 2 < lat < PI / 2 ->
  p_c pr <> 0 -> p_n pr <> 0 -> - PI / 2 < p_n pr * (lon - p_lon0 pr) < PI / 2 ->
  exists w, toWGS84 ROps (8 + k) pr e (toLambert ROps pr e (mkWgs lat lon)) = Some w /\
            Rabs (w_lat w - lat) <= lambert_eps ROps / 98 /\ w_lon w = lon.
Proof.
  intros pr e k lat lon He Hl Hc Hn Hg.
  destruct (computeLatitude_terminates (isolat e lat) e k He) as [l El].
  exists (mkWgs l lon). split.
  - rewrite (toWGS84_of_toLambert pr e (8 + k) lat lon Hc Hn Hg). rewrite El. reflexivity.
  - cbn [w_lat w_lon]. split; [|reflexivity]. exact (computeLatitude_accuracy (8 + k) e lat l He Hl El).
Qed.
Print Assumptions C03_inverse_total.

Theorem C03_epsilon_from_source : 0 < lambert_eps ROps <= / 100000000000.
Proof. rewrite lambert_eps_eq. lra. Qed.
Print Assumptions C03_epsilon_from_source.

(* ---- the code before the repair (log(rho/c)) ---- *)
(* "the inverse returns the original point" is false of the unrepaired code on every southern cone: the
   inverse is undefined (log of a non-positive number; in C++ NaN and an endless loop) at every point.
   Witness replayed on the implementation: checks/C03.py, parameter set with parallels -0.5759 / -0.7854. *)
Theorem C03_inverse_south_refuted : forall (pr : projection (T:=R)) e fuel v,
  p_c pr < 0 -> toWGS84_old ROps fuel pr e v = None.
Proof.
  intros pr e fuel v Hc. unfold toWGS84_old. cbn [nltb nzero ndiv ROps].
  rewrite (proj2 (Rltb_false _ _)); [reflexivity|].
  assert (0 <= rho_of ROps pr v) by (unfold rho_of; cbn; apply sqrt_pos).
  unfold Rdiv. assert (/ p_c pr < 0) by (apply Rinv_lt_0_compat; exact Hc). nra.
Qed.
Print Assumptions C03_inverse_south_refuted.

(* on northern cones the repaired inverse is the old one *)
Theorem C03_inverse_north_unchanged : forall (pr : projection (T:=R)) e fuel v,
  0 < p_c pr -> 0 < rho_of ROps pr v -> toWGS84_old ROps fuel pr e v = toWGS84 ROps fuel pr e v.
Proof.
  intros pr e fuel v Hc Hr. unfold toWGS84_old, toWGS84. cbn [nltb nzero ndiv nabs ROps].
  rewrite (proj2 (Rltb_true _ _)) by (apply Rdiv_lt_0_compat; assumption).
  rewrite (Rabs_pos_eq (p_c pr)) by lra. reflexivity.
Qed.
Print Assumptions C03_inverse_north_unchanged.

(* ---- non-vacuity ---- *)
Example C03_hypotheses_satisfiable :
  (0 <= / 10 < 1) /\ (- PI / 2 < - PI / 4 < PI / 2) /\
  (exists pr : projection (T:=R), p_c pr < 0 /\ p_n pr <> 0 /\ - PI / 2 < p_n pr * (0 - p_lon0 pr) < PI / 2).
Proof.
  pose proof PI_RGT_0. split; [lra|]. split; [lra|].
  exists (mkProj 0 (-1) (-1) 0 0). cbn. repeat split; lra.
Qed.

(* ---- syntactic tie of the closed-form leaves to the current source (gen/SrcFunsC03.v is regenerated from the clang AST
   of src/geodesy/LambertConverter.cpp and EarthEllipsoid.cpp on every run) ---- *)
From Romea Require Import SrcTie SrcTieC03.
From Romea.gen Require Import SrcFunsC03.

Theorem C03_source_tie_isometric_latitude : forall lat e,
  src_isometricLatitude ROps lat e = isometricLatitude ROps lat e.
Proof. exact tie_isometricLatitude. Qed.

Theorem C03_source_tie_grande_normale : forall lat a e,
  src_grandeNormale ROps lat a e = grandeNormale ROps lat a e.
Proof. exact tie_grandeNormale. Qed.

Theorem C03_source_tie_toLambert : forall (pr : projection (T:=R)) e (w : wgs84 (T:=R)),
  src_toLambert ROps (p_c pr) e (p_lon0 pr) (p_n pr) (w_lat w) (w_lon w) (p_xs pr) (p_ys pr)
  = (v2x (toLambert ROps pr e w), v2y (toLambert ROps pr e w)).
Proof. exact tie_toLambert. Qed.

Theorem C03_source_tie_radii : forall lat (el : ellipsoid (T:=R)),
  src_meridionalRadius ROps lat (el_a el) (el_e el) (el_e2 el) = meridionalRadius ROps el lat /\
  src_transversalRadius ROps lat (el_a el) (el_e el) = transversalRadius ROps el lat.
Proof. intros lat el. split; [apply tie_meridionalRadius|apply tie_transversalRadius]. Qed.
Print Assumptions C03_source_tie_toLambert.

(* the INVERSE map, loop included, and the constructor arithmetic: computeLatitude (for(;;) … break), toWGS84 and both
   computeProjectionParameters overloads regenerated from the clang AST are the model functions, for every fuel *)
Theorem C03_source_tie_inverse : forall fuel (pr : projection (T:=R)) e (v : vec2 (T:=R)) L,
  src_computeLatitude ROps fuel L e = computeLatitude ROps fuel L e /\
  src_lambertToWGS84 ROps fuel (p_c pr) e (p_lon0 pr) (p_n pr) (v2x v) (v2y v) (p_xs pr) (p_ys pr)
  = match toWGS84 ROps fuel pr e v with None => None | Some w => Some (w_lat w, w_lon w) end.
Proof. intros fuel pr e v L. exact (conj (tie_computeLatitude fuel L e) (tie_lambertToWGS84 fuel pr e v)). Qed.
Print Assumptions C03_source_tie_inverse.

Theorem C03_source_tie_projection_parameters : forall (el : ellipsoid (T:=R)),
  (forall p : secant_params (T:=R),
     src_secantProjection ROps (el_a el) (el_e el) (sp_lat0 p) (sp_lat1 p) (sp_lat2 p) (sp_lon0 p) (sp_x0 p) (sp_y0 p)
     = (let q := secant_projection ROps p el in (p_lon0 q, p_n q, p_c q, p_xs q, p_ys q))) /\
  (forall p : tangent_params (T:=R),
     src_tangentProjection ROps (el_a el) (el_e el) (tp_k0 p) (tp_lat0 p) (tp_lon0 p) (tp_x0 p) (tp_y0 p)
     = (let q := tangent_projection ROps p el in (p_lon0 q, p_n q, p_c q, p_xs q, p_ys q))).
Proof. intros el. exact (conj (fun p => tie_secantProjection p el) (fun p => tie_tangentProjection p el)). Qed.
Print Assumptions C03_source_tie_projection_parameters.

(* ==== SOURCE TIE OF THE CONSTRUCTORS (translator translate/tr_C03_ctor.py, library translate/imptrans.py) ====
   The four constructors of LambertConverter are regenerated on every run from the clang AST of the current
   src/geodesy/LambertConverter.cpp (gen/SrcLambertCtor.v) as the tuple of the data members they leave, by name:
   (c_, e_, longitude0_, n_, xs_, ys_); the class must have exactly these six double members and these four constructors.
   A converter built from secant / tangent parameters and an ellipsoid holds the projection constants
   computeProjectionParameters(parameters, ellipsoid) and the ellipsoid's FIRST eccentricity el_e — the pair (pr, e) all
   theorems above are about.  Every numeric dictionary.  (lambert_fields pr e = (p_c pr, e, p_lon0 pr, p_n pr, p_xs pr, p_ys pr):
   SrcTieC03Ctor.v.) *)
From Romea Require Import SrcTieC03Ctor.
From Romea.gen Require Import SrcLambertCtor.

Theorem C03_source_tie_constructors : forall T (N : NumOps T) (sp : secant_params (T:=T)) (tp : tangent_params (T:=T)) (el : ellipsoid (T:=T)),
  src_ctor_secant N (secant_projection N) (tangent_projection N) sp el = lambert_fields (secant_projection N sp el) (el_e el) /\
  src_ctor_tangent N (secant_projection N) (tangent_projection N) tp el = lambert_fields (tangent_projection N tp el) (el_e el).
Proof. intros T N sp tp el. exact (conj (tie_ctor_secant N _ _ sp el) (tie_ctor_tangent N _ _ tp el)). Qed.
Print Assumptions C03_source_tie_constructors.

(* the two plain constructors store their arguments, each in its own member *)
Theorem C03_source_tie_plain_constructors : forall T (N : NumOps T) Fs Ft (pr : projection (T:=T)) lon0 n c xs ys e,
  src_ctor_scalars N Fs Ft lon0 n c xs ys e = lambert_fields (mkProj lon0 n c xs ys) e /\
  src_ctor_projection N Fs Ft pr e = lambert_fields pr e.
Proof.
  intros T N Fs Ft pr lon0 n c xs ys e.
  exact (conj (tie_ctor_scalars N Fs Ft lon0 n c xs ys e) (tie_ctor_projection N Fs Ft pr e)).
Qed.
Print Assumptions C03_source_tie_plain_constructors.

(* end to end over the reals: the source's toLambert on the members the source's constructors store is the model's
   toLambert (projection constants of the model, eccentricity el_e) *)
Theorem C03_source_tie_constructed_converter : forall (el : ellipsoid (T:=R)) (w : wgs84 (T:=R)),
  (forall sp : secant_params (T:=R),
     let '(c, e, lon0, n, xs, ys) := src_ctor_secant ROps (secant_projection ROps) (tangent_projection ROps) sp el in
     src_toLambert ROps c e lon0 n (w_lat w) (w_lon w) xs ys =
     (let v := toLambert ROps (secant_projection ROps sp el) (el_e el) w in (v2x v, v2y v))) /\
  (forall tp : tangent_params (T:=R),
     let '(c, e, lon0, n, xs, ys) := src_ctor_tangent ROps (secant_projection ROps) (tangent_projection ROps) tp el in
     src_toLambert ROps c e lon0 n (w_lat w) (w_lon w) xs ys =
     (let v := toLambert ROps (tangent_projection ROps tp el) (el_e el) w in (v2x v, v2y v))).
Proof. exact tie_constructed_toLambert. Qed.
Print Assumptions C03_source_tie_constructed_converter.

Theorem C03_source_tie_constructed_converter_inverse : forall fuel (el : ellipsoid (T:=R)) (v : vec2 (T:=R)),
  (forall sp : secant_params (T:=R),
     let '(c, e, lon0, n, xs, ys) := src_ctor_secant ROps (secant_projection ROps) (tangent_projection ROps) sp el in
     src_lambertToWGS84 ROps fuel c e lon0 n (v2x v) (v2y v) xs ys =
     match toWGS84 ROps fuel (secant_projection ROps sp el) (el_e el) v with None => None | Some w => Some (w_lat w, w_lon w) end) /\
  (forall tp : tangent_params (T:=R),
     let '(c, e, lon0, n, xs, ys) := src_ctor_tangent ROps (secant_projection ROps) (tangent_projection ROps) tp el in
     src_lambertToWGS84 ROps fuel c e lon0 n (v2x v) (v2y v) xs ys =
     match toWGS84 ROps fuel (tangent_projection ROps tp el) (el_e el) v with None => None | Some w => Some (w_lat w, w_lon w) end).
Proof. exact tie_constructed_toWGS84. Qed.
Print Assumptions C03_source_tie_constructed_converter_inverse.
