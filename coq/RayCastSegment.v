(* RayCastSegment.v — C14: every cell visited by the walk is met by the segment (exact arithmetic).
   Ghost parameter T = the ray parameter at which the current cell was entered; invariant: the point of the ray at T
   lies in the closed current cell and, for every axis that has not reached the end index, the stored crossing
   parameter is the parameter at which the ray meets the border of the current cell in the direction of travel.
   The crossing parameters next() compares belong to such axes and are therefore at most rho, the length of the
   segment: with this invariant the walk needs no bound on the stored parameters other than rho < max(). *)
From Coq Require Import Reals ZArith List Bool Arith Lia Lra.
From Romea Require Import Num NumR GridMapModel GridMapProofs RayCastModel RayCastProofs.
Import ListNotations.
Local Open Scope R_scope.

Section Seg.
Variable d : nat.
Hypothesis Hd : (d = 2 \/ d = 3)%nat.
Variables (r rho : R) (org o dirv : list R) (eidx step : list Z) (tdelta : list R) (B : R).
Hypothesis Hr : 0 < r.
Hypothesis Le : length eidx = d.
Hypothesis Ls : length step = d.
Hypothesis Ld : length tdelta = d.
Hypothesis HB : B < M.
Hypothesis Hdelta : forall i, (i < d)%nat -> 0 <= nth i tdelta 0.

Definition lo (i : nat) (c : Z) : R := nth i org 0 + IZR c * r.
Definition hi (i : nat) (c : Z) : R := nth i org 0 + (IZR c + 1) * r.
Definition pos (i : nat) (t : R) : R := nth i o 0 + t * nth i dirv 0.

(* the end point (ray parameter rho) lies in the closed end cell *)
Hypothesis Hend : forall i, (i < d)%nat -> lo i (nth i eidx 0%Z) <= pos i rho <= hi i (nth i eidx 0%Z).
(* step = sign of the direction; the increment is the parameter length of one cell *)
Hypothesis Hstep : forall i, (i < d)%nat ->
  (nth i step 0%Z = 1%Z /\ 0 < nth i dirv 0 /\ nth i tdelta 0 * nth i dirv 0 = r) \/
  (nth i step 0%Z = (-1)%Z /\ nth i dirv 0 < 0 /\ nth i tdelta 0 * nth i dirv 0 = - r) \/
  (nth i step 0%Z = 0%Z /\ nth i dirv 0 = 0).

Definition ginv (T : R) (st : list Z * list R) : Prop :=
  let '(cell, tmax) := st in
  0 <= T <= rho /\
  (forall i, (i < d)%nat -> lo i (nth i cell 0%Z) <= pos i T <= hi i (nth i cell 0%Z)) /\
  (forall i, (i < d)%nat -> nth i cell 0%Z <> nth i eidx 0%Z ->
     T <= nth i tmax 0 /\
     (nth i step 0%Z = 1%Z -> pos i (nth i tmax 0) = hi i (nth i cell 0%Z)) /\
     (nth i step 0%Z = (-1)%Z -> pos i (nth i tmax 0) = lo i (nth i cell 0%Z))).

Definition meets (cell : list Z) : Prop :=
  exists t, 0 <= t <= rho /\ forall i, (i < d)%nat -> lo i (nth i cell 0%Z) <= pos i t <= hi i (nth i cell 0%Z).

Lemma ginv_meets T st : ginv T st -> meets (fst st).
Proof. destruct st as [cell tmax]. intros (HT & Hin & _). exists T. split; assumption. Qed.

(* the next crossing of a live axis happens inside the segment *)
Lemma crossing_legit T st i : ginv T st -> shape d eidx step st -> (i < d)%nat -> live eidx (fst st) i ->
  nth i (snd st) 0 <= rho.
Proof using Hend Hstep.
  clear Hd Le Ls Ld. (* or lia draws them into the proof term *)
  destruct st as [cell tmax]. intros (HT & Hin & Hcr) S Hi Hl. cbn [fst snd] in *.
  destruct (Hcr i Hi Hl) as (H1 & Hup & Hdn). specialize (Hend i Hi). unfold lo, hi, pos in *.
  destruct (live_step d eidx step (cell, tmax) i S Hi Hl) as [[St Hlt]|[St Hlt]]; cbn [fst] in Hlt;
    destruct (Hstep i Hi) as [(S1 & D & _)|[(S1 & D & _)|(S1 & D)]]; try lia.
  - specialize (Hup St).
    assert (IZR (nth i cell 0%Z) + 1 <= IZR (nth i eidx 0%Z)) by (rewrite <- (plus_IZR _ 1); apply IZR_le; lia).
    assert (nth i tmax 0 * nth i dirv 0 <= rho * nth i dirv 0) by nra. nra.
  - specialize (Hdn St).
    assert (IZR (nth i eidx 0%Z) + 1 <= IZR (nth i cell 0%Z)) by (rewrite <- (plus_IZR _ 1); apply IZR_le; lia).
    assert (rho * nth i dirv 0 <= nth i tmax 0 * nth i dirv 0) by nra. nra.
Qed.

(* the axis that moves: at its crossing parameter T' the ray is on the border shared by the old and the new cell, and one
   increment later on the next border in the direction of travel *)
Lemma crossed_axis j (c : Z) (T' : R) : (j < d)%nat -> nth j step 0%Z = 1%Z \/ nth j step 0%Z = (-1)%Z ->
  (nth j step 0%Z = 1%Z -> pos j T' = hi j c) -> (nth j step 0%Z = (-1)%Z -> pos j T' = lo j c) ->
  lo j (c + nth j step 0)%Z <= pos j T' <= hi j (c + nth j step 0)%Z /\
  (nth j step 0%Z = 1%Z -> pos j (T' + nth j tdelta 0) = hi j (c + nth j step 0)%Z) /\
  (nth j step 0%Z = (-1)%Z -> pos j (T' + nth j tdelta 0) = lo j (c + nth j step 0)%Z).
Proof using Hr Hstep.
  clear Hd Le Ls Ld. intros Hj Hs Hup Hdn. unfold lo, hi, pos in *.
  destruct (Hstep j Hj) as [(S1 & D & Dl)|[(S1 & D & Dl)|(S1 & D)]]; [| |lia].
  - specialize (Hup S1). rewrite S1, plus_IZR. simpl (IZR 1). split; [nra|]. split; intros; [nra|lia].
  - specialize (Hdn S1). rewrite S1, plus_IZR. simpl (IZR (-1)). split; [nra|]. split; intros; [lia|nra].
Qed.

(* advancing a live axis of least crossing parameter T' keeps the invariant, with T' as the new ghost parameter *)
Lemma ginv_advance T st j : ginv T st -> shape d eidx step st -> minimal_live d eidx st j ->
  ginv (nth j (snd st) 0) (advance step tdelta st j).
Proof using Hr Hdelta Hend Hstep.
  clear Hd Le Ls Ld. intros G S (Hj & Hjl & Hmin). pose proof (crossing_legit T st j G S Hj Hjl) as HT'rho.
  pose proof (live_step d eidx step st j S Hj Hjl) as Hsj.
  destruct st as [cell tmax]. pose proof G as (HT & Hin & Hcr). pose proof S as (Lc & Lt & _).
  destruct (nth_advance_same d step tdelta (cell, tmax) j Lc Lt Hj) as [Hnew Htnew].
  pose proof (fun k Hk => proj1 (nth_advance_other step tdelta (cell, tmax) j k Hk)) as Hoth.
  pose proof (fun k Hk => proj2 (nth_advance_other step tdelta (cell, tmax) j k Hk)) as Htoth.
  unfold advance, live in *. cbn [fst snd] in *. destruct (Hcr j Hj Hjl) as (HTj & Hupj & Hdnj).
  set (T' := nth j tmax 0) in *.
  destruct (crossed_axis j (nth j cell 0%Z) T' Hj ltac:(tauto) Hupj Hdnj) as (Cin & Cup & Cdn).
  split; [lra|]. split.
  - (* the point at T' lies in the new cell *)
    intros k Hk. destruct (Nat.eq_dec k j) as [->|Hkj].
    + rewrite Hnew. exact Cin.
    + rewrite Hoth by exact Hkj. specialize (Hin k Hk).
      destruct (Z.eq_dec (nth k cell 0%Z) (nth k eidx 0%Z)) as [Ek|Ek].
      * (* finished axis: convexity between the position at T and the end point *)
        specialize (Hend k Hk). rewrite <- Ek in Hend. unfold lo, hi, pos in *.
        destruct (Rle_dec 0 (nth k dirv 0)) as [P|P]; nra.
      * destruct (Hcr k Hk Ek) as (HTk & Hupk & Hdnk). specialize (Hmin k Hk Ek).
        unfold lo, hi, pos in *.
        destruct (Hstep k Hk) as [(S1 & D & Dl)|[(S1 & D & Dl)|(S1 & D)]].
        -- specialize (Hupk S1). nra.
        -- specialize (Hdnk S1). nra.
        -- rewrite D in *. lra.
  - (* crossing parameters of the live axes *)
    intros k Hk Hne. destruct (Nat.eq_dec k j) as [->|Hkj].
    + rewrite Hnew, Htnew. specialize (Hdelta j Hj). split; [lra|]. split; assumption.
    + rewrite Hoth in * by exact Hkj. rewrite Htoth by exact Hkj.
      destruct (Hcr k Hk Hne) as (HTk & Hupk & Hdnk). specialize (Hmin k Hk Hne).
      split; [lra|]. split; assumption.
Qed.

(* the invariant of the walk: the state lies on the ray, for some ghost parameter *)
Definition on_ray (st : list Z * list R) : Prop := exists T, ginv T st.

Lemma on_ray_advance st j : on_ray st -> shape d eidx step st -> minimal_live d eidx st j ->
  on_ray (advance step tdelta st j).
Proof. intros [T G] S Hm. exists (nth j (snd st) 0). exact (ginv_advance T st j G S Hm). Qed.

Lemma on_ray_meets cells : Forall (fun cl => exists tm, on_ray (cl, tm)) cells -> Forall meets cells.
Proof. apply Forall_impl. intros cl (tm & T & G). exact (ginv_meets T _ G). Qed.

(* the whole cast: counting, end cell, adjacency, index box, and every cell met by the segment, with no premise on
   the magnitude of the stored parameters other than rho < max() *)
Theorem cast_walk_geo (c : caster (T:=R)) : rho < M ->
  rc_eidx c = eidx -> rc_step c = step -> rc_tdelta c = tdelta ->
  shape d eidx step (rc_oidx c, rc_tmax c) -> ginv 0 (rc_oidx c, rc_tmax c) ->
  cast_visits d c meets.
Proof.
  intros HM Ee Es Ed S G.
  destruct (cast_walk_inv d eidx step tdelta Le Hd on_ray) with (c := c) as (A1 & A2 & A3 & A4 & A5 & A6);
    try assumption.
  - intros st i [T GT] S' Hi Hl. pose proof (crossing_legit T st i GT S' Hi Hl). lra.
  - exact on_ray_advance.
  - exists 0. exact G.
  - repeat (split; [assumption|]). exact (on_ray_meets _ A6).
Qed.

(* the same under the premise of C14_cast_walk instead: a bound B < max() on what the crossing parameters will be
   after the last step of their axes *)
Theorem cast_walk_bounded_geo (c : caster (T:=R)) :
  rc_eidx c = eidx -> rc_step c = step -> rc_tdelta c = tdelta ->
  shape d eidx step (rc_oidx c, rc_tmax c) -> bounded d eidx tdelta B (rc_oidx c, rc_tmax c) ->
  ginv 0 (rc_oidx c, rc_tmax c) ->
  cast_visits d c meets.
Proof.
  intros Ee Es Ed S Hbound G.
  destruct (cast_walk_bounded d eidx step tdelta Le Hd on_ray B c HB Hdelta on_ray_advance)
    as (A1 & A2 & A3 & A4 & A5 & A6); try assumption.
  - exists 0. exact G.
  - repeat (split; [assumption|]). exact (on_ray_meets _ A6).
Qed.

(* the whole cast: every visited cell (the origin cell included) is met by the segment *)
Theorem cast_cells_meet_segment (c : caster (T:=R)) :
  length (rc_oidx c) = d -> length (rc_tmax c) = d -> rc_eidx c = eidx -> rc_step c = step -> rc_tdelta c = tdelta ->
  (forall i, (i < d)%nat -> (nth i eidx 0 - nth i (rc_oidx c) 0 = nth i step 0 * Z.abs (nth i eidx 0 - nth i (rc_oidx c) 0))%Z) ->
  (forall i, (i < d)%nat -> (0 < Z.abs (nth i eidx 0 - nth i (rc_oidx c) 0))%Z ->
     nth i (rc_tmax c) 0 + IZR (Z.abs (nth i eidx 0 - nth i (rc_oidx c) 0)%Z) * nth i tdelta 0 <= B) ->
  ginv 0 (rc_oidx c, rc_tmax c) ->
  Forall meets (cast_cells ROps c).
Proof using Hd Hr Le Ls Ld HB Hdelta Hend Hstep.
  intros Lo Lt Ee Es Ed Hsign Hbound G. apply (cast_walk_bounded_geo c); try assumption. repeat split; assumption.
Qed.
End Seg.

(* what setEndPoint stores makes the invariant true at T = 0, per axis: the first crossing parameter is where the
   ray meets the border of the origin cell in the direction of travel, and it is not negative *)
Lemma axis_setup_crossing (a : axis (T:=R)) (oc dirc : R) (oi : Z) :
  0 < ax_r a ->
  ax_org a + IZR oi * ax_r a <= oc <= ax_org a + (IZR oi + 1) * ax_r a ->
  let '(st, tm, td) := axis_setup ROps a oc oi dirc in
  (st = 1%Z -> 0 < dirc /\ 0 <= tm /\ oc + tm * dirc = ax_org a + (IZR oi + 1) * ax_r a /\ td * dirc = ax_r a) /\
  (st = (-1)%Z -> dirc < 0 /\ 0 <= tm /\ oc + tm * dirc = ax_org a + IZR oi * ax_r a /\ td * dirc = - ax_r a) /\
  (st = 0%Z -> dirc = 0).
Proof.
  intros Hr Hin. unfold axis_setup. cbn [nltb nzero ROps].
  destruct (Rltb 0 dirc) eqn:E1; [apply Rltb_true in E1|apply Rltb_false in E1].
  - cbn [Z.eqb]. unfold gm_centre. cbn [nadd nmul nsub ndiv nofZ nabs ROps]. rewrite nhalf_R.
    split; [intros _|split; intros; discriminate || lia].
    split; [exact E1|]. rewrite Rabs_right by lra.
    assert (Hd0 : dirc <> 0) by lra.
    split; [|split; [field; exact Hd0|field; exact Hd0]].
    apply Rmult_le_pos; [|left; apply Rinv_0_lt_compat; exact E1]. simpl (IZR 1). lra.
  - destruct (Rltb dirc 0) eqn:E2; [apply Rltb_true in E2|apply Rltb_false in E2].
    + cbn [Z.eqb]. unfold gm_centre. cbn [nadd nmul nsub ndiv nofZ nabs ROps]. rewrite nhalf_R.
      split; [intros; discriminate|]. split; [intros _|intros; discriminate].
      split; [exact E2|]. rewrite Rabs_left by lra.
      assert (Hd0 : dirc <> 0) by lra.
      split; [|split; [field; exact Hd0|field; exact Hd0]].
      replace ((ax_org a + (IZR oi + 1 / 2) * ax_r a + IZR (-1) * ax_r a * (1 / 2) - oc) / dirc)
        with ((oc - (ax_org a + IZR oi * ax_r a)) * / (- dirc)) by (simpl (IZR (-1)); field; exact Hd0).
      apply Rmult_le_pos; [lra|left; apply Rinv_0_lt_compat; lra].
    + cbn [Z.eqb]. split; [intros; discriminate|]. split; [intros; discriminate|]. intros _. lra.
Qed.
