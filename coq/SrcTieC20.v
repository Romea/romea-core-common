(* SrcTieC20.v — SYNTACTIC SOURCE TIE for C20.  The terms regenerated on every run by translate/tr_C20_boxes.py from the
   clang AST of the instantiated class templates (coq/gen/SrcBoxes.v: AxisAlignedBoundingBox<double,2|3>,
   OrientedBoundingBox<double,2|3>, Interval<double,2|3>, PointSetPreconditioner<Vector2d|Vector3d>::compute) equal the
   functions of BoxModel.v the C20 theorems are about.
   The lemmas are POLYMORPHIC in the numeric dictionary N: they hold for every dictionary satisfying the literal laws
   NumLits (BoxLits.v: the source's literals 0, 1, 2. denote the model's nzero, n_one, ntwo; + and * commute) — in
   particular for ROps (the reals: theorems of Properties_C20.v) and for the rounded binary64 / binary32 dictionaries
   (BoxFloat.v), so the floating-point theorems are about the source's operation sequence too.
   Flat tuples of the generated definitions (parameters flattened in declaration order, then the data members in
   declaration order) are mapped to the model's records by aabb2/3, ival2/3, vec2/3, pc2/3, obb2/3 below.
   Robust to: renaming, hoisting a sub-expression into a local, reordering independent statements, commuting the
   operands of + and *, moving a negation in or out of a product, writing `>=` for a flipped `<=`, cwiseAbs()/cwiseMin/cwiseMax for array().abs()/min/max, a range-for
   instead of the indexed loop.  NOT robust to re-association (not an identity in floating point) — and it must not be.
   Breaks on: `<=` -> `<`, abs dropped, transpose() added/removed, rows/columns swapped, lowest() -> min(), the mean not
   reset or divided by something else, min/max swapped, half extents where full widths are meant, getters swapped. *)
From Coq Require Import Reals ZArith List Bool Lra Lia.
From Romea Require Import Num NumR BoxModel BoxLits BoxProofs.
From Romea.gen Require Import SrcBoxes.
Import ListNotations.

Section Generic.
Context {T : Type} (N : NumOps T) (L : NumLits N).

Definition vec2 (t : T * T) : list T := let '(a, b) := t in [a; b].
Definition vec3 (t : T * T * T) : list T := let '(a, b, c) := t in [a; b; c].
Definition aabb2 (t : T * T * T * T) : aabb (T:=T) :=
  let '(c0, c1, h0, h1) := t in {| a_center := [c0; c1]; a_half := [h0; h1] |}.
Definition aabb3 (t : T * T * T * T * T * T) : aabb (T:=T) :=
  let '(c0, c1, c2, h0, h1, h2) := t in {| a_center := [c0; c1; c2]; a_half := [h0; h1; h2] |}.
Definition ival2 (t : T * T * T * T) : interval (T:=T) :=
  let '(l0, l1, u0, u1) := t in {| i_lower := [l0; l1]; i_upper := [u0; u1] |}.
Definition ival3 (t : T * T * T * T * T * T) : interval (T:=T) :=
  let '(l0, l1, l2, u0, u1, u2) := t in {| i_lower := [l0; l1; l2]; i_upper := [u0; u1; u2] |}.
Definition obb2 (t : T * T * T * T * T * T * T * T) : obb (T:=T) :=
  let '(c0, c1, h0, h1, r00, r01, r10, r11) := t in
  {| o_center := [c0; c1]; o_half := [h0; h1]; o_rot := [[r00; r01]; [r10; r11]] |}.
Definition obb3 (t : T * T * T * T * T * T * T * T * T * T * T * T * T * T * T) : obb (T:=T) :=
  let '(c0, c1, c2, h0, h1, h2, r00, r01, r02, r10, r11, r12, r20, r21, r22) := t in
  {| o_center := [c0; c1; c2]; o_half := [h0; h1; h2]; o_rot := [[r00; r01; r02]; [r10; r11; r12]; [r20; r21; r22]] |}.
(* members of PointSetPreconditioner in declaration order: scale_, translation_, pointSetMean_, pointSetMin_, pointSetMax_ *)
Definition pc2 (t : T * T * T * T * T * T * T * T * T) : precond (T:=T) :=
  let '(s, t0, t1, me0, me1, mi0, mi1, ma0, ma1) := t in
  {| pc_min := [mi0; mi1]; pc_max := [ma0; ma1]; pc_mean := [me0; me1]; pc_scale := s; pc_translation := [t0; t1] |}.
Definition pc3 (t : T * T * T * T * T * T * T * T * T * T * T * T * T) : precond (T:=T) :=
  let '(s, t0, t1, t2, me0, me1, me2, mi0, mi1, mi2, ma0, ma1, ma2) := t in
  {| pc_min := [mi0; mi1; mi2]; pc_max := [ma0; ma1; ma2]; pc_mean := [me0; me1; me2]; pc_scale := s;
     pc_translation := [t0; t1; t2] |}.
Definition pt2 (p : T * T) : list T := [fst p; snd p].
Definition pt3 (p : T * T * T) : list T := [fst (fst p); snd (fst p); snd p].

(* the model side is computed on the concrete lists (only the listed definitions are unfolded: nmin2 / nmax2 and the
   dictionary stay folded); literals are rewritten with the laws; the two sides are then compared structurally, trying the
   commuted operand order at every + and * *)
Ltac munfold :=
  cbv beta iota zeta delta [vec2 vec3 aabb2 aabb3 ival2 ival3 obb2 obb3 pc2 pc3
    aabb_of_interval aabb_to_interval aabb_inside interval_width interval_center interval_include interval_inside
    obb_inside obb_to_aabb abs_row_extent tr_mul_vec mul_vec column dot vadd vsub vabs vhalf vconst max_coeff ngeb ngtb
    map2 all2 map fold_left combine seq length nth fst snd repeat firstn
    a_center a_half i_lower i_upper o_center o_half o_rot].
Lemma lit_negmulR a b : nmul N a (nneg N b) = nneg N (nmul N a b).
Proof using N L. rewrite (lit_mulC N L), (lit_negmul N L), (lit_mulC N L). reflexivity. Qed.
(* literals; negations are moved out of products on both sides: (-a)*b, a*(-b), -(a*b) are the same number *)
Ltac lit := rewrite ?(lit_ofZ0 N L), ?(lit_ofZ1 N L), ?(lit_dec2 N L), ?(lit_negmul N L), ?lit_negmulR.
(* [n] bounds the depth of the comparison (nesting of + , * and constructors in the compared terms) *)
Ltac geq n :=
  lazymatch n with
  | O => fail "terms differ"
  | S ?m =>
    first [ reflexivity
          | match goal with
            | |- nadd N ?a ?b = nadd N ?c ?d =>
                first [ apply f_equal2; geq m | rewrite (lit_addC N L c d); apply f_equal2; geq m ]
            | |- nmul N ?a ?b = nmul N ?c ?d =>
                first [ apply f_equal2; geq m | rewrite (lit_mulC N L c d); apply f_equal2; geq m ]
            end
          | (progress f_equal); geq m ]
  end.
Ltac tie := intros; munfold; lit; geq 14%nat.

Lemma tie_aabb_ctor_2 c0 c1 h0 h1 :
  aabb2 (src_aabb_ctor_2 c0 c1 h0 h1) = {| a_center := [c0; c1]; a_half := [h0; h1] |}.
Proof using. reflexivity. Qed.
Lemma tie_aabb_ctor_3 c0 c1 c2 h0 h1 h2 :
  aabb3 (src_aabb_ctor_3 c0 c1 c2 h0 h1 h2) = {| a_center := [c0; c1; c2]; a_half := [h0; h1; h2] |}.
Proof using. reflexivity. Qed.

Lemma tie_aabb_of_interval_2 l0 l1 u0 u1 :
  aabb2 (src_aabb_of_interval_2 N l0 l1 u0 u1) = aabb_of_interval N {| i_lower := [l0; l1]; i_upper := [u0; u1] |}.
Proof using N L. unfold src_aabb_of_interval_2. tie. Qed.
Lemma tie_aabb_of_interval_3 l0 l1 l2 u0 u1 u2 :
  aabb3 (src_aabb_of_interval_3 N l0 l1 l2 u0 u1 u2) =
  aabb_of_interval N {| i_lower := [l0; l1; l2]; i_upper := [u0; u1; u2] |}.
Proof using N L. unfold src_aabb_of_interval_3. tie. Qed.

Lemma tie_aabb_isInside_2 p0 p1 c0 c1 h0 h1 :
  src_aabb_isInside_2 N p0 p1 c0 c1 h0 h1 = aabb_inside N {| a_center := [c0; c1]; a_half := [h0; h1] |} [p0; p1].
Proof using N L. unfold src_aabb_isInside_2. tie. Qed.
Lemma tie_aabb_isInside_3 p0 p1 p2 c0 c1 c2 h0 h1 h2 :
  src_aabb_isInside_3 N p0 p1 p2 c0 c1 c2 h0 h1 h2 =
  aabb_inside N {| a_center := [c0; c1; c2]; a_half := [h0; h1; h2] |} [p0; p1; p2].
Proof using N L. unfold src_aabb_isInside_3. tie. Qed.

Lemma tie_aabb_toInterval_2 c0 c1 h0 h1 :
  ival2 (src_aabb_toInterval_2 N c0 c1 h0 h1) = aabb_to_interval N {| a_center := [c0; c1]; a_half := [h0; h1] |}.
Proof using N L. unfold src_aabb_toInterval_2. tie. Qed.
Lemma tie_aabb_toInterval_3 c0 c1 c2 h0 h1 h2 :
  ival3 (src_aabb_toInterval_3 N c0 c1 c2 h0 h1 h2) =
  aabb_to_interval N {| a_center := [c0; c1; c2]; a_half := [h0; h1; h2] |}.
Proof using N L. unfold src_aabb_toInterval_3. tie. Qed.

Lemma tie_aabb_getters_2 (c0 c1 h0 h1 : T) :
  vec2 (src_aabb_getCenterPosition_2 c0 c1 h0 h1) = a_center {| a_center := [c0; c1]; a_half := [h0; h1] |} /\
  vec2 (src_aabb_getHalfWidthExtents_2 c0 c1 h0 h1) = a_half {| a_center := [c0; c1]; a_half := [h0; h1] |}.
Proof using. split; reflexivity. Qed.
Lemma tie_aabb_getters_3 (c0 c1 c2 h0 h1 h2 : T) :
  vec3 (src_aabb_getCenterPosition_3 c0 c1 c2 h0 h1 h2) = a_center {| a_center := [c0; c1; c2]; a_half := [h0; h1; h2] |} /\
  vec3 (src_aabb_getHalfWidthExtents_3 c0 c1 c2 h0 h1 h2) = a_half {| a_center := [c0; c1; c2]; a_half := [h0; h1; h2] |}.
Proof using. split; reflexivity. Qed.

Lemma tie_interval_basics_2 (l0 l1 u0 u1 : T) :
  let i := {| i_lower := [l0; l1]; i_upper := [u0; u1] |} in
  ival2 (src_interval_ctor_2 l0 l1 u0 u1) = i /\
  vec2 (src_interval_lower_2 l0 l1 u0 u1) = i_lower i /\ vec2 (src_interval_upper_2 l0 l1 u0 u1) = i_upper i /\
  vec2 (src_interval_width_2 N l0 l1 u0 u1) = interval_width N i /\
  vec2 (src_interval_center_2 N l0 l1 u0 u1) = interval_center N i.
Proof using N L.
  unfold src_interval_ctor_2, src_interval_lower_2, src_interval_upper_2, src_interval_width_2, src_interval_center_2.
  repeat split; tie.
Qed.
Lemma tie_interval_basics_3 (l0 l1 l2 u0 u1 u2 : T) :
  let i := {| i_lower := [l0; l1; l2]; i_upper := [u0; u1; u2] |} in
  ival3 (src_interval_ctor_3 l0 l1 l2 u0 u1 u2) = i /\
  vec3 (src_interval_lower_3 l0 l1 l2 u0 u1 u2) = i_lower i /\ vec3 (src_interval_upper_3 l0 l1 l2 u0 u1 u2) = i_upper i /\
  vec3 (src_interval_width_3 N l0 l1 l2 u0 u1 u2) = interval_width N i /\
  vec3 (src_interval_center_3 N l0 l1 l2 u0 u1 u2) = interval_center N i.
Proof using N L.
  unfold src_interval_ctor_3, src_interval_lower_3, src_interval_upper_3, src_interval_width_3, src_interval_center_3.
  repeat split; tie.
Qed.

(* this->include(other): parameters (other) first, then the members of this *)
Lemma tie_interval_include_2 jl0 jl1 ju0 ju1 l0 l1 u0 u1 :
  ival2 (src_interval_include_2 N jl0 jl1 ju0 ju1 l0 l1 u0 u1) =
  interval_include N {| i_lower := [l0; l1]; i_upper := [u0; u1] |} {| i_lower := [jl0; jl1]; i_upper := [ju0; ju1] |}.
Proof using N L. unfold src_interval_include_2. tie. Qed.
Lemma tie_interval_include_3 jl0 jl1 jl2 ju0 ju1 ju2 l0 l1 l2 u0 u1 u2 :
  ival3 (src_interval_include_3 N jl0 jl1 jl2 ju0 ju1 ju2 l0 l1 l2 u0 u1 u2) =
  interval_include N {| i_lower := [l0; l1; l2]; i_upper := [u0; u1; u2] |}
                     {| i_lower := [jl0; jl1; jl2]; i_upper := [ju0; ju1; ju2] |}.
Proof using N L. unfold src_interval_include_3. tie. Qed.

Lemma tie_interval_inside_2 v0 v1 l0 l1 u0 u1 :
  src_interval_inside_2 N v0 v1 l0 l1 u0 u1 = interval_inside N {| i_lower := [l0; l1]; i_upper := [u0; u1] |} [v0; v1].
Proof using N L. unfold src_interval_inside_2. tie. Qed.
Lemma tie_interval_inside_3 v0 v1 v2 l0 l1 l2 u0 u1 u2 :
  src_interval_inside_3 N v0 v1 v2 l0 l1 l2 u0 u1 u2 =
  interval_inside N {| i_lower := [l0; l1; l2]; i_upper := [u0; u1; u2] |} [v0; v1; v2].
Proof using N L. unfold src_interval_inside_3. tie. Qed.

(* OrientedBoundingBox: members aabb_ {centre, half extents}, rotation_ row-major *)
Lemma tie_obb_ctor_2 (c0 c1 h0 h1 r00 r01 r10 r11 : T) :
  obb2 (src_obb_ctor_2 c0 c1 h0 h1 r00 r01 r10 r11) =
  {| o_center := [c0; c1]; o_half := [h0; h1]; o_rot := [[r00; r01]; [r10; r11]] |}.
Proof using. reflexivity. Qed.
Lemma tie_obb_ctor_3 (c0 c1 c2 h0 h1 h2 r00 r01 r02 r10 r11 r12 r20 r21 r22 : T) :
  obb3 (src_obb_ctor_3 c0 c1 c2 h0 h1 h2 r00 r01 r02 r10 r11 r12 r20 r21 r22) =
  {| o_center := [c0; c1; c2]; o_half := [h0; h1; h2]; o_rot := [[r00; r01; r02]; [r10; r11; r12]; [r20; r21; r22]] |}.
Proof using. reflexivity. Qed.

Lemma tie_obb_getters_2 (c0 c1 h0 h1 r00 r01 r10 r11 : T) :
  vec2 (src_obb_getCenterPosition_2 c0 c1 h0 h1 r00 r01 r10 r11) = [c0; c1] /\
  vec2 (src_obb_getHalfWidthExtents_2 c0 c1 h0 h1 r00 r01 r10 r11) = [h0; h1] /\
  src_obb_getRotationMatrix_2 c0 c1 h0 h1 r00 r01 r10 r11 = (r00, r01, r10, r11).
Proof using. repeat split; reflexivity. Qed.
Lemma tie_obb_getters_3 (c0 c1 c2 h0 h1 h2 r00 r01 r02 r10 r11 r12 r20 r21 r22 : T) :
  vec3 (src_obb_getCenterPosition_3 c0 c1 c2 h0 h1 h2 r00 r01 r02 r10 r11 r12 r20 r21 r22) = [c0; c1; c2] /\
  vec3 (src_obb_getHalfWidthExtents_3 c0 c1 c2 h0 h1 h2 r00 r01 r02 r10 r11 r12 r20 r21 r22) = [h0; h1; h2] /\
  src_obb_getRotationMatrix_3 c0 c1 c2 h0 h1 h2 r00 r01 r02 r10 r11 r12 r20 r21 r22 =
    (r00, r01, r02, r10, r11, r12, r20, r21, r22).
Proof using. repeat split; reflexivity. Qed.

Lemma tie_obb_isInside_2 p0 p1 c0 c1 h0 h1 r00 r01 r10 r11 :
  src_obb_isInside_2 N p0 p1 c0 c1 h0 h1 r00 r01 r10 r11 =
  obb_inside N {| o_center := [c0; c1]; o_half := [h0; h1]; o_rot := [[r00; r01]; [r10; r11]] |} [p0; p1].
Proof using N L. unfold src_obb_isInside_2. tie. Qed.
Lemma tie_obb_isInside_3 p0 p1 p2 c0 c1 c2 h0 h1 h2 r00 r01 r02 r10 r11 r12 r20 r21 r22 :
  src_obb_isInside_3 N p0 p1 p2 c0 c1 c2 h0 h1 h2 r00 r01 r02 r10 r11 r12 r20 r21 r22 =
  obb_inside N {| o_center := [c0; c1; c2]; o_half := [h0; h1; h2];
                  o_rot := [[r00; r01; r02]; [r10; r11; r12]; [r20; r21; r22]] |} [p0; p1; p2].
Proof using N L. unfold src_obb_isInside_3. tie. Qed.

Lemma tie_obb_toAABB_2 c0 c1 h0 h1 r00 r01 r10 r11 :
  aabb2 (src_obb_toAABB_2 N c0 c1 h0 h1 r00 r01 r10 r11) =
  obb_to_aabb N {| o_center := [c0; c1]; o_half := [h0; h1]; o_rot := [[r00; r01]; [r10; r11]] |}.
Proof using N L. unfold src_obb_toAABB_2. tie. Qed.
Lemma tie_obb_toAABB_3 c0 c1 c2 h0 h1 h2 r00 r01 r02 r10 r11 r12 r20 r21 r22 :
  aabb3 (src_obb_toAABB_3 N c0 c1 c2 h0 h1 h2 r00 r01 r02 r10 r11 r12 r20 r21 r22) =
  obb_to_aabb N {| o_center := [c0; c1; c2]; o_half := [h0; h1; h2];
                   o_rot := [[r00; r01; r02]; [r10; r11; r12]; [r20; r21; r22]] |}.
Proof using N L. unfold src_obb_toAABB_3. tie. Qed.

(* PointSetPreconditioner::compute.  The generated loop is ONE fold whose state is the flat tuple (mean, min, max) of
   coordinates; the model runs three folds over coordinate lists.  The first is a simulation of the second: regroup the
   state with st2 / st3, map the points with pt2 / pt3. *)
Lemma fold_left_map_sim {St St' Pt Pt'} (phi : St -> St') (psi : Pt -> Pt') (g : St -> Pt -> St) (g' : St' -> Pt' -> St') :
  (forall s p, phi (g s p) = g' (phi s) (psi p)) ->
  forall l s, phi (fold_left g l s) = fold_left g' (map psi l) (phi s).
Proof using. intros H. induction l as [|p l IH]; intros s; [reflexivity|]. cbn [fold_left map]. rewrite IH, H. reflexivity. Qed.

Lemma fold_left_triple {A B C Pt} (f : A -> Pt -> A) (g : B -> Pt -> B) (h : C -> Pt -> C) l : forall a b c,
  fold_left (fun '(a, b, c) p => (f a p, g b p, h c p)) l (a, b, c) = (fold_left f l a, fold_left g l b, fold_left h l c).
Proof using. induction l as [|p l IH]; intros a b c; [reflexivity|]. apply IH. Qed.

Definition st2 (t : T * T * T * T * T * T) : list T * list T * list T :=
  let '(a0, a1, b0, b1, c0, c1) := t in ([a0; a1], [b0; b1], [c0; c1]).
Definition st3 (t : T * T * T * T * T * T * T * T * T) : list T * list T * list T :=
  let '(a0, a1, a2, b0, b1, b2, c0, c1, c2) := t in ([a0; a1; a2], [b0; b1; b2], [c0; c1; c2]).
Definition sum_min_max : list T * list T * list T -> list T -> list T * list T * list T :=
  fun '(a, b, c) p => (map2 (nadd N) a p, map2 (nmin2 N) b p, map2 (nmax2 N) c p).

Ltac precond_unfold :=
  unfold precond_compute, precond_compute_lowest, precond_with, vsum, vadd, vconst;
  change (fun acc p => map2 (nmin2 N) acc p) with (map2 (nmin2 N));
  change (fun acc p => map2 (nmax2 N) acc p) with (map2 (nmax2 N));
  cbn [repeat].

Lemma tie_precond_compute_2 (points : list (T * T)) s t0 t1 me0 me1 mi0 mi1 ma0 ma1 :
  pc2 (src_precond_compute_2 N points s t0 t1 me0 me1 mi0 mi1 ma0 ma1) = precond_compute N 2 2 (map pt2 points).
Proof using N L.
  unfold src_precond_compute_2.
  match goal with |- context [fold_left ?G points ?init] => set (g := G); set (st0 := init) end.
  assert (Hsim : forall st p, st2 (g st p) = sum_min_max (st2 st) (pt2 p)).
  { intros [[[[[a0 a1] b0] b1] c0] c1] [p0 p1]. unfold g. cbv beta iota zeta delta [st2 sum_min_max pt2 fst snd map2].
    geq 8%nat. }
  pose proof (fold_left_map_sim st2 pt2 g sum_min_max Hsim points st0) as E.
  revert E. destruct (fold_left g points st0) as [[[[[o0 o1] o2] o3] o4] o5]. intros E.
  unfold sum_min_max, st0, st2 in E. rewrite fold_left_triple, (lit_ofZ0 N L) in E. injection E as E1 E2 E3.
  cbv beta iota zeta. precond_unfold. rewrite <- E1, <- E2, <- E3, map_length. munfold. lit. geq 14%nat.
Qed.

Lemma tie_precond_compute_3 (points : list (T * T * T)) s t0 t1 t2 me0 me1 me2 mi0 mi1 mi2 ma0 ma1 ma2 :
  pc3 (src_precond_compute_3 N points s t0 t1 t2 me0 me1 me2 mi0 mi1 mi2 ma0 ma1 ma2) =
  precond_compute N 3 3 (map pt3 points).
Proof using N L.
  unfold src_precond_compute_3.
  match goal with |- context [fold_left ?G points ?init] => set (g := G); set (st0 := init) end.
  assert (Hsim : forall st p, st3 (g st p) = sum_min_max (st3 st) (pt3 p)).
  { intros [[[[[[[[a0 a1] a2] b0] b1] b2] c0] c1] c2] [[p0 p1] p2]. unfold g.
    cbv beta iota zeta delta [st3 sum_min_max pt3 fst snd map2]. geq 12%nat. }
  pose proof (fold_left_map_sim st3 pt3 g sum_min_max Hsim points st0) as E.
  revert E. destruct (fold_left g points st0) as [[[[[[[[o0 o1] o2] o3] o4] o5] o6] o7] o8]. intros E.
  unfold sum_min_max, st0, st3 in E. rewrite fold_left_triple, (lit_ofZ0 N L) in E. injection E as E1 E2 E3.
  cbv beta iota zeta. precond_unfold. rewrite <- E1, <- E2, <- E3, map_length. munfold. lit. geq 16%nat.
Qed.

End Generic.

(* end to end over the reals: the GENERATED terms have the properties (tie + BoxProofs) *)
Local Open Scope R_scope.

Lemma src_aabb_isInside_2_closed p0 p1 c0 c1 h0 h1 :
  src_aabb_isInside_2 ROps p0 p1 c0 c1 h0 h1 = true <-> (c0 - h0 <= p0 <= c0 + h0 /\ c1 - h1 <= p1 <= c1 + h1).
Proof.
  rewrite (tie_aabb_isInside_2 ROps NumLits_R), aabb_inside_iff by reflexivity. split.
  - intros H. split; [apply (H 0%nat)|apply (H 1%nat)]; simpl; lia.
  - intros [H0 H1] [|[|i]] Hi; simpl in *; try assumption; lia.
Qed.

Lemma src_aabb_isInside_3_closed p0 p1 p2 c0 c1 c2 h0 h1 h2 :
  src_aabb_isInside_3 ROps p0 p1 p2 c0 c1 c2 h0 h1 h2 = true <->
  (c0 - h0 <= p0 <= c0 + h0 /\ c1 - h1 <= p1 <= c1 + h1 /\ c2 - h2 <= p2 <= c2 + h2).
Proof.
  rewrite (tie_aabb_isInside_3 ROps NumLits_R), aabb_inside_iff by reflexivity. split.
  - intros H. split; [apply (H 0%nat)|split; [apply (H 1%nat)|apply (H 2%nat)]]; simpl; lia.
  - intros (H0 & H1 & H2) [|[|[|i]]] Hi; simpl in *; try assumption; lia.
Qed.

Lemma coords_pt2 (points : list (R * R)) :
  coords (map (pt2 (T:=R)) points) 0 = map fst points /\ coords (map (pt2 (T:=R)) points) 1 = map snd points.
Proof. unfold coords. rewrite !map_map. split; apply map_ext; intros [a b]; reflexivity. Qed.

(* PointSetPreconditioner<Vector2d>::compute, as generated: whatever the members held before the call, for every non-empty
   set of finite points the reported minimum / maximum are the true componentwise extrema and the mean is the centroid *)
Lemma src_precond_compute_2_extents (points : list (R * R)) s t0 t1 me0 me1 mi0 mi1 ma0 ma1 :
  points <> [] -> (forall p, In p points -> Rabs (fst p) <= nmaxval ROps /\ Rabs (snd p) <= nmaxval ROps) ->
  let pc := pc2 (src_precond_compute_2 ROps points s t0 t1 me0 me1 mi0 mi1 ma0 ma1) in
  is_min (map fst points) (pc_min pc).[0%nat] /\ is_max (map fst points) (pc_max pc).[0%nat] /\
  is_min (map snd points) (pc_min pc).[1%nat] /\ is_max (map snd points) (pc_max pc).[1%nat] /\
  (pc_mean pc).[0%nat] = Rsum (map fst points) / INR (length points) /\
  (pc_mean pc).[1%nat] = Rsum (map snd points) / INR (length points).
Proof.
  intros Hne Hb pc. unfold pc. rewrite (tie_precond_compute_2 ROps NumLits_R).
  assert (Hne' : map (pt2 (T:=R)) points <> []) by (destruct points; [contradiction|discriminate]).
  assert (Hf : Forall (fun p => length p = 2%nat) (map (pt2 (T:=R)) points)).
  { apply Forall_forall. intros p Hp. apply in_map_iff in Hp. destruct Hp as (q & <- & _). reflexivity. }
  assert (Hbd : bounded (map (pt2 (T:=R)) points)).
  { intros p x Hp Hx. apply in_map_iff in Hp. destruct Hp as (q & <- & Hq). destruct (Hb q Hq) as [B0 B1].
    destruct Hx as [<-|[<-|[]]]; assumption. }
  destruct (precond_lowest_correct 2 2 _ Hne' (Nat.lt_0_succ 1) (Nat.le_refl 2) Hf Hbd) as (E & _ & _).
  destruct (coords_pt2 points) as [C0 C1].
  destruct (E 0%nat (Nat.lt_0_succ 1)) as (A1 & A2 & A3). destruct (E 1%nat (Nat.lt_succ_diag_r 1)) as (B1 & B2 & B3).
  rewrite C0 in A1, A2, A3. rewrite C1 in B1, B2, B3. rewrite map_length in A3, B3. tauto.
Qed.

(* the real-number instance (the one the theorems of Properties_C20.v are about) *)
Definition tieR_aabb_isInside_2 := tie_aabb_isInside_2 ROps NumLits_R.
Definition tieR_aabb_isInside_3 := tie_aabb_isInside_3 ROps NumLits_R.
