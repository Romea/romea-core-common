(* DiagProofs.v — DiagModel.v (C18) in three parts: the status order (worse is the maximum of the enumerator values) and
   the sorted info map of a report; for every dictionary, that a check-up's report is consistent with the returned
   status and depends on the thresholds and the last value only; over R, which values get which verdict. *)
From Coq Require Import Reals ZArith List Bool Lra Lia Sorted.
From Romea Require Import Num NumR DiagModel.
From Romea.gen Require Import RepoConstants.
Import ListNotations.

(* the enumerator values come from the source: the facts about them are finite and hold by evaluation *)
Lemma status_val_inj a b : status_val a = status_val b -> a = b.
Proof. destruct a, b; intros H; try reflexivity; discriminate H. Qed.

Lemma worse_comm a b : worse a b = worse b a.
Proof. destruct a, b; reflexivity. Qed.
Lemma worse_OK_iff a b : worse a b = OK <-> a = OK /\ b = OK.
Proof. destruct a, b; compute; intuition discriminate. Qed.

(* whatever the enumerator values are *)
Lemma worse_is_max a b : status_val (worse a b) = Z.max (status_val a) (status_val b).
Proof. unfold worse. destruct (Z.geb_spec (status_val a) (status_val b)); lia. Qed.

(* folding [worse] from s0: the result bounds s0 and every element, and is one of them *)
Lemma fold_worse_max l : forall s0,
  let s := fold_left (fun acc x => worse acc (d_status x)) l s0 in
  (status_val s0 <= status_val s)%Z /\
  (forall d, In d l -> (status_val (d_status d) <= status_val s)%Z) /\
  (s = s0 \/ exists d, In d l /\ d_status d = s).
Proof.
  induction l as [|x l IH]; intros s0; cbn [fold_left]; cbv zeta.
  - split; [lia|]. split; [intros d []|left; reflexivity].
  - destruct (IH (worse s0 (d_status x))) as (A & B & C). rewrite worse_is_max in A.
    split; [lia|]. split.
    + intros d [<-|Hd]; [lia|exact (B d Hd)].
    + destruct C as [C|(d & Hd & E)]; [|right; exists d; split; [right|]; assumption].
      rewrite C. unfold worse. destruct (Z.geb _ _); [left; reflexivity|].
      right. exists x. split; [left|]; reflexivity.
Qed.

Lemma worst_is_max l : l <> [] ->
  exists s, worseStatus l = Some s /\
            (forall d, In d l -> (status_val (d_status d) <= status_val s)%Z) /\
            (exists d, In d l /\ d_status d = s).
Proof.
  destruct l as [|d l]; [congruence|intros _]. cbn [worseStatus]. eexists; split; [reflexivity|].
  destruct (fold_worse_max l (d_status d)) as (A & B & C). split.
  - intros d' [<-|Hd]; [exact A|exact (B d' Hd)].
  - destruct C as [C|(d' & Hd & E)]; [exists d; rewrite C|exists d']; cbn [In]; auto.
Qed.

Lemma worseStatus_empty : worseStatus [] = None.
Proof. reflexivity. Qed.

Lemma status_eqb_eq a b : status_eqb a b = true <-> a = b.
Proof. destruct a, b; cbn; split; intros; try discriminate; reflexivity. Qed.

Lemma fold_worse_OK l : forall s0,
  fold_left (fun acc x => worse acc (d_status x)) l s0 = OK <-> s0 = OK /\ Forall (fun d => d_status d = OK) l.
Proof.
  induction l as [|x l IH]; intros s0; cbn [fold_left].
  - split; [intros ->; split; constructor|intros [H _]; exact H].
  - rewrite IH, worse_OK_iff, Forall_cons_iff. tauto.
Qed.

Fixpoint lookup (k : Z) (m : list (Z * Z)) : option Z :=
  match m with [] => None | (k', v) :: r => if Z.eqb k k' then Some v else lookup k r end.

Definition keys_sorted (m : list (Z * Z)) := StronglySorted Z.lt (map fst m).

Lemma keys_sorted_cons k v m : keys_sorted ((k, v) :: m) <-> keys_sorted m /\ Forall (Z.lt k) (map fst m).
Proof. split; [intros H; inversion H; auto|intros [A B]; constructor; assumption]. Qed.

Lemma lookup_above k m : Forall (Z.lt k) (map fst m) -> lookup k m = None.
Proof.
  induction m as [|[k' v'] m IH]; cbn [lookup map fst]; [reflexivity|]. rewrite Forall_cons_iff. intros [H Hm].
  destruct (Z.eqb_spec k k'); [lia|exact (IH Hm)].
Qed.

(* std::map::insert on a sorted association list: existing keys keep their value *)
Lemma map_insert_lookup k v m k0 : keys_sorted m ->
  lookup k0 (map_insert k v m) =
  match lookup k0 m with Some x => Some x | None => if Z.eqb k0 k then Some v else None end.
Proof.
  induction m as [|[k' v'] m IH]; cbn [map_insert lookup]; [destruct (Z.eqb k0 k); reflexivity|].
  rewrite keys_sorted_cons. intros [Hs Hall].
  destruct (Z.ltb_spec k k') as [Hlt|Hge]; [|destruct (Z.eqb_spec k k') as [->|Hne]]; cbn [lookup].
  - destruct (Z.eqb_spec k0 k) as [E|]; [subst k0|destruct (Z.eqb k0 k'), (lookup k0 m); reflexivity].
    destruct (Z.eqb_spec k k'); [lia|]. rewrite lookup_above; [reflexivity|].
    revert Hall. apply Forall_impl. lia.
  - destruct (Z.eqb k0 k'); [reflexivity|]. destruct (lookup k0 m); reflexivity.
  - rewrite (IH Hs). destruct (Z.eqb k0 k'); reflexivity.
Qed.

Lemma map_insert_above a k v m : (a < k)%Z -> Forall (Z.lt a) (map fst m) -> Forall (Z.lt a) (map fst (map_insert k v m)).
Proof.
  intros Ha. induction m as [|[k' v'] m IH]; cbn [map_insert map fst]; intros H.
  - constructor; [exact Ha|constructor].
  - destruct (Z.ltb k k'); [constructor; [exact Ha|exact H]|]. destruct (Z.eqb k k'); [exact H|].
    cbn [map fst]. rewrite Forall_cons_iff in *. split; [apply H|apply IH, H].
Qed.

Lemma map_insert_sorted k v m : keys_sorted m -> keys_sorted (map_insert k v m).
Proof.
  induction m as [|[k' v'] m IH]; cbn [map_insert]; [repeat constructor|].
  intros Hs. pose proof Hs as [Hm Hall]%keys_sorted_cons.
  destruct (Z.ltb_spec k k') as [Hlt|Hge].
  - apply keys_sorted_cons. split; [exact Hs|]. constructor; [exact Hlt|].
    revert Hall. apply Forall_impl. lia.
  - destruct (Z.eqb_spec k k') as [->|Hne]; [exact Hs|].
    apply keys_sorted_cons. split; [exact (IH Hm)|apply map_insert_above; [lia|exact Hall]].
Qed.

(* merging reports: every key of r1 keeps r1's value, new keys take r2's value, and the map stays ordered *)
Lemma append_info r1 r2 k0 : keys_sorted (rep_info r1) -> keys_sorted (rep_info r2) ->
  keys_sorted (rep_info (report_append r1 r2)) /\
  lookup k0 (rep_info (report_append r1 r2)) =
    match lookup k0 (rep_info r1) with Some x => Some x | None => lookup k0 (rep_info r2) end.
Proof.
  destruct r1 as [d1 m1], r2 as [d2 m2]. cbn [report_append rep_info]. revert m1.
  induction m2 as [|[k v] m2 IH]; intros m1 H1 H2; cbn [fold_left fst snd lookup].
  - split; [exact H1|]. destruct (lookup k0 m1); reflexivity.
  - apply keys_sorted_cons in H2 as [H2 _].
    destruct (IH (map_insert k v m1) (map_insert_sorted k v m1 H1) H2) as [A B].
    split; [exact A|]. rewrite B, map_insert_lookup by exact H1.
    destruct (lookup k0 m1); [reflexivity|]. destruct (Z.eqb k0 k); reflexivity.
Qed.

Section Generic.
Context {T : Type} (N : NumOps T).

(* the returned status is the one stored in the report, for every kind of check-up *)
Lemma returned_is_stored k (c : checkup) v :
  let '(c', s) := cstep N k c (Eval v) in s = Some (d_status (r_diag (c_report c'))).
Proof. destruct k; reflexivity. Qed.

(* the OK verdicts in terms of the dictionary's comparisons *)
Lemma equal_ok_nltb (c : checkup) v :
  snd (eval_equal_to N c v) = OK <->
  nltb N v (nsub N (c_cmp c) (c_eps c)) = false /\ nltb N (nadd N (c_cmp c) (c_eps c)) v = false.
Proof. unfold eval_equal_to. do 2 destruct (nltb N _ _); cbn; intuition discriminate. Qed.

Lemma greater_ok_nltb (c : checkup) v :
  snd (eval_greater_than N c v) = OK <-> nltb N (nsub N (c_cmp c) (c_eps c)) v = true.
Proof. unfold eval_greater_than. destruct (nltb N _ _); cbn; intuition discriminate. Qed.

Lemma lower_ok_nltb (c : checkup) v :
  snd (eval_lower_than N c v) = OK <-> nltb N v (nadd N (c_cmp c) (c_eps c)) = true.
Proof. unfold eval_lower_than. destruct (nltb N _ _); cbn; intuition discriminate. Qed.

(* verdict table: which (status, message ending, info) combinations a check-up of kind k may show *)
Definition consistent (k : kind) (r : creport (T:=T)) : Prop :=
  let st := d_status (r_diag r) in let sf := d_suffix (r_diag r) in
  (st = STALE /\ sf = STimeout /\ r_info r = None) \/
  (exists v, r_info r = Some v /\
     match k with
     | KEqual => (st = OK /\ sf = SIsOK) \/ (st = ERROR /\ sf = STooLow) \/ (st = ERROR /\ sf = STooHigh)
     | KGreater => (st = OK /\ sf = SIsOK) \/ (st = ERROR /\ sf = STooLow)
     | KLower => (st = OK /\ sf = SIsOK) \/ (st = ERROR /\ sf = STooHigh)
     | KReliability => (st = OK /\ sf = SIsHigh) \/ (st = WARN /\ sf = SUncertain) \/ (st = ERROR /\ sf = STooLow)
     end).

(* every comparison met in the goal is decided both ways *)
Ltac split_ifs := repeat match goal with |- context [if ?b then _ else _] => destruct b end.

Lemma step_consistent k (c : checkup) o :
  let c' := fst (cstep N k c o) in
  consistent k (c_report c') /\ c_cmp c' = c_cmp c /\ c_eps c' = c_eps c.
Proof.
  destruct o as [v|]; [|cbn; split; [left|]; auto].
  destruct k; cbn [cstep]; unfold eval_equal_to, eval_greater_than, eval_lower_than, eval_reliability;
    split_ifs; cbn; (split; [right; exists v|]; tauto).
Qed.

(* over any sequence of evaluations and timeouts: every intermediate report is consistent and the
   thresholds never change *)
Lemma run_consistent k : forall ops (c : checkup),
  Forall (fun sr => consistent k (snd sr)) (crun N k c ops) /\
  c_cmp (cfinal N k c ops) = c_cmp c /\ c_eps (cfinal N k c ops) = c_eps c.
Proof.
  induction ops as [|o ops IH]; intros c; cbn [crun cfinal fold_left]; [repeat constructor|].
  destruct (step_consistent k c o) as (A & B & C).
  destruct (cstep N k c o) as [c' s]. cbn [fst] in *.
  destruct (IH c') as (A' & B' & C'). split; [constructor; assumption|].
  unfold cfinal in *. rewrite B', C'. split; assumption.
Qed.

(* an evaluation's report is the one a fresh check-up with the same thresholds would produce for that value *)
Lemma step_history_free k (c1 c2 : checkup) o :
  c_cmp c1 = c_cmp c2 -> c_eps c1 = c_eps c2 ->
  c_report (fst (cstep N k c1 o)) = c_report (fst (cstep N k c2 o)) /\ snd (cstep N k c1 o) = snd (cstep N k c2 o).
Proof.
  intros H1 H2. destruct o as [v|]; [|split; reflexivity].
  destruct k; cbn [cstep]; unfold eval_equal_to, eval_greater_than, eval_lower_than, eval_reliability;
    rewrite H1, H2; split_ifs; split; reflexivity.
Qed.
End Generic.

Local Open Scope R_scope.

Section Thresholds.
Variables (c : checkup (T:=R)) (v : R).
Let cmp := c_cmp c. Let eps := c_eps c.

Lemma equal_to_ok_iff :
  snd (eval_equal_to ROps c v) = OK <-> cmp - eps <= v <= cmp + eps.
Proof. rewrite equal_ok_nltb. cbn [nltb nsub nadd ROps]. rewrite !Rltb_false. reflexivity. Qed.

Lemma equal_to_verdicts : 0 <= eps ->
  let r := c_report (fst (eval_equal_to ROps c v)) in
  (v < cmp - eps -> d_status (r_diag r) = ERROR /\ d_suffix (r_diag r) = STooLow) /\
  (cmp + eps < v -> d_status (r_diag r) = ERROR /\ d_suffix (r_diag r) = STooHigh) /\
  (cmp - eps <= v <= cmp + eps -> d_status (r_diag r) = OK /\ d_suffix (r_diag r) = SIsOK) /\
  r_info r = Some v.
Proof.
  (* too high and too low at once would need eps < 0 *)
  intros He. unfold eval_equal_to, cmp, eps in *. cbn [nltb nsub nadd ROps].
  destruct (Rltb_spec v (c_cmp c - c_eps c)); [|destruct (Rltb_spec (c_cmp c + c_eps c) v)];
    cbn; repeat split; intros; auto; lra.
Qed.

Lemma greater_ok_iff :
  snd (eval_greater_than ROps c v) = OK <-> v > cmp - eps.
Proof. rewrite greater_ok_nltb. apply Rltb_true. Qed.

Lemma greater_verdicts :
  let r := c_report (fst (eval_greater_than ROps c v)) in
  (v > cmp - eps -> d_status (r_diag r) = OK /\ d_suffix (r_diag r) = SIsOK) /\
  (v <= cmp - eps -> d_status (r_diag r) = ERROR /\ d_suffix (r_diag r) = STooLow) /\
  r_info r = Some v.
Proof.
  unfold eval_greater_than, cmp, eps. cbn [nltb nsub ROps].
  destruct (Rltb_spec (c_cmp c - c_eps c) v); cbn; repeat split; intros; auto; lra.
Qed.

Lemma lower_ok_iff :
  snd (eval_lower_than ROps c v) = OK <-> v < cmp + eps.
Proof. rewrite lower_ok_nltb. apply Rltb_true. Qed.

Lemma lower_verdicts :
  let r := c_report (fst (eval_lower_than ROps c v)) in
  (v < cmp + eps -> d_status (r_diag r) = OK /\ d_suffix (r_diag r) = SIsOK) /\
  (cmp + eps <= v -> d_status (r_diag r) = ERROR /\ d_suffix (r_diag r) = STooHigh) /\
  r_info r = Some v.
Proof.
  unfold eval_lower_than, cmp, eps. cbn [nltb nadd ROps].
  destruct (Rltb_spec v (c_cmp c + c_eps c)); cbn; repeat split; intros; auto; lra.
Qed.

(* reliability: c_cmp = low threshold, c_eps = high threshold *)
Lemma reliability_classes :
  let r := c_report (fst (eval_reliability ROps c v)) in
  let s := snd (eval_reliability ROps c v) in
  (v < cmp -> s = ERROR /\ d_suffix (r_diag r) = STooLow) /\
  (cmp <= v -> v < eps -> s = WARN /\ d_suffix (r_diag r) = SUncertain) /\
  (cmp <= v -> eps <= v -> s = OK /\ d_suffix (r_diag r) = SIsHigh) /\
  r_info r = Some v.
Proof.
  unfold eval_reliability, cmp, eps. cbn [nltb ROps].
  destruct (Rltb_spec v (c_cmp c)); [|destruct (Rltb_spec v (c_eps c))];
    cbn; repeat split; intros; auto; lra.
Qed.
End Thresholds.
