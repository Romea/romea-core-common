(* LsProofs.v — the LeastSquares model (LsModel.v) over the reals.  Whatever right inverse of the normal matrix an estimate
   function obtains from its oracle, the vector it returns is A z + b with z the unique minimiser ([ls_apply_correct]);
   under the SVD contract the matrix built by the repaired SVD path is such an inverse; the original absolute threshold
   is refuted by a witness. *)
From Coq Require Import Reals List Arith Lia Lra Bool Psatz.
From Romea Require Import Num NumR LinAlgBModel LinAlgBProofs LsModel LsHistoryProofs.
Import ListNotations.
Local Open Scope R_scope.

Definition Jf (s : ls_state (T:=R)) : nat -> nat -> R := mget ROps (ls_J s).
Definition Yf (s : ls_state (T:=R)) : nat -> R := vget ROps (ls_Y s).
Definition Wf (s : ls_state (T:=R)) : nat -> R := vget ROps (ls_W s).
Definition Af (s : ls_state (T:=R)) : nat -> nat -> R := mget ROps (ls_A s).
Definition bf (s : ls_state (T:=R)) : nat -> R := vget ROps (ls_b s).

(* contract of the LDLT oracle: the returned matrix is a right inverse of the normal matrix *)
Definition inv_contract (k : nat) (M inv : list (list R)) : Prop :=
  forall i j, (i < k)%nat -> (j < k)%nat ->
    Rsum k (fun l => mget ROps M i l * mget ROps inv l j) = delta i j.

(* contract of the SVD oracle: M = U diag(sigma) V^T, U and V orthogonal, sigma non-negative and non-increasing *)
Definition svd_contract (k : nat) (M : list (list R)) (usv : (list (list R) * list R) * list (list R)) : Prop :=
  let '(U, sg, V) := usv in
  (forall i j, (i < k)%nat -> (j < k)%nat ->
      mget ROps M i j = Rsum k (fun a => mget ROps U i a * vget ROps sg a * mget ROps V j a)) /\
  (forall a b, (a < k)%nat -> (b < k)%nat -> Rsum k (fun l => mget ROps U l a * mget ROps U l b) = delta a b) /\
  (forall i j, (i < k)%nat -> (j < k)%nat -> Rsum k (fun a => mget ROps U i a * mget ROps U j a) = delta i j) /\
  (forall a b, (a < k)%nat -> (b < k)%nat -> Rsum k (fun l => mget ROps V l a * mget ROps V l b) = delta a b) /\
  (forall i j, (i < k)%nat -> (j < k)%nat -> Rsum k (fun a => mget ROps V i a * mget ROps V j a) = delta i j) /\
  (forall a, (a < k)%nat -> 0 <= vget ROps sg a) /\
  (forall a b, (a <= b)%nat -> (b < k)%nat -> vget ROps sg b <= vget ROps sg a).

Lemma ls_JtJ_get s i j : (i < ls_k s)%nat -> (j < ls_k s)%nat ->
  mget ROps (ls_JtJ ROps s) i j = nM (ls_n s) (Jf s) i j.
Proof. intros Hi Hj. unfold ls_JtJ. rewrite mget_mtab by assumption. reflexivity. Qed.

Lemma ls_JtY_get s i : (i < ls_k s)%nat -> vget ROps (ls_JtY ROps s) i = nv (ls_n s) (Jf s) (Yf s) i.
Proof. intros Hi. unfold ls_JtY. rewrite vget_tab by assumption. reflexivity. Qed.

(* Ac * inv * JtY + Bc, entry by entry *)
Lemma ls_apply_get s inv i : (i < ls_k s)%nat ->
  vget ROps (ls_apply ROps s inv) i =
  Rsum (ls_k s) (fun l => Af s i l * Rsum (ls_k s) (fun m => mget ROps inv l m * nv (ls_n s) (Jf s) (Yf s) m)) + bf s i.
Proof.
  intros Hi. unfold ls_apply, vadd, mvmul, mmul. rewrite vget_tab by exact Hi. rewrite vget_tab by exact Hi.
  rsimpl. f_equal. unfold fmvmul. rsimpl.
  rewrite (Rsum_ext (ls_k s) _ (fun l => Rsum (ls_k s) (fun m => Af s i m * mget ROps inv m l) * nv (ls_n s) (Jf s) (Yf s) l)).
  - exact (fmmul_assoc (ls_k s) (ls_k s) (Af s) (mget ROps inv) (fun l _ => nv (ls_n s) (Jf s) (Yf s) l) i O).
  - intros l Hl. rewrite mget_mtab by assumption. rewrite ls_JtY_get by exact Hl. reflexivity.
Qed.

(* the un-preconditioned solution computed from an inverse *)
Definition ls_z (s : ls_state (T:=R)) (inv : list (list R)) : nat -> R :=
  x0 (ls_n s) (ls_k s) (Jf s) (Yf s) (mget ROps inv).

Lemma inv_contract_nM s inv : inv_contract (ls_k s) (ls_JtJ ROps s) inv ->
  forall i j, (i < ls_k s)%nat -> (j < ls_k s)%nat ->
    Rsum (ls_k s) (fun l => nM (ls_n s) (Jf s) i l * mget ROps inv l j) = delta i j.
Proof.
  intros H i j Hi Hj. rewrite <- (H i j Hi Hj). apply Rsum_ext. intros l Hl.
  rewrite ls_JtJ_get by assumption. reflexivity.
Qed.

(* a 1 x 1 normal matrix and its reciprocal: the oracle of the examples *)
Lemma inv_contract_1 M : mget ROps M 0 0 <> 0 -> inv_contract 1 M [[/ mget ROps M 0 0]].
Proof.
  intros H i j Hi Hj. replace i with 0%nat by lia. replace j with 0%nat by lia. unfold delta. cbn. now field.
Qed.

(* Whatever right inverse [inv] of the normal matrix an estimate function uses, the vector Ac * inv * JtY + Bc it returns is
   Ac z + Bc with z = inv * JtY the solution of the normal equations, hence (Pythagoras) the global and only minimiser. *)
Theorem ls_apply_correct s inv : inv_contract (ls_k s) (ls_JtJ ROps s) inv ->
  let n := ls_n s in let k := ls_k s in let z := ls_z s inv in
  (forall i, (i < k)%nat -> vget ROps (ls_apply ROps s inv) i = Rsum k (fun l => Af s i l * z l) + bf s i) /\
  (forall i, (i < k)%nat -> grad n k (Jf s) (Yf s) z i = 0) /\
  (forall y, cost n k (Jf s) (Yf s) y =
             cost n k (Jf s) (Yf s) z + Rsum n (fun r => Jx k (Jf s) (fun c => y c - z c) r * Jx k (Jf s) (fun c => y c - z c) r)) /\
  (forall y, cost n k (Jf s) (Yf s) z <= cost n k (Jf s) (Yf s) y) /\
  (forall y, cost n k (Jf s) (Yf s) y = cost n k (Jf s) (Yf s) z -> forall i, (i < k)%nat -> y i = z i).
Proof.
  intros Hc n k z. pose proof (inv_contract_nM s _ Hc) as Hinv.
  split; [|split; [|split; [|split]]].
  - intros i Hi. now rewrite ls_apply_get.
  - intros i Hi. now apply normal_equations.
  - intros y. now apply pythagoras.
  - intros y. now apply minimiser.
  - intros y. now apply unique_minimiser.
Qed.

(* [ls_apply_correct] read on the caller's data *)
Lemma apply_on_rows t inv (J : nat -> nat -> R) (Y : nat -> R) :
  (forall r a, (r < ls_n t)%nat -> Jf t r a = J r a) -> (forall r, (r < ls_n t)%nat -> Yf t r = Y r) ->
  inv_contract (ls_k t) (ls_JtJ ROps t) inv ->
  let n := ls_n t in let k := ls_k t in let z := ls_z t inv in
  (forall i, (i < k)%nat -> vget ROps (ls_apply ROps t inv) i = Rsum k (fun l => Af t i l * z l) + bf t i) /\
  (forall a, (a < k)%nat -> grad n k J Y z a = 0) /\
  (forall y, cost n k J Y z <= cost n k J Y y) /\
  (forall y, cost n k J Y y = cost n k J Y z -> forall i, (i < k)%nat -> y i = z i).
Proof.
  intros HJ HY Hc n k z. destruct (ls_apply_correct t inv Hc) as (H1 & H2 & _ & H4 & H5).
  split; [exact H1|]. split; [|split].
  - intros a Ha. rewrite <- (grad_ext n k (Jf t) (Yf t) J Y z a HJ HY). now apply H2.
  - intros y. rewrite <- !(cost_ext n k (Jf t) (Yf t) J Y _ HJ HY). apply H4.
  - intros y. rewrite <- !(cost_ext n k (Jf t) (Yf t) J Y _ HJ HY). apply H5.
Qed.

(* two right inverses give the same estimate: both solve the same normal equations *)
Lemma ls_apply_unique s inv1 inv2 :
  inv_contract (ls_k s) (ls_JtJ ROps s) inv1 -> inv_contract (ls_k s) (ls_JtJ ROps s) inv2 ->
  forall i, (i < ls_k s)%nat -> vget ROps (ls_apply ROps s inv1) i = vget ROps (ls_apply ROps s inv2) i.
Proof.
  intros H1 H2 i Hi. rewrite !ls_apply_get by exact Hi. f_equal. apply Rsum_ext. intros l Hl. f_equal.
  change (ls_z s inv1 l = ls_z s inv2 l). symmetry.
  apply (normal_solution_unique (ls_n s) (ls_k s) (Jf s) (Yf s) _ (inv_contract_nM s _ H1)); [|exact Hl].
  intros a Ha. apply normal_system; [exact (inv_contract_nM s _ H2)|exact Ha].
Qed.

Lemma estimate_with_unique F F' s st1 x1 st2 x2 :
  inv_contract (ls_k s) (ls_JtJ ROps s) (F (ls_k s) (ls_JtJ ROps s)) ->
  inv_contract (ls_k s) (ls_JtJ ROps s) (F' (ls_k s) (ls_JtJ ROps s)) ->
  estimate_with ROps F s = Some (st1, x1) -> estimate_with ROps F' s = Some (st2, x2) ->
  forall i, (i < ls_k s)%nat -> vget ROps x1 i = vget ROps x2 i.
Proof.
  intros H1 H2 E1 E2. apply estimate_with_inv in E1. destruct E1 as (_ & _ & ->).
  apply estimate_with_inv in E2. destruct E2 as (_ & _ & ->). exact (ls_apply_unique s _ _ H1 H2).
Qed.

Lemma svd_pinv_get k thr U sg V l j : (l < k)%nat -> (j < k)%nat ->
  mget ROps (svd_pinv ROps k thr (U, sg, V)) l j =
  Rsum k (fun b => mget ROps V l b * svd_inv_diag ROps thr sg b * mget ROps U j b).
Proof.
  intros Hl Hj. unfold svd_pinv, mmul, mtrans. rewrite mget_mtab by assumption. unfold fmmul. rsimpl.
  apply Rsum_ext. intros b Hb. rewrite !mget_mtab by assumption. unfold ftr. f_equal.
  unfold fmmul. rsimpl.
  rewrite (Rsum_ext k _ (fun a => (mget ROps V l a * svd_inv_diag ROps thr sg a) * delta a b)).
  - now rewrite Rsum_delta_r.
  - intros a Ha. rewrite mget_mtab by assumption. unfold fdiag, delta. rsimpl. destruct (Nat.eqb a b); lra.
Qed.

Lemma svd_inv_diag_inverts thr sg a : thr < vget ROps sg a -> 0 <= thr ->
  vget ROps sg a * svd_inv_diag ROps thr sg a = 1.
Proof.
  intros H H0. unfold svd_inv_diag. rsimpl.
  assert (E : Rltb thr (vget ROps sg a) = true) by (apply Rltb_true; exact H).
  rewrite E. field. lra.
Qed.

(* the SVD path: under the SVD contract, with every singular value above the threshold, the
   "pseudo-inverse" V diag(1/sigma) U^T is a right inverse of the normal matrix *)
Lemma svd_pinv_contract k M U sg V thr :
  svd_contract k M (U, sg, V) -> 0 <= thr -> (forall a, (a < k)%nat -> thr < vget ROps sg a) ->
  inv_contract k M (svd_pinv ROps k thr (U, sg, V)).
Proof.
  intros (HM & _ & HUUt & HVtV & _ & _ & _) Hthr Habove i j Hi Hj.
  set (d := svd_inv_diag ROps thr sg).
  set (al := fun a => mget ROps U i a * vget ROps sg a).
  set (be := fun b => d b * mget ROps U j b).
  transitivity (Rsum k (fun l => Rsum k (fun a => Rsum k (fun b => (al a * be b) * (mget ROps V l a * mget ROps V l b))))).
  { apply Rsum_ext. intros l Hl. rewrite HM by assumption. rewrite svd_pinv_get by assumption.
    rewrite <- Rsum_scal_r. apply Rsum_ext. intros a Ha. rewrite <- Rsum_scal_l. apply Rsum_ext. intros b Hb.
    unfold al, be, d. ring. }
  rewrite Rsum_swap.
  transitivity (Rsum k (fun a => al a * be a)).
  { apply Rsum_ext. intros a Ha. rewrite Rsum_swap.
    rewrite (Rsum_ext k _ (fun b => (al a * be b) * delta a b)).
    - now rewrite Rsum_delta_r'.
    - intros b Hb. rewrite Rsum_scal_l. now rewrite HVtV. }
  rewrite <- (HUUt i j Hi Hj). apply Rsum_ext. intros a Ha. unfold al, be, d.
  transitivity (mget ROps U i a * (vget ROps sg a * svd_inv_diag ROps thr sg a) * mget ROps U j a); [ring|].
  rewrite svd_inv_diag_inverts by auto. ring.
Qed.

Section Svd.
Variable inverse_of : nat -> list (list R) -> list (list R).
Variable svd_of : nat -> list (list R) -> (list (list R) * list R) * list (list R).

Definition svd_thr (s : ls_state (T:=R)) : R :=
  nepsilon ROps * vget ROps (snd (fst (svd_of (ls_k s) (ls_JtJ ROps s)))) 0.

(* all singular values above the relative threshold epsilon * sigma_0 (true whenever cond(J^T J) < 1/epsilon) *)
Definition svd_all_above (s : ls_state (T:=R)) : Prop :=
  forall a, (a < ls_k s)%nat -> svd_thr s < vget ROps (snd (fst (svd_of (ls_k s) (ls_JtJ ROps s)))) a.

Lemma eps_pos : 0 < nepsilon ROps.
Proof. unfold nepsilon, ROps. apply powerRZ_lt. lra. Qed.

Lemma svd_pinv_is_inverse s :
  svd_contract (ls_k s) (ls_JtJ ROps s) (svd_of (ls_k s) (ls_JtJ ROps s)) -> svd_all_above s ->
  inv_contract (ls_k s) (ls_JtJ ROps s) (svd_pinv ROps (ls_k s) (svd_thr s) (svd_of (ls_k s) (ls_JtJ ROps s))).
Proof.
  intros Hc Hab. unfold svd_all_above, svd_thr in *.
  destruct (svd_of (ls_k s) (ls_JtJ ROps s)) as [[U sg] V] eqn:E. cbn [fst snd] in *.
  destruct (Nat.eq_dec (ls_k s) 0) as [Hk0|Hk0].
  { intros i j Hi. lia. }
  apply svd_pinv_contract; [exact Hc| |exact Hab].
  destruct Hc as (_ & _ & _ & _ & _ & Hnn & _).
  pose proof eps_pos. assert (0 <= vget ROps sg 0) by (apply Hnn; lia). nra.
Qed.

Theorem ls_svd_correct s st x :
  svd_contract (ls_k s) (ls_JtJ ROps s) (svd_of (ls_k s) (ls_JtJ ROps s)) -> svd_all_above s ->
  ls_estimate_svd ROps svd_of s = Some (st, x) ->
  let n := ls_n s in let k := ls_k s in
  let z := ls_z s (svd_pinv ROps k (svd_thr s) (svd_of k (ls_JtJ ROps s))) in
  (forall i, (i < k)%nat -> vget ROps x i = Rsum k (fun l => Af s i l * z l) + bf s i) /\
  (forall i, (i < k)%nat -> grad n k (Jf s) (Yf s) z i = 0) /\
  (forall y, cost n k (Jf s) (Yf s) z <= cost n k (Jf s) (Yf s) y) /\
  (forall y, cost n k (Jf s) (Yf s) y = cost n k (Jf s) (Yf s) z -> forall i, (i < k)%nat -> y i = z i).
Proof.
  intros Hc Hab He. apply (estimate_with_inv ROps (pinv_of ROps svd_of true)) in He. destruct He as (_ & _ & ->).
  destruct (ls_apply_correct s _ (svd_pinv_is_inverse s Hc Hab)) as (H1 & H2 & _ & H4 & H5). auto.
Qed.

(* Cholesky path = SVD path when both oracles meet their contracts *)
Theorem ls_chol_eq_svd s st1 x1 st2 x2 :
  inv_contract (ls_k s) (ls_JtJ ROps s) (inverse_of (ls_k s) (ls_JtJ ROps s)) ->
  svd_contract (ls_k s) (ls_JtJ ROps s) (svd_of (ls_k s) (ls_JtJ ROps s)) -> svd_all_above s ->
  ls_estimate_chol ROps inverse_of s = Some (st1, x1) ->
  ls_estimate_svd ROps svd_of s = Some (st2, x2) ->
  forall i, (i < ls_k s)%nat -> vget ROps x1 i = vget ROps x2 i.
Proof.
  intros Hc Hs Hab. exact (estimate_with_unique inverse_of (pinv_of ROps svd_of true) s st1 x1 st2 x2 Hc (svd_pinv_is_inverse s Hs Hab)).
Qed.

End Svd.

(* the original SVD path (absolute test sigma > epsilon) does not solve a tiny-scale problem *)
Lemma eps_lt1 : nepsilon ROps < 1.
Proof.
  unfold nepsilon, ROps. cbn [powerRZ].
  assert (H : 1 < 2 ^ Pos.to_nat 52) by (apply Rlt_pow_R1; [lra|apply Pos2Nat.is_pos]).
  rewrite <- Rinv_1. apply Rinv_lt_contravar; lra.
Qed.

Definition wit_a : R := nepsilon ROps.
(* estimate size 1, data size 1, J = [eps], Y = [eps]: full rank, condition number 1, exact solution x = 1 *)
Definition wit_state : ls_state (T:=R) := mk_ls 1 1 [[1]] [0] 1 [[wit_a]] [wit_a] [1] [[0]].
(* an SVD of a 1x1 non-negative matrix: U = V = [1], sigma = the entry *)
Definition wit_svd (k : nat) (M : list (list R)) : (list (list R) * list R) * list (list R) :=
  (([[1]], [mget ROps M 0 0]), [[1]]).

Lemma wit_JtJ : ls_JtJ ROps wit_state = [[0 + wit_a * wit_a]].
Proof. reflexivity. Qed.

Lemma wit_svd_contract : svd_contract 1 (ls_JtJ ROps wit_state) (wit_svd 1 (ls_JtJ ROps wit_state)).
Proof.
  rewrite wit_JtJ. unfold wit_svd, svd_contract.
  pose proof eps_pos. unfold wit_a.
  repeat split; intros;
    repeat match goal with
           | i : nat |- _ => destruct i as [|i]; [|try lia]
           end; try lia; cbn; unfold delta; cbn; try lra; try nra.
Qed.

Lemma wit_refuted :
  exists st x, ls_estimate_svd_abs ROps wit_svd wit_state = Some (st, x) /\
               vget ROps x 0 = (wit_a * wit_a) * (wit_a * wit_a) /\
               grad 1 1 (Jf wit_state) (Yf wit_state) (vget ROps x) 0 <> 0.
Proof.
  pose proof eps_pos as Hp. pose proof eps_lt1 as Hl. fold wit_a in Hp, Hl.
  assert (Hnot : Rltb wit_a (0 + wit_a * wit_a) = false).
  { apply Rltb_false. nra. }
  set (x := ls_apply ROps wit_state (svd_pinv ROps 1 (nepsilon ROps) (wit_svd 1 (ls_JtJ ROps wit_state)))).
  exists (ls_with_inv wit_state (svd_pinv ROps 1 (nepsilon ROps) (wit_svd 1 (ls_JtJ ROps wit_state)))), x.
  split; [reflexivity|].
  assert (Hx : vget ROps x 0 = (wit_a * wit_a) * (wit_a * wit_a)).
  { subst x. cbn. unfold svd_inv_diag, vget. cbn. change (/ 2 ^ Pos.to_nat 52) with wit_a. rewrite Hnot. lra. }
  clearbody x.
  split; [exact Hx|].
  unfold grad, Jx. cbn [sumn]. rewrite Hx. rsimpl. unfold Jf, Yf, mget, vget. cbn. change (/ 2 ^ Pos.to_nat 52) with wit_a.
  assert (H1 : wit_a * wit_a < 1) by nra. assert (H0 : 0 < wit_a * wit_a) by nra.
  assert (H2 : wit_a * wit_a * (wit_a * wit_a) < 1) by nra.
  assert (H3 : wit_a * (0 + wit_a * (wit_a * wit_a * (wit_a * wit_a)) - wit_a) = (wit_a * wit_a) * (wit_a * wit_a * (wit_a * wit_a) - 1)) by ring.
  intros H. rewrite Rplus_0_l in H. rewrite H3 in H. nra.
Qed.
