(* ZeroDispProofs.v — C06, the clause "with zero displacement it returns the identity".
   The estimator first: when every correspondence pairs a target point with an identical source point, every right-hand
   side Y_r = n_r . (t_r - s_r) of the point-to-plane problem is 0, J^T Y = 0, and every estimator path of the
   LeastSquares model returns Ac * inv * 0 + Bc = Bc — for ANY matrix [inv] the LDLT / SVD oracle hands back (no oracle
   contract is needed for that; under the right-inverse contract 0 is moreover the only solution of the normal equations).
   The estimator configures Bc = 0 (setPreconditionner(Ac)), so the parameter vector is 0 and the scattered matrix is
   exactly the identity (2D and 3D; Cartesian and homogeneous points are the values d / d+1 of [ps]).
   Then the ICP loop (from mat_absdiff_same on): if the transformation of every successful iteration is the identity,
   the loop breaks at the first iteration whose step-difference test is evaluated (the first one RANSAC succeeds in)
   and returns the identity. *)
From Coq Require Import Reals ZArith List Arith Lia Lra Bool Psatz.
From Romea Require Import Num NumR LinAlgBModel LinAlgBProofs LsModel LsProofs LsHistoryProofs P2pModel P2pProofs
                          RansacModel IcpModel RigidProofs IcpProofs.
Import ListNotations.
Local Open Scope R_scope.

Local Notation vg := (vget ROps).
Local Notation triple := ((list R * list R) * list R)%type.

(* every pair (source, target) of the list is a pair of identical points *)
Definition zero_disp (triples : list triple) : Prop :=
  Forall (fun tr : triple => snd (fst tr) = fst (fst tr)) triples.

Lemma p2p_y_same ps (s n : list R) : p2p_y ROps ps s s n = 0.
Proof. unfold p2p_y. apply Rsum_zero. intros c _. rsimpl. ring. Qed.

Lemma Yp_zero ps triples r : zero_disp triples -> Yp ps triples r = 0.
Proof.
  intros Hz. unfold Yp, tr_ys.
  destruct (Nat.lt_ge_cases r (length triples)) as [Hr|Hr].
  - rewrite (nth_map_lt _ _ _ ((@nil R, @nil R), @nil R)) by exact Hr.
    unfold zero_disp in Hz. rewrite Forall_forall in Hz. rewrite (Hz _ (nth_In _ _ Hr)). apply p2p_y_same.
  - apply nth_overflow. now rewrite map_length.
Qed.

Lemma nv_zero_rhs (s : ls_state (T:=R)) m :
  (forall r, (r < ls_n s)%nat -> Yf s r = 0) -> nv (ls_n s) (Jf s) (Yf s) m = 0.
Proof. intros HY. unfold nv. apply Rsum_zero. intros r Hr. rewrite HY by exact Hr. ring. Qed.

(* Ac * inv * J^T Y + Bc with a vanishing right-hand side: Bc, whatever [inv] is *)
Lemma ls_apply_zero_rhs (s : ls_state (T:=R)) inv i :
  (forall r, (r < ls_n s)%nat -> Yf s r = 0) -> (i < ls_k s)%nat ->
  vg (ls_apply ROps s inv) i = bf s i.
Proof.
  intros HY Hi. rewrite ls_apply_get by exact Hi. rewrite (Rsum_zero (ls_k s)); [ring|].
  intros l _. rewrite (Rsum_zero (ls_k s)); [ring|]. intros m _. rewrite nv_zero_rhs by exact HY. ring.
Qed.

(* the un-preconditioned solution inv * J^T Y is 0 as well *)
Lemma ls_z_zero_rhs (s : ls_state (T:=R)) inv i :
  (forall r, (r < ls_n s)%nat -> Yf s r = 0) -> ls_z s inv i = 0.
Proof.
  intros HY. unfold ls_z, x0. apply Rsum_zero. intros l _. rewrite nv_zero_rhs by exact HY. ring.
Qed.

(* under the right-inverse contract (LDLT path; SVD path through svd_pinv_is_inverse) the normal equations
   J^T J z = J^T Y = 0 have no other solution than 0 *)
Lemma normal_equations_zero_rhs_unique (s : ls_state (T:=R)) inv (z : nat -> R) :
  inv_contract (ls_k s) (ls_JtJ ROps s) inv ->
  (forall r, (r < ls_n s)%nat -> Yf s r = 0) ->
  (forall i, (i < ls_k s)%nat -> grad (ls_n s) (ls_k s) (Jf s) (Yf s) z i = 0) ->
  forall i, (i < ls_k s)%nat -> z i = 0.
Proof.
  intros Hc HY Hg i Hi.
  pose proof (inv_contract_nM s _ Hc) as Hinv.
  rewrite (normal_solution_unique (ls_n s) (ls_k s) (Jf s) (Yf s) (mget ROps inv) Hinv z); [|intros a Ha|exact Hi].
  - exact (ls_z_zero_rhs s inv i HY).
  - specialize (Hg a Ha). rewrite grad_normal in Hg. lra.
Qed.

(* the scatter of the zero parameter vector is the identity matrix *)
Lemma p2p_scatter_zero d (x : list R) : (d = 2 \/ d = 3)%nat ->
  (forall i, (i < p2p_k d)%nat -> vg x i = 0) -> p2p_scatter ROps d x = midentity ROps (S d).
Proof.
  intros [->| ->] Hx; unfold p2p_scatter, midentity; apply mtab_ext; intros i j Hi Hj; cbn [p2p_k] in Hx.
  - assert (E0 := Hx 0%nat ltac:(lia)). assert (E1 := Hx 1%nat ltac:(lia)). assert (E2 := Hx 2%nat ltac:(lia)).
    destruct i as [|[|[|i]]]; [| | |lia]; (destruct j as [|[|[|j]]]; [| | |lia]);
      rewrite ?E0, ?E1, ?E2; rsimpl; unfold fid; cbn [Nat.eqb]; rsimpl; lra.
  - assert (E0 := Hx 0%nat ltac:(lia)). assert (E1 := Hx 1%nat ltac:(lia)). assert (E2 := Hx 2%nat ltac:(lia)).
    assert (E3 := Hx 3%nat ltac:(lia)). assert (E4 := Hx 4%nat ltac:(lia)). assert (E5 := Hx 5%nat ltac:(lia)).
    destruct i as [|[|[|[|i]]]]; [| | | |lia]; (destruct j as [|[|[|[|j]]]]; [| | | |lia]);
      rewrite ?E0, ?E1, ?E2, ?E3, ?E4, ?E5; rsimpl; unfold fid; cbn [Nat.eqb]; rsimpl; lra.
Qed.

(* the estimator object as the code configures it: LeastSquares of estimate size 3 | 6, ready for such problems, offset
   Bc = 0 (the constructor and setPreconditionner(Ac) both leave Bc = 0; Ac is arbitrary) *)
Definition p2p_configured (d : nat) (st : ls_state (T:=R)) : Prop :=
  ready (p2p_k d) st /\ forall i, (i < p2p_k d)%nat -> vg (ls_b st) i = 0.

Lemma vg_vzero k i : vg (vzero ROps k) i = 0.
Proof.
  unfold vzero. destruct (Nat.lt_ge_cases i k) as [H|H]; [now rewrite vget_tab|].
  unfold vget. apply nth_overflow. now rewrite length_tab.
Qed.

Lemma p2p_configured_new d : (d = 2 \/ d = 3)%nat -> p2p_configured d (p2p_new ROps d).
Proof.
  intros Hd. split.
  - destruct Hd as [->| ->]; (split; [repeat split; cbn; auto|]); cbn; auto.
  - intros i _. unfold p2p_new. cbn [ls_set_estimate_size ls_b]. apply vg_vzero.
Qed.

Lemma p2p_configured_set_preconditioner d scale st :
  p2p_configured d st -> p2p_configured d (p2p_set_preconditioner ROps d scale st).
Proof.
  intros [(Hwf & Hk & Hj) Hb]. split.
  - unfold p2p_set_preconditioner, ls_set_precond_A, ls_set_precond. split; [|split]; cbn [ls_k ls_jcols ls_Y]; auto.
  - intros i _. unfold p2p_set_preconditioner, ls_set_precond_A, ls_set_precond. cbn [ls_b]. apply vg_vzero.
Qed.

Section Estimator.
Variable inverse_of : nat -> list (list R) -> list (list R).
Variable svd_of : nat -> list (list R) -> (list (list R) * list R) * list (list R).
Variable fill : R.

Local Notation load := (p2p_load ROps inverse_of svd_of fill).
Local Notation estim := (p2p_estimate ROps inverse_of svd_of fill).

(* loading from a configured state always succeeds *)
Lemma p2p_load_some svd_fixed d ps triples st :
  (d = 2 \/ d = 3)%nat -> ready (p2p_k d) st -> (1 <= length triples)%nat ->
  exists st1, load svd_fixed d ps triples st = Some st1.
Proof.
  intros Hd Hr Hn. unfold p2p_load.
  set (ws := ls_W (fst (ls_set_data_size ROps fill (length triples) st))).
  fold (tr_rows d triples). fold (tr_ys ps triples).
  destruct (run_load ROps inverse_of svd_of fill svd_fixed (p2p_k d) (length triples) (tr_rows d triples) (tr_ys ps triples) ws st Hr Hn)
    as (s' & outs & Hrun & _).
  { intros i Hi. now apply tr_rows_length. }
  rewrite Hrun. eauto.
Qed.

Lemma loaded_rhs_zero svd_fixed d ps triples st st1 :
  (d = 2 \/ d = 3)%nat -> ready (p2p_k d) st -> (1 <= length triples)%nat -> zero_disp triples ->
  load svd_fixed d ps triples st = Some st1 ->
  ls_est_ok st1 = true /\ ls_k st1 = p2p_k d /\ ls_b st1 = ls_b st /\ ls_wf st1 /\
  (forall r, (r < ls_n st1)%nat -> Yf st1 r = 0).
Proof.
  intros Hd Hr Hn Hz Hl.
  destruct (p2p_load_spec inverse_of svd_of fill svd_fixed d ps triples st st1 Hd Hr Hn Hl)
    as (Hwf & En & Ek & _ & Eb & Eok & _ & HY).
  repeat (split; [assumption|]). intros r Hlt. rewrite En in Hlt. rewrite HY by exact Hlt. now apply Yp_zero.
Qed.

(* the three estimator paths of the solver differ only in the matrix they apply *)
Lemma ls_estimate_paths (st1 : ls_state (T:=R)) : ls_est_ok st1 = true ->
  exists i1 i2 i3,
    ls_estimate_chol ROps inverse_of st1 = Some (ls_with_inv st1 i1, ls_apply ROps st1 i1) /\
    ls_estimate_svd ROps svd_of st1 = Some (ls_with_inv st1 i2, ls_apply ROps st1 i2) /\
    ls_estimate_svd_abs ROps svd_of st1 = Some (ls_with_inv st1 i3, ls_apply ROps st1 i3).
Proof.
  intros H. unfold ls_estimate_chol, ls_estimate_svd, ls_estimate_svd_abs. rewrite H. do 3 eexists. repeat split; reflexivity.
Qed.

(* on the loaded zero-displacement problem every matrix gives Bc (= 0 when configured) *)
Lemma loaded_apply_zero svd_fixed d ps triples st st1 :
  (d = 2 \/ d = 3)%nat -> p2p_configured d st -> (1 <= length triples)%nat -> zero_disp triples ->
  load svd_fixed d ps triples st = Some st1 ->
  forall inv i, (i < p2p_k d)%nat -> vg (ls_apply ROps st1 inv) i = 0.
Proof.
  intros Hd [Hr Hb] Hn Hz Hl inv i Hi.
  destruct (loaded_rhs_zero svd_fixed d ps triples st st1 Hd Hr Hn Hz Hl) as (_ & Ek & Eb & _ & HY).
  rewrite ls_apply_zero_rhs; [|exact HY|now rewrite Ek]. unfold bf. rewrite Eb. now apply Hb.
Qed.

(* estimate_ : the code's path (estimateUsingSVD, repaired or original threshold) returns the identity, and it does return *)
Theorem zero_disp_estimate_identity svd_fixed d ps triples st :
  (d = 2 \/ d = 3)%nat -> p2p_configured d st -> (1 <= length triples)%nat -> zero_disp triples ->
  exists st2, estim svd_fixed d ps triples st = Some (st2, midentity ROps (S d)) /\ p2p_configured d st2.
Proof.
  intros Hd Hc Hn Hz. destruct (p2p_load_some svd_fixed d ps triples st Hd (proj1 Hc) Hn) as [st1 Hl].
  pose proof (loaded_apply_zero svd_fixed d ps triples st st1 Hd Hc Hn Hz Hl) as Hx. destruct Hc as [Hr Hb].
  destruct (loaded_rhs_zero svd_fixed d ps triples st st1 Hd Hr Hn Hz Hl) as (Hok & Ek & Eb & Hwf & HY).
  destruct (ls_estimate_paths st1 Hok) as (_ & i2 & i3 & _ & E2 & E3).
  assert (Hcfg : forall inv, p2p_configured d (ls_with_inv st1 inv)).
  { intros inv. split.
    - split; [apply wf_with_inv; exact Hwf|]. cbn [ls_with_inv ls_k ls_jcols ls_Y]. split; [exact Ek|].
      left. unfold ls_est_ok in Hok. apply andb_true_iff in Hok. destruct Hok as [Hok _]. apply Nat.eqb_eq in Hok. congruence.
    - intros i Hi. cbn [ls_with_inv ls_b]. rewrite Eb. now apply Hb. }
  unfold p2p_estimate. rewrite Hl. destruct svd_fixed; [rewrite E2 | rewrite E3]; eexists;
    (rewrite p2p_scatter_zero by (exact Hd || apply Hx)); (split; [reflexivity | apply Hcfg]).
Qed.

(* find(source, target, normals, correspondences): any subset / order / multiplicity of correspondences whose target
   point equals its source point; normals are arbitrary *)
Definition corr_zero_disp (src tgt : list (list R)) (corr : list (nat * nat)) : Prop :=
  Forall (fun c : nat * nat => nth (snd c) tgt [] = nth (fst c) src []) corr.

Lemma triples_of_corr_zero src tgt nrm corr tr :
  corr_zero_disp src tgt corr -> triples_of_corr src tgt nrm corr = Some tr ->
  zero_disp tr /\ length tr = length corr.
Proof.
  intros Hz. unfold triples_of_corr. destruct (forallb _ corr); [|discriminate]. intros H. inversion H; subst tr. clear H. split.
  - unfold zero_disp. rewrite Forall_map. eapply Forall_impl; [|exact Hz]. intros c Hc. cbn [fst snd]. exact Hc.
  - apply map_length.
Qed.

Theorem zero_disp_find_corr_identity svd_fixed d ps src tgt nrm corr st tr :
  (d = 2 \/ d = 3)%nat -> p2p_configured d st -> (1 <= length corr)%nat -> corr_zero_disp src tgt corr ->
  triples_of_corr src tgt nrm corr = Some tr ->      (* every index inside its set: defined behaviour *)
  exists st2, p2p_find_corr ROps inverse_of svd_of fill svd_fixed d ps src tgt nrm corr st = Some (st2, midentity ROps (S d)) /\
              p2p_configured d st2.
Proof.
  intros Hd Hc Hn Hz Ht. unfold p2p_find_corr. rewrite Ht.
  destruct (triples_of_corr_zero src tgt nrm corr tr Hz Ht) as [Hz' Hl].
  apply zero_disp_estimate_identity; try assumption. lia.
Qed.

(* find(source, target, normals) with target = source *)
Theorem zero_disp_find_aligned_identity svd_fixed d ps pts nrm st :
  (d = 2 \/ d = 3)%nat -> p2p_configured d st -> (1 <= length pts)%nat -> (length pts <= length nrm)%nat ->
  exists st2, p2p_find_aligned ROps inverse_of svd_of fill svd_fixed d ps pts pts nrm st = Some (st2, midentity ROps (S d)) /\
              p2p_configured d st2.
Proof.
  intros Hd Hc Hn Hm. unfold p2p_find_aligned, triples_aligned.
  rewrite Nat.eqb_refl. cbn [andb]. replace (Nat.leb (length pts) (length nrm)) with true by (symmetry; apply Nat.leb_le; exact Hm).
  apply zero_disp_estimate_identity; try assumption.
  - rewrite combine_length, combine_length, firstn_length. lia.
  - unfold zero_disp. apply Forall_forall. intros [[s t] n] Hin. cbn [fst snd].
    apply in_combine_l in Hin. now apply in_combine_same in Hin.
Qed.

End Estimator.

(* the preconditioned overloads hand PreconditionedPointSet::get() (every coordinate times the scale) of both sets to
   the same code: identical points stay identical *)
Lemma corr_zero_disp_precondition c src tgt corr :
  Forall (fun p : nat * nat => (fst p < length src)%nat /\ (snd p < length tgt)%nat) corr ->
  corr_zero_disp src tgt corr -> corr_zero_disp (p2p_precondition ROps c src) (p2p_precondition ROps c tgt) corr.
Proof.
  intros Hb Hz. unfold corr_zero_disp in *. rewrite Forall_forall in *. intros p Hp.
  destruct (Hb p Hp) as [H1 H2]. specialize (Hz p Hp). unfold p2p_precondition.
  rewrite !(nth_map_lt _ _ _ []) by assumption. now rewrite Hz.
Qed.

(* the row-major entries of the identity matrix are the ICP model's [identity_entries] *)
Lemma concat_midentity n : concat (midentity ROps n) = identity_entries ROps n.
Proof.
  unfold identity_entries, midentity, mtab, tab, fid. rewrite flat_map_concat_map. reflexivity.
Qed.

Lemma mat_absdiff_same (m : list R) : mat_absdiff ROps m m = 0.
Proof.
  apply (sum_combine_same (fun p => nabs ROps (nsub ROps (fst p) (snd p)))).
  intros a. rsimpl. cbn [fst snd]. rewrite Rminus_diag_eq by reflexivity. apply Rabs_R0.
Qed.

(* when every successful transformation is the identity, so is the previous one, and the break test of an iteration
   is met exactly when RANSAC succeeds in it *)
Definition successes_are (id : list R) (l : list (icp_outcome R)) : Prop := forall o, In o l -> io_ok o = true -> io_M o = id.

Lemma last_ok_identity id l : successes_are id l -> last_ok id l = id.
Proof.
  induction l as [|o l IH] using rev_ind; intros Hid; [reflexivity|]. rewrite last_ok_snoc.
  destruct (io_ok o) eqn:Hok; [apply Hid; [apply in_or_app; right; left; reflexivity | exact Hok]|].
  apply IH. intros o' Ho'. apply Hid, in_or_app. left. exact Ho'.
Qed.

Lemma breaks_identity eps id pre o post :
  0 < eps -> successes_are id (pre ++ o :: post) -> breaks eps id pre o <-> io_ok o = true.
Proof.
  intros He Hid. unfold breaks. rewrite last_ok_identity by (intros o' Ho'; apply Hid, in_or_app; left; exact Ho').
  split; [intros [H _]; exact H | intros H; split; [exact H|]].
  rewrite (Hid o); [| apply in_or_app; right; left; reflexivity | exact H]. now rewrite mat_absdiff_same.
Qed.

Lemma no_break_identity eps id l post :
  0 < eps -> successes_are id (l ++ post) -> no_break eps id [] l -> Forall (fun o => io_ok o = false) l.
Proof.
  intros He Hid Hnb. apply Forall_forall. intros o Hin. destruct (in_split _ _ Hin) as (l1 & l2 & ->).
  specialize (Hnb l1 o l2 eq_refl). rewrite <- app_assoc in Hid. cbn [app] in Hnb, Hid.
  rewrite (breaks_identity eps id l1 o _ He Hid) in Hnb. now destruct (io_ok o).
Qed.

Theorem zero_disp_icp_identity eps maxit id os r :
  0 < eps -> (0 <= maxit)%Z ->
  (forall o, In o os -> io_ok o = true -> io_M o = id) ->
  icp_run ROps eps maxit id os = Some r ->
  (* success iff RANSAC succeeds in one of the iterations the loop may run *)
  (ir_found r = true <-> exists o, In o (firstn (Z.to_nat maxit) os) /\ io_ok o = true) /\
  (* then: the loop stops AT the first such iteration (no earlier one evaluated the step-difference test), the
     transformation getTransformation() hands out is that iteration's, and it is the identity *)
  (ir_found r = true ->
     exists pre o post, os = pre ++ o :: post /\ ir_n r = Z.of_nat (length pre) /\ (ir_n r < maxit)%Z /\
       Forall (fun o' => io_ok o' = false) pre /\ io_ok o = true /\
       icp_returned_iteration r = Some (ir_n r) /\ nth_error os (Z.to_nat (ir_n r)) = Some o /\ io_M o = id) /\
  (* in particular when RANSAC succeeds in the very first iteration: success at iteration 0 *)
  (forall o rest, os = o :: rest -> io_ok o = true -> (1 <= maxit)%Z -> ir_found r = true /\ ir_n r = 0%Z).
Proof.
  intros He Hm Hid H. destruct (icp_run_ran eps maxit id os r H) as (ran & rest & -> & _ & Hcase).
  unfold icp_returned_iteration. destruct (ir_found r).
  - destruct Hcase as (pre & o & -> & Hl & Hn & Hbr & Hnb). rewrite <- app_assoc in *. cbn [app] in *.
    pose proof (proj1 (breaks_identity eps id pre o rest He Hid) Hbr) as Hok.
    pose proof (no_break_identity eps id pre (o :: rest) He Hid Hnb) as Hpre.
    split; [split; [intros _|reflexivity] | split; [intros _|]].
    + exists o. split; [|exact Hok]. rewrite firstn_app. apply in_or_app. right.
      replace (Z.to_nat maxit - length pre)%nat with (S (Z.to_nat maxit - length pre - 1)) by lia. left. reflexivity.
    + exists pre, o, rest. repeat split; try assumption; try lia.
      * replace (Z.to_nat (ir_n r)) with (length pre) by lia. now rewrite nth_error_app2, Nat.sub_diag by lia.
      * apply Hid; [apply in_or_app; right; left; reflexivity | exact Hok].
    + intros o1 rest1 E Hok1 _. split; [reflexivity|]. destruct pre as [|o2 pre]; [exact Hn|exfalso].
      injection E as -> _. inversion Hpre; congruence.
  - destruct Hcase as (Hl & Hn & Hnb). pose proof (no_break_identity eps id ran rest He Hid Hnb) as Hran.
    assert (Hnone : forall o, In o (firstn (Z.to_nat maxit) (ran ++ rest)) -> io_ok o = false).
    { rewrite <- Hl, <- (Nat.add_0_r (length ran)), firstn_app_2, firstn_O, app_nil_r. now apply Forall_forall. }
    split; [split; [discriminate | intros (o & Hin & Hok); rewrite (Hnone o Hin) in Hok; discriminate]|].
    split; [discriminate|]. intros o rest1 E Hok H1. rewrite (Hnone o) in Hok; [discriminate|]. rewrite E.
    replace (Z.to_nat maxit) with (S (Z.to_nat maxit - 1)) by lia. left. reflexivity.
Qed.
