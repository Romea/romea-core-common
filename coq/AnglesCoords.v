(* AnglesCoords.v — planar pair, quaternion paths, polar and spherical maps (C10). *)
From Coq Require Import Reals ZArith Lra.
From Romea Require Import Num NumR AnglesModel AnglesProofs AnglesRoundtrip.
Local Open Scope R_scope.

Definition r2a (m : mat2 R) : R := rotation2DToEulerAngle ROps ROps idR idR m.
Definition a2r (a : R) : mat2 R := eulerAngleToRotation2D ROps a.
Definition proper_rotation2 (m : mat2 R) : Prop :=
  a00 m * a00 m + a10 m * a10 m = 1 /\ a01 m * a01 m + a11 m * a11 m = 1 /\
  a00 m * a01 m + a10 m * a11 m = 0 /\ a00 m * a11 m - a01 m * a10 m = 1.

Lemma a2r_proper a : proper_rotation2 (a2r a).
Proof. unfold proper_rotation2, a2r, eulerAngleToRotation2D. rcbn. pose proof (sc1 a). repeat split; nra. Qed.

Lemma rot2d_angle_roundtrip a : cong2pi (r2a (a2r a)) a /\ 0 <= r2a (a2r a) < 2 * PI.
Proof.
  destruct (principal_rep a) as [t [Ht C]]. destruct (cong2pi_sincos _ _ C) as [S K].
  unfold r2a, a2r, rotation2DToEulerAngle, eulerAngleToRotation2D. rcbn.
  change (between0And2Pi ROps idR idR) with b02.
  replace (sin a - - sin a) with (2 * sin t) by (rewrite S; ring).
  replace (cos a + cos a) with (2 * cos t) by (rewrite K; ring).
  rewrite Ratan2_spec by lra.
  destruct (b02_spec t) as [C2 Rg]. split; [|exact Rg].
  eapply cong2pi_trans; [exact C2|exact C].
Qed.

Lemma rot2d_matrix_roundtrip m : proper_rotation2 m -> a2r (r2a m) = m.
Proof.
  intros [H1 [H2 [H3 H4]]]. destruct m as [a b c d]. cbn [a00 a01 a10 a11] in *.
  assert (Ead : a - d = 0 /\ c + b = 0) by (apply Rplus_sqr_eq_0; unfold Rsqr; nra).
  replace a with d in * by lra. replace c with (- b) in * by lra.
  unfold r2a, a2r, rotation2DToEulerAngle, eulerAngleToRotation2D. rcbn.
  change (between0And2Pi ROps idR idR) with b02.
  assert (Hn : (d + d) * (d + d) + (- b - b) * (- b - b) = 2 * 2) by nra.
  destruct (atan2_polar (d + d) (- b - b) 2 ltac:(lra) Hn) as [_ [Hc Hs]].
  destruct (b02_spec (Ratan2 (- b - b) (d + d))) as [C _]. destruct (cong2pi_sincos _ _ C) as [S K].
  rewrite S, K. f_equal; lra.
Qed.

Definition q2e (q : quat R) : option (vec3 R) := quaternionToEulerAngles ROps ROps idR idR q.

Lemma qnormalized_unit q : qnorm2 ROps q = 1 -> qnormalized ROps q = q.
Proof.
  intros H. unfold qnormalized. rewrite H. rcbn.
  rewrite (proj2 (Rltb_true _ _)) by lra.
  rewrite sqrt_1. destruct q. cbn. f_equal; field.
Qed.

(* scaling a quaternion by s > 0 does not change what quaternionToEulerAngles sees *)
Definition qscale (s : R) (q : quat R) : quat R := mkQ (s * qw q) (s * qx q) (s * qy q) (s * qz q).

Lemma quat_scale_invariant s q : 0 < s -> 0 < qnorm2 ROps q ->
  qnormalized ROps (qscale s q) = qnormalized ROps q /\ qnorm2 ROps (qnormalized ROps q) = 1.
Proof.
  intros Hs Hq. destruct q as [w x y z]. unfold qnormalized, qscale, qnorm2 in *. rcbn in Hq. rcbn.
  set (n := x * x + y * y + z * z + w * w) in *.
  replace (s * x * (s * x) + s * y * (s * y) + s * z * (s * z) + s * w * (s * w)) with (s * s * n) by (unfold n; ring).
  assert (Hsn : 0 < s * s * n) by (apply Rmult_lt_0_compat; nra).
  rewrite (proj2 (Rltb_true _ _) Hsn), (proj2 (Rltb_true _ _) Hq).
  assert (Hsq : sqrt (s * s * n) = s * sqrt n).
  { rewrite sqrt_mult by nra. rewrite sqrt_square by lra. reflexivity. }
  assert (Hn0 : sqrt n <> 0) by (pose proof (sqrt_lt_R0 n Hq); lra).
  rcbn. split.
  - rewrite Hsq. f_equal; field; lra.
  - pose proof (sqrt_sqrt n ltac:(lra)) as Hss.
    replace (x / sqrt n * (x / sqrt n) + y / sqrt n * (y / sqrt n) + z / sqrt n * (z / sqrt n) + w / sqrt n * (w / sqrt n))
      with (n / (sqrt n * sqrt n)) by (unfold n; field; exact Hn0).
    rewrite Hss. field. lra.
Qed.

(* the matrix of a normalised quaternion is a proper rotation: with rotation_roundtrip_lemma this gives
   quaternion -> angles -> rotation = the rotation of q/|q| *)
Lemma quat_to_mat_proper q : qnorm2 ROps q = 1 -> proper_rotation (quat_to_mat ROps q).
Proof.
  destruct q as [w x y z]. unfold qnorm2, proper_rotation, quat_to_mat, mmul3, mtrans3, mid3, det3. rcbn.
  intros H. assert (H' : w * w = 1 - x * x - y * y - z * z) by lra.
  split; [f_equal|]; ring [H'].
Qed.

Lemma polar_roundtrip x y : 0 < x * x + y * y ->
  let '(r, az) := toPolar ROps x y in
  polarToCartesian ROps r az = (x, y) /\ r * r = x * x + y * y /\ 0 < r /\ - PI < az <= PI.
Proof.
  intros H. unfold toPolar, polarToCartesian. rcbn.
  set (r := sqrt (x * x + y * y)).
  assert (Hr : 0 < r) by (apply sqrt_lt_R0; exact H).
  assert (Hrr : x * x + y * y = r * r) by (unfold r; rewrite sqrt_sqrt; lra).
  destruct (atan2_polar x y r Hr Hrr) as [Hrg [Hc Hs]].
  rewrite Hc, Hs. repeat split; lra.
Qed.

Lemma polar_roundtrip_inv r az : 0 < r -> - PI < az <= PI ->
  let '(x, y) := polarToCartesian ROps r az in toPolar ROps x y = (r, az).
Proof.
  intros Hr Ha. unfold toPolar, polarToCartesian. rcbn.
  replace (r * cos az * (r * cos az) + r * sin az * (r * sin az)) with (r * r) by (pose proof (sc1 az); nra).
  rewrite sqrt_square by lra. rewrite Ratan2_spec by assumption. reflexivity.
Qed.

Lemma spherical_roundtrip x y z : 0 < x * x + y * y + z * z ->
  exists r az el, toSpherical ROps x y z = Some (r, az, el) /\
    sphericalToCartesian ROps r az el = mkV3 x y z /\
    r * r = x * x + y * y + z * z /\ 0 < r /\ - PI <= az <= PI /\ 0 <= el <= PI.
Proof.
  intros H. unfold toSpherical, sphericalToCartesian. rcbn.
  set (r := sqrt (x * x + y * y + z * z)).
  assert (Hr : 0 < r) by (apply sqrt_lt_R0; exact H).
  assert (Hrr : r * r = x * x + y * y + z * z) by (unfold r; rewrite sqrt_sqrt; lra).
  rewrite (proj2 (Rltb_true _ _) Hr).
  assert (Hq : -1 <= z / r <= 1) by (apply div_abs_le_1; nra).
  rewrite (proj2 (Rleb_true _ _)) by (apply Rabs_le; lra).
  exists r, (Ratan2 y x), (acos (z / r)). split; [reflexivity|].
  pose proof (acos_bound (z / r)) as Hel. pose proof (Ratan2_range y x) as Haz.
  split; [|repeat split; lra].
  rewrite cos_acos by lra. rewrite sin_acos by lra.
  set (hh := x * x + y * y).
  assert (Hh0 : 0 <= hh) by (unfold hh; nra).
  assert (Hsq : 1 - (z / r)² = hh / (r * r)).
  { unfold Rsqr, hh. replace (x * x + y * y) with (r * r - z * z) by lra. field. lra. }
  rewrite Hsq. rewrite sqrt_div_alt by nra. rewrite sqrt_square by lra.
  destruct (Req_dec hh 0) as [E0|E0].
  - assert (x = 0 /\ y = 0) as [Ex0 Ey0] by (apply Rplus_sqr_eq_0; exact E0).
    subst x y.
    rewrite E0, sqrt_0. f_equal; field; lra.
  - assert (Hh : 0 < sqrt hh) by (apply sqrt_lt_R0; lra).
    assert (Hhh : x * x + y * y = sqrt hh * sqrt hh) by (rewrite sqrt_sqrt by exact Hh0; reflexivity).
    destruct (atan2_polar x y (sqrt hh) Hh Hhh) as [_ [Hc Hs]].
    f_equal.
    + transitivity (sqrt hh * cos (Ratan2 y x)); [field; lra|exact Hc].
    + transitivity (sqrt hh * sin (Ratan2 y x)); [field; lra|exact Hs].
    + field; lra.
Qed.

Lemma spherical_roundtrip_inv r az el : 0 < r -> - PI < az <= PI -> 0 < el < PI ->
  let p := sphericalToCartesian ROps r az el in toSpherical ROps (v0 p) (v1 p) (v2 p) = Some (r, az, el).
Proof.
  intros Hr Ha He. unfold toSpherical, sphericalToCartesian. cbn [v0 v1 v2]. rcbn.
  pose proof (sc1 az) as Saz. pose proof (sc1 el) as Sel.
  replace (r * cos az * sin el * (r * cos az * sin el) + r * sin az * sin el * (r * sin az * sin el) + r * cos el * (r * cos el))
    with (r * r).
  2:{ transitivity (r * r * ((sin az * sin az + cos az * cos az) * (sin el * sin el) + cos el * cos el)); [|ring].
      rewrite Saz. replace (1 * (sin el * sin el) + cos el * cos el) with 1 by lra. ring. }
  rewrite sqrt_square by lra.
  rewrite (proj2 (Rltb_true _ _) Hr).
  replace (r * cos el / r) with (cos el) by (field; lra).
  rewrite (proj2 (Rleb_true _ _)) by (apply Rabs_le; pose proof (COS_bound el); lra).
  rewrite acos_cos by lra.
  assert (Hs : 0 < sin el) by (apply sin_gt_0; lra).
  replace (r * sin az * sin el) with ((r * sin el) * sin az) by ring.
  replace (r * cos az * sin el) with ((r * sin el) * cos az) by ring.
  rewrite Ratan2_spec; [reflexivity| nra | exact Ha].
Qed.
