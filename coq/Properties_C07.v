(* Properties_C07.v — C07: the linear least-squares solver returns the minimiser of the current problem only.
   The statements, each a short corollary of the lemmas of the Ls* / SrcTieC07 files and followed by Print Assumptions.
   Model: LsModel.v (state machine of LeastSquares<T>); Eigen's LDLT solve and JacobiSVD are the function arguments
   [inverse_of] / [svd_of]; their contracts ([inv_contract], [svd_contract], LsProofs.v) are explicit premises.
   Notation: Jf s / Yf s / Wf s / Af s / bf s are the J_, Y_, W_, Ac_, Bc_ of state s viewed as functions; for a vector z
   [cost n k J Y z] = sum_{r<n} ((J z)_r - Y_r)^2 and [grad n k J Y z i] = (J^T (J z - Y))_i over the first n rows. *)
From Coq Require Import Reals List Arith Lia Lra Bool.
From Romea Require Import Num NumR LinAlgBModel LinAlgBProofs LsModel LsProofs LsHistoryProofs LsWeighted LsEndToEnd SrcEigenDyn SrcEigenDynFacts SrcTieLs SrcTieC07.
From Romea.gen Require Import SrcLs.
Import ListNotations.
Local Open Scope R_scope.

(* Cholesky path: x = Ac z + Bc where z satisfies the normal equations J^T(J z - Y) = 0 of the first dataSize rows,
   Pythagoras |Jy-Y|^2 = |Jz-Y|^2 + |J(y-z)|^2 for every y, hence z is a global minimiser and the only one. *)
Theorem C07_ls_cholesky_normal_equations_minimiser_unique :
  forall (inverse_of : nat -> list (list R) -> list (list R)) (s st : ls_state (T:=R)) (x : list R),
  inv_contract (ls_k s) (ls_JtJ ROps s) (inverse_of (ls_k s) (ls_JtJ ROps s)) ->
  ls_estimate_chol ROps inverse_of s = Some (st, x) ->
  let n := ls_n s in let k := ls_k s in
  let z := ls_z s (inverse_of k (ls_JtJ ROps s)) in
  (forall i, (i < k)%nat -> vget ROps x i = Rsum k (fun l => Af s i l * z l) + bf s i) /\
  (forall i, (i < k)%nat -> grad n k (Jf s) (Yf s) z i = 0) /\
  (forall y, cost n k (Jf s) (Yf s) y =
             cost n k (Jf s) (Yf s) z + Rsum n (fun r => Jx k (Jf s) (fun c => y c - z c) r * Jx k (Jf s) (fun c => y c - z c) r)) /\
  (forall y, cost n k (Jf s) (Yf s) z <= cost n k (Jf s) (Yf s) y) /\
  (forall y, cost n k (Jf s) (Yf s) y = cost n k (Jf s) (Yf s) z -> forall i, (i < k)%nat -> y i = z i).
Proof.
  intros inverse_of s st x Hc He. apply (estimate_with_inv ROps inverse_of) in He. destruct He as (_ & _ & ->).
  exact (ls_apply_correct s _ Hc).
Qed.
Print Assumptions C07_ls_cholesky_normal_equations_minimiser_unique.

(* SVD path of the repaired code (threshold epsilon * sigma_0): same conclusions under the SVD contract whenever every
   singular value is above the threshold, i.e. cond(J^T J) < 1/epsilon — which the property's envelope guarantees in double. *)
Theorem C07_ls_svd_normal_equations_minimiser_unique :
  forall (svd_of : nat -> list (list R) -> (list (list R) * list R) * list (list R)) (s st : ls_state (T:=R)) (x : list R),
  svd_contract (ls_k s) (ls_JtJ ROps s) (svd_of (ls_k s) (ls_JtJ ROps s)) -> svd_all_above svd_of s ->
  ls_estimate_svd ROps svd_of s = Some (st, x) ->
  let n := ls_n s in let k := ls_k s in
  let z := ls_z s (svd_pinv ROps k (svd_thr svd_of s) (svd_of k (ls_JtJ ROps s))) in
  (forall i, (i < k)%nat -> vget ROps x i = Rsum k (fun l => Af s i l * z l) + bf s i) /\
  (forall i, (i < k)%nat -> grad n k (Jf s) (Yf s) z i = 0) /\
  (forall y, cost n k (Jf s) (Yf s) z <= cost n k (Jf s) (Yf s) y) /\
  (forall y, cost n k (Jf s) (Yf s) y = cost n k (Jf s) (Yf s) z -> forall i, (i < k)%nat -> y i = z i).
Proof. exact ls_svd_correct. Qed.
Print Assumptions C07_ls_svd_normal_equations_minimiser_unique.

(* the premise [svd_all_above] of the two SVD theorems is one inequality on the extreme singular values: epsilon * sigma_max < sigma_min,
   i.e. cond(J^T J) = cond(J)^2 < 1/epsilon (the singular values are non-increasing by the contract) *)
Theorem C07_ls_svd_all_above_from_condition_number :
  forall svd_of (s : ls_state (T:=R)),
  svd_contract (ls_k s) (ls_JtJ ROps s) (svd_of (ls_k s) (ls_JtJ ROps s)) ->
  (let sg := snd (fst (svd_of (ls_k s) (ls_JtJ ROps s))) in
   nepsilon ROps * vget ROps sg 0 < vget ROps sg (ls_k s - 1)) ->
  svd_all_above svd_of s.
Proof.
  intros svd_of s Hc Hlt a Ha. unfold svd_thr. cbv zeta in Hlt.
  destruct (svd_of (ls_k s) (ls_JtJ ROps s)) as [[U sg] V]. cbn [fst snd] in *.
  destruct Hc as (_ & _ & _ & _ & _ & _ & Hmono).
  assert (vget ROps sg (ls_k s - 1) <= vget ROps sg a) by (apply Hmono; lia). lra.
Qed.
Print Assumptions C07_ls_svd_all_above_from_condition_number.

(* the Cholesky and SVD paths agree *)
Theorem C07_ls_chol_eq_svd :
  forall inverse_of svd_of (s st1 : ls_state (T:=R)) (x1 : list R) (st2 : ls_state (T:=R)) (x2 : list R),
  inv_contract (ls_k s) (ls_JtJ ROps s) (inverse_of (ls_k s) (ls_JtJ ROps s)) ->
  svd_contract (ls_k s) (ls_JtJ ROps s) (svd_of (ls_k s) (ls_JtJ ROps s)) -> svd_all_above svd_of s ->
  ls_estimate_chol ROps inverse_of s = Some (st1, x1) ->
  ls_estimate_svd ROps svd_of s = Some (st2, x2) ->
  forall i, (i < ls_k s)%nat -> vget ROps x1 i = vget ROps x2 i.
Proof. exact ls_chol_eq_svd. Qed.
Print Assumptions C07_ls_chol_eq_svd.

(* the shape invariant holds after EVERY op sequence (any numeric type) *)
Theorem C07_ls_invariant_every_history :
  forall (T : Type) (N : NumOps T) inverse_of svd_of (fill : T) (svd_fixed : bool) ops s s' outs,
  ls_wf s -> ls_run N inverse_of svd_of fill svd_fixed ops s = Some (s', outs) -> ls_wf s'.
Proof. exact (fun T N inv svd fill fx => run_wf N inv svd fill fx). Qed.
Print Assumptions C07_ls_invariant_every_history.

(* history independence: after ANY op sequence [hist] on one solver object (estimate size unchanged), loading a problem
   (setDataSize n, rows 0..n-1 of J/Y/W, preconditioner A b) and estimating by any of the three paths gives exactly what a
   fresh solver gives.  Holds for every numeric dictionary, so also bit for bit for the float instances of the model. *)
Theorem C07_ls_history_independent :
  forall (T : Type) (N : NumOps T) inverse_of svd_of (fill : T) (svd_fixed : bool)
         k hist s outs n rows ys ws A b est,
  forallb keeps_estimate_size hist = true ->
  ls_run N inverse_of svd_of fill svd_fixed hist (ls_new1 N k) = Some (s, outs) ->
  (1 <= n)%nat -> (forall i, (i < n)%nat -> length (nth i rows []) = k) ->
  exists t1 o1 t2 o2,
    ls_run N inverse_of svd_of fill svd_fixed (load_ops N n rows ys ws ++ [OpSetPrecond A b]) s = Some (t1, o1) /\
    ls_run N inverse_of svd_of fill svd_fixed (load_ops N n rows ys ws ++ [OpSetPrecond A b]) (ls_new1 N k) = Some (t2, o2) /\
    est_out N inverse_of svd_of svd_fixed est t1 = est_out N inverse_of svd_of svd_fixed est t2.
Proof. exact (fun T N inv svd fill fx => history_independent N inv svd fill fx). Qed.
Print Assumptions C07_ls_history_independent.

(* the estimates are functions of the problem only (sizes, A, b, first dataSize rows of J/Y/W): leftovers of larger problems
   beyond dataSize cannot matter *)
Theorem C07_ls_estimate_reads_only_current_rows :
  forall (T : Type) (N : NumOps T) inverse_of svd_of (s1 s2 : ls_state (T:=T)),
  ls_wf s1 -> ls_wf s2 -> same_problem N s1 s2 -> ls_est_ok s1 = ls_est_ok s2 ->
  out_of (ls_estimate_chol N inverse_of s1) = out_of (ls_estimate_chol N inverse_of s2) /\
  out_of (ls_estimate_svd N svd_of s1) = out_of (ls_estimate_svd N svd_of s2) /\
  out_of (ls_weighted_estimate N inverse_of s1) = out_of (ls_weighted_estimate N inverse_of s2).
Proof.
  exact (fun T N inv svd s1 s2 W1 W2 SP OK =>
           let same est := same_est_out N inv svd true est s1 s2 W1 W2 SP OK in
           conj (same OpEstimateChol) (conj (same OpEstimateSVD) (same OpWeightedEstimate))).
Qed.
Print Assumptions C07_ls_estimate_reads_only_current_rows.

(* ---- weighted variant (LsWeighted.v).  C++: weightJAndY_() multiplies Y_(r) and row r of J_ by W_(r), r < dataSize_, IN PLACE,
   then estimateUsingCholeskyDecomposition().  Notation: Wf s = W_ as a function;
   [wcost n k J Y w x] = sum_{r<n} (w_r ((J x)_r - Y_r))^2,  [wgrad n k J Y w x a] = (J^T W^2 (J x - Y))_a = sum_r w_r^2 J_ra ((J x)_r - Y_r),
   [wnM n J w i j] = (J^T W^2 J)_ij. ---- *)

(* row-scaling identity of the model's weightJAndY_, for EVERY state: current rows r < dataSize of J_ (all columns) and of Y_
   are multiplied by W_(r); the rows beyond dataSize, W_, the sizes and the preconditioner are untouched *)
Theorem C07_ls_weight_row_scaling :
  forall s : ls_state (T:=R),
  (forall r a, (r < ls_n s)%nat -> Jf (ls_weight ROps s) r a = Jf s r a * Wf s r) /\
  (forall r, (r < ls_n s)%nat -> Yf (ls_weight ROps s) r = Yf s r * Wf s r) /\
  (forall r a, (ls_n s <= r)%nat -> Jf (ls_weight ROps s) r a = Jf s r a) /\
  (forall r, (ls_n s <= r)%nat -> Yf (ls_weight ROps s) r = Yf s r) /\
  (forall r, Wf (ls_weight ROps s) r = Wf s r) /\
  ls_n (ls_weight ROps s) = ls_n s /\ ls_k (ls_weight ROps s) = ls_k s /\
  ls_A (ls_weight ROps s) = ls_A s /\ ls_b (ls_weight ROps s) = ls_b s.
Proof.
  intros s. split; [exact (weight_J_in s)|]. split; [exact (weight_Y_in s)|]. split; [|split; [|repeat split]].
  - intros r a H. rewrite weight_J. apply Nat.ltb_ge in H. now rewrite H.
  - intros r H. rewrite weight_Y. apply Nat.ltb_ge in H. now rewrite H.
Qed.
Print Assumptions C07_ls_weight_row_scaling.

(* weightedEstimate is the Cholesky estimate of that scaled state *)
Theorem C07_ls_weighted_is_cholesky_of_scaled_rows :
  forall (inverse_of : nat -> list (list R) -> list (list R)) (s : ls_state (T:=R)),
  ls_est_ok s = true ->
  ls_weighted_estimate ROps inverse_of s = ls_estimate_chol ROps inverse_of (ls_weight ROps s).
Proof. intros inverse_of s H. unfold ls_weighted_estimate. now rewrite H. Qed.
Print Assumptions C07_ls_weighted_is_cholesky_of_scaled_rows.

(* the matrix handed to the LDLT oracle by weightedEstimate is J^T W^2 J of the rows as the caller wrote them *)
Theorem C07_ls_weighted_normal_matrix :
  forall (s : ls_state (T:=R)) i j, (i < ls_k s)%nat -> (j < ls_k s)%nat ->
  mget ROps (ls_JtJ ROps (ls_weight ROps s)) i j = wnM (ls_n s) (Jf s) (Wf s) i j.
Proof. exact weighted_JtJ_get. Qed.
Print Assumptions C07_ls_weighted_normal_matrix.

(* weighted variant, full statement: under the inverse contract for that matrix, weightedEstimate returns A z + b where z satisfies
   the weighted normal equations J^T W^2 (J z - Y) = 0 and is the global, unique minimiser of sum_r (w_r r_r)^2 — all expressed on
   the J, Y, W the caller wrote (state s BEFORE the call).  Last two conjuncts: the object is left with the scaled rows. *)
Theorem C07_ls_weighted_minimiser :
  forall (inverse_of : nat -> list (list R) -> list (list R)) (s st : ls_state (T:=R)) (x : list R),
  let sw := ls_weight ROps s in
  inv_contract (ls_k s) (ls_JtJ ROps sw) (inverse_of (ls_k s) (ls_JtJ ROps sw)) ->
  ls_weighted_estimate ROps inverse_of s = Some (st, x) ->
  let n := ls_n s in let k := ls_k s in
  let z := ls_z sw (inverse_of k (ls_JtJ ROps sw)) in
  (forall i, (i < k)%nat -> vget ROps x i = Rsum k (fun l => Af s i l * z l) + bf s i) /\
  (forall a, (a < k)%nat -> wgrad n k (Jf s) (Yf s) (Wf s) z a = 0) /\
  (forall y, wcost n k (Jf s) (Yf s) (Wf s) z <= wcost n k (Jf s) (Yf s) (Wf s) y) /\
  (forall y, wcost n k (Jf s) (Yf s) (Wf s) y = wcost n k (Jf s) (Yf s) (Wf s) z -> forall i, (i < k)%nat -> y i = z i) /\
  (forall r a, (r < n)%nat -> Jf st r a = Jf s r a * Wf s r) /\
  (forall r, (r < n)%nat -> Yf st r = Yf s r * Wf s r).
Proof. exact ls_weighted_correct. Qed.
Print Assumptions C07_ls_weighted_minimiser.

(* consequence of the in-place scaling (characterisation of what the code does, not a clause of the property): a second
   weightedEstimate on the same object WITHOUT rewriting the rows minimises sum_r (w_r^2 r_r)^2 of the rows originally written *)
Theorem C07_ls_weighted_twice_squares_the_weights :
  forall (inverse_of : nat -> list (list R) -> list (list R)) (s st : ls_state (T:=R)) (x : list R) (st2 : ls_state (T:=R)) (x2 : list R),
  ls_weighted_estimate ROps inverse_of s = Some (st, x) ->
  inv_contract (ls_k s) (ls_JtJ ROps (ls_weight ROps st)) (inverse_of (ls_k s) (ls_JtJ ROps (ls_weight ROps st))) ->
  ls_weighted_estimate ROps inverse_of st = Some (st2, x2) ->
  let n := ls_n s in let k := ls_k s in
  let w2 := fun r => Wf s r * Wf s r in
  let z := ls_z (ls_weight ROps st) (inverse_of k (ls_JtJ ROps (ls_weight ROps st))) in
  (forall i, (i < k)%nat -> vget ROps x2 i = Rsum k (fun l => Af s i l * z l) + bf s i) /\
  (forall y, wcost n k (Jf s) (Yf s) w2 z <= wcost n k (Jf s) (Yf s) w2 y).
Proof. exact ls_weighted_twice. Qed.
Print Assumptions C07_ls_weighted_twice_squares_the_weights.

(* the estimates do not depend on which right inverse the LDLT oracle returns (Cholesky and weighted paths) *)
Theorem C07_ls_estimate_independent_of_inverse_oracle :
  forall (inverse_of inverse_of' : nat -> list (list R) -> list (list R)) (s st1 : ls_state (T:=R)) (x1 : list R) (st2 : ls_state (T:=R)) (x2 : list R),
  (inv_contract (ls_k s) (ls_JtJ ROps s) (inverse_of (ls_k s) (ls_JtJ ROps s)) ->
   inv_contract (ls_k s) (ls_JtJ ROps s) (inverse_of' (ls_k s) (ls_JtJ ROps s)) ->
   ls_estimate_chol ROps inverse_of s = Some (st1, x1) -> ls_estimate_chol ROps inverse_of' s = Some (st2, x2) ->
   forall i, (i < ls_k s)%nat -> vget ROps x1 i = vget ROps x2 i) /\
  (let sw := ls_weight ROps s in
   inv_contract (ls_k s) (ls_JtJ ROps sw) (inverse_of (ls_k s) (ls_JtJ ROps sw)) ->
   inv_contract (ls_k s) (ls_JtJ ROps sw) (inverse_of' (ls_k s) (ls_JtJ ROps sw)) ->
   ls_weighted_estimate ROps inverse_of s = Some (st1, x1) -> ls_weighted_estimate ROps inverse_of' s = Some (st2, x2) ->
   forall i, (i < ls_k s)%nat -> vget ROps x1 i = vget ROps x2 i).
Proof.
  intros inv inv' s st1 x1 st2 x2. split; [exact (estimate_with_unique inv inv' s st1 x1 st2 x2)|].
  intros sw H1 H2 E1 E2. apply weighted_result in E1. apply weighted_result in E2.
  exact (estimate_with_unique inv inv' sw _ _ _ _ H1 H2 (proj2 E1) (proj2 E2)).
Qed.
Print Assumptions C07_ls_estimate_independent_of_inverse_oracle.

(* non-zero weights keep the column rank: W J z = 0 on the current rows iff J z = 0 on the current rows *)
Theorem C07_ls_weighting_preserves_rank :
  forall (s : ls_state (T:=R)) (z : nat -> R),
  (forall r, (r < ls_n s)%nat -> Wf s r <> 0) ->
  ((forall r, (r < ls_n s)%nat -> Jx (ls_k s) (Jf (ls_weight ROps s)) z r = 0) <->
   (forall r, (r < ls_n s)%nat -> Jx (ls_k s) (Jf s) z r = 0)).
Proof.
  exact (fun s z => kernel_scaled (ls_n s) (ls_k s) (Jf s) (Wf s) (Jf (ls_weight ROps s)) (fun r a H => weight_J_in s r a H) z).
Qed.
Print Assumptions C07_ls_weighting_preserves_rank.

(* THE PROPERTY ON THE CALLER'S DATA, through the state machine: after ANY history on one solver object (estimate size k kept),
   loading a problem — setDataSize n, rows 0..n-1 of J / Y / W from the lists rows / ys / ws, setPreconditionner(A, b) — and calling
   any of the three estimate functions returns A z + b where z satisfies the (weighted) normal equations and is the unique global
   minimiser of the cost of THAT problem, written on rows / ys / ws themselves (J = mget rows, Y = vget ys, W = vget ws), not on the
   buffers of the object: leftover rows of larger problems, earlier in-place weightings and earlier estimates do not enter.
   The oracles are called on J^T J resp. J^T W^2 J of the caller's rows (conjuncts 2 and 3), which makes the contracts premises about
   the caller's matrix. *)
Theorem C07_ls_problem_after_any_history_returns_its_minimiser :
  forall inverse_of svd_of (fill : R) (svd_fixed : bool) k hist (s : ls_state (T:=R)) outs n rows ys ws A b,
  forallb keeps_estimate_size hist = true ->
  ls_run ROps inverse_of svd_of fill svd_fixed hist (ls_new1 ROps k) = Some (s, outs) ->
  (1 <= n)%nat -> (forall i, (i < n)%nat -> length (nth i rows []) = k) ->
  let J := mget ROps rows in let Y := vget ROps ys in let W := vget ROps ws in
  exists t o, ls_run ROps inverse_of svd_of fill svd_fixed (load_ops ROps n rows ys ws ++ [OpSetPrecond A b]) s = Some (t, o) /\
    (forall i j, (i < k)%nat -> (j < k)%nat -> mget ROps (ls_JtJ ROps t) i j = nM n J i j) /\
    (forall i j, (i < k)%nat -> (j < k)%nat -> mget ROps (ls_JtJ ROps (ls_weight ROps t)) i j = wnM n J W i j) /\
    (inv_contract k (ls_JtJ ROps t) (inverse_of k (ls_JtJ ROps t)) ->
     exists st x z, ls_estimate_chol ROps inverse_of t = Some (st, x) /\
       (forall i, (i < k)%nat -> vget ROps x i = Rsum k (fun l => mget ROps A i l * z l) + vget ROps b i) /\
       (forall a, (a < k)%nat -> grad n k J Y z a = 0) /\
       (forall y, cost n k J Y z <= cost n k J Y y) /\
       (forall y, cost n k J Y y = cost n k J Y z -> forall i, (i < k)%nat -> y i = z i)) /\
    (svd_contract k (ls_JtJ ROps t) (svd_of k (ls_JtJ ROps t)) -> svd_all_above svd_of t ->
     exists st x z, ls_estimate_svd ROps svd_of t = Some (st, x) /\
       (forall i, (i < k)%nat -> vget ROps x i = Rsum k (fun l => mget ROps A i l * z l) + vget ROps b i) /\
       (forall a, (a < k)%nat -> grad n k J Y z a = 0) /\
       (forall y, cost n k J Y z <= cost n k J Y y) /\
       (forall y, cost n k J Y y = cost n k J Y z -> forall i, (i < k)%nat -> y i = z i)) /\
    (inv_contract k (ls_JtJ ROps (ls_weight ROps t)) (inverse_of k (ls_JtJ ROps (ls_weight ROps t))) ->
     exists st x z, ls_weighted_estimate ROps inverse_of t = Some (st, x) /\
       (forall i, (i < k)%nat -> vget ROps x i = Rsum k (fun l => mget ROps A i l * z l) + vget ROps b i) /\
       (forall a, (a < k)%nat -> wgrad n k J Y W z a = 0) /\
       (forall y, wcost n k J Y W z <= wcost n k J Y W y) /\
       (forall y, wcost n k J Y W y = wcost n k J Y W z -> forall i, (i < k)%nat -> y i = z i)).
Proof. exact ls_problem_after_any_history. Qed.
Print Assumptions C07_ls_problem_after_any_history_returns_its_minimiser.

(* the ORIGINAL SVD path (absolute test sigma > epsilon) is refuted: J = [eps], Y = [eps] is full rank with condition number
   1 and exact solution x = 1, the SVD below meets the contract, yet the returned x = eps^4 violates the normal equations.
   (The repaired tree uses the relative threshold; this theorem documents the defect that was fixed.) *)
Theorem C07_ls_svd_tiny_scale_refuted :
  ls_est_ok wit_state = true /\
  svd_contract 1 (ls_JtJ ROps wit_state) (wit_svd 1 (ls_JtJ ROps wit_state)) /\
  exists st x, ls_estimate_svd_abs ROps wit_svd wit_state = Some (st, x) /\
               vget ROps x 0 = (wit_a * wit_a) * (wit_a * wit_a) /\
               grad 1 1 (Jf wit_state) (Yf wit_state) (vget ROps x) 0 <> 0.
Proof. exact (conj eq_refl (conj wit_svd_contract wit_refuted)). Qed.
Print Assumptions C07_ls_svd_tiny_scale_refuted.

(* ---- non-vacuity ---- *)
(* the contracts are satisfiable: the 1x1 problem J = [1], Y = [2] with the obvious inverse *)
Example C07_contract_satisfiable :
  let s := mk_ls 1 1 [[1]] [0] 1 [[1]] [2] [1] [[0]] in
  inv_contract 1 (ls_JtJ ROps s) [[1]] /\ ls_est_ok s = true.
Proof.
  cbn. split; [|reflexivity]. intros i j Hi Hj. assert (i = 0%nat) by lia. assert (j = 0%nat) by lia. subst.
  cbn. unfold delta. cbn. lra.
Qed.
(* a history exists: grow to 3 rows, then load a 1-row problem *)
Example C07_history_exists :
  exists s outs, ls_run ROps (fun _ m => m) (fun _ m => (m, [], m)) 0 true [OpSetDataSize 3] (ls_new1 ROps 1) = Some (s, outs).
Proof. eexists. eexists. reflexivity. Qed.
(* the weighted theorem is not vacuous: 2 rows, 1 unknown, J = (1,1), Y = (1,2), W = (2,3), the obvious 1x1 inverse.  The contract holds
   and the estimate is 22/13 = (4*1 + 9*2)/(4 + 9): weights enter SQUARED in the normal equations, i.e. the cost is sum (w_r r_r)^2
   (sum w_r r_r^2 would give 8/5, the unweighted problem 3/2).  A second call without rewriting the rows gives 178/97 (weights^4).
   The real class returns 0x1.b13b13b13b13cp+0 and 0x1.d5c5f02a3a0fdp+0 on this input (harness/C07.cpp, ops XW XW). *)
Example C07_weighted_contract_satisfiable :
  inv_contract (ls_k wwit_state) (ls_JtJ ROps (ls_weight ROps wwit_state))
               (wwit_inv (ls_k wwit_state) (ls_JtJ ROps (ls_weight ROps wwit_state))) /\
  (exists st x, ls_weighted_estimate ROps wwit_inv wwit_state = Some (st, x) /\ vget ROps x 0 = 22 / 13) /\
  (exists st x st2 x2, ls_weighted_estimate ROps wwit_inv wwit_state = Some (st, x) /\
                       ls_weighted_estimate ROps wwit_inv st = Some (st2, x2) /\ vget ROps x2 0 = 178 / 97).
Proof.
  split; [|split].
  - apply (inv_contract_1 (ls_JtJ ROps (ls_weight ROps wwit_state))). cbn. lra.
  - do 2 eexists. split; [reflexivity|]. cbn. field.
  - do 4 eexists. split; [reflexivity|]. split; [reflexivity|]. cbn. field.
Qed.
(* the end-to-end theorem is not vacuous: history "grow to 3 rows", then the 1-row problem J = [1], Y = [2], W = [1] with the obvious
   1x1 inverse oracle: the run exists and both inverse contracts hold on the state it reaches *)
Example C07_end_to_end_premises_satisfiable :
  let inv := fun (_ : nat) (m : list (list R)) => [[/ mget ROps m 0 0]] in
  let svd := fun (_ : nat) (m : list (list R)) => (m, @nil R, m) in
  exists s outs, ls_run ROps inv svd 0 true [OpSetDataSize 3] (ls_new1 ROps 1) = Some (s, outs) /\
  exists t o, ls_run ROps inv svd 0 true (load_ops ROps 1 [[1]] [2] [1] ++ [OpSetPrecond [[1]] [0]]) s = Some (t, o) /\
    inv_contract 1 (ls_JtJ ROps t) (inv 1%nat (ls_JtJ ROps t)) /\
    inv_contract 1 (ls_JtJ ROps (ls_weight ROps t)) (inv 1%nat (ls_JtJ ROps (ls_weight ROps t))).
Proof.
  intros inv svd. eexists. eexists. split; [reflexivity|]. eexists. eexists. split; [reflexivity|].
  split; apply inv_contract_1; cbn; lra.
Qed.

(* ================================================================================================================
   SYNTACTIC SOURCE TIE (SrcTieC07.v).  gen/SrcLs.v is regenerated on every run by translate/tr_C07_ls.py from the clang AST of
   src/regression/leastsquares/LeastSquares.cpp: the record [src_ls] of the ten data members and one Gallina transformer per member
   function of LeastSquares<RealType> (vocabulary of dynamic-size Eigen operations: SrcEigenDyn.v).  [abs] reads that record as the
   model's state (the model has no JtJ_ / JtY_: the first theorem is why it needs none); [src_dims] = the shapes the class keeps;
   [LsDictOK N] = the dictionary reads the literals 1 / 1.0 as n_one and its product commutes (reals, IEEE floats);
   the Eigen solvers are the oracle arguments ldlt_solve / jacobi_svd of the generated terms, the model's oracles are their readings
   inverse_of_src / svd_of_src; [ldlt_dims] / [svd_dims] = Eigen returns results of the right shape.
   Every statement holds for EVERY numeric dictionary satisfying LsDictOK.
   ================================================================================================================ *)

(* computeJTJ_ / computeJTY_ as written (the two nested counted loops with col(i).head(dataSize_).dot(..)) leave in JtJ_ / JtY_ the
   tables of the dot products over the FIRST dataSize_ ROWS, whatever JtJ_ / JtY_ held before and whatever the rows of J_ / Y_ beyond
   dataSize_ hold (leftovers of a larger problem): the normal equations are those of the current problem only *)
Theorem C07_source_tie_ls_normal_equations_of_current_rows :
  forall (T : Type) (N : NumOps T), LsDictOK N -> forall s : src_ls (T:=T),
  src_dims s -> (dataSize_ s <= dm_nrows (J_ s))%nat ->
  src_computeJTJ_ N s = with_JtJ s (mkdm (estimateSize_ s) (ls_JtJ N (abs s))) /\
  src_computeJTY_ N s = with_JtY s (ls_JtY N (abs s)).
Proof. exact (fun T N D s Hd Hn => conj (tie_computeJTJ N D s Hd Hn) (tie_computeJTY N s Hd Hn)). Qed.
Print Assumptions C07_source_tie_ls_normal_equations_of_current_rows.

(* constructors, setEstimateSize, setDataSize (GROW-ONLY buffers: reallocation exactly when Y_.rows() < dataSize, then W_ = ones),
   both setPreconditionner overloads (the one-argument overload resets Bc_ to zero), and the row store through getJ() / getY() / getW() *)
Theorem C07_source_tie_ls_constructors_and_setters :
  forall (T : Type) (N : NumOps T) (fill : T), LsDictOK N ->
  abs (src_new0 (T:=T)) = ls_new0 /\
  (forall k, abs (src_new1 N k) = ls_new1 N k /\ src_dims (src_new1 N k)) /\
  (forall k n, abs (src_new2 N k n) = ls_new2 N k n /\ src_dims (src_new2 N k n)) /\
  (forall k (s : src_ls (T:=T)), abs (src_setEstimateSize N k s) = ls_set_estimate_size N k (abs s)) /\
  (forall n (s : src_ls (T:=T)), (abs (fst (src_setDataSize N fill n s)), snd (src_setDataSize N fill n s)) = ls_set_data_size N fill n (abs s)) /\
  (forall A b (s : src_ls (T:=T)), abs (src_setPreconditionner2 A b s) = ls_set_precond (dm_rows A) b (abs s)) /\
  (forall A (s : src_ls (T:=T)), abs (src_setPreconditionner1 N A s) = ls_set_precond_A N (dm_rows A) (abs s)) /\
  (forall i row y w (s : src_ls (T:=T)), ls_wf (abs s) -> ls_row_ok i row (abs s) = true ->
     Some (abs (src_set_row N i row y w s)) = ls_set_row i row y w (abs s)).
Proof.
  exact (fun T N fill D =>
    conj (tie_new0 (T:=T)) (conj (fun k => conj (tie_new1 N k) (dims_new1 N k)) (conj (fun k n => conj (tie_new2 N k n) (dims_new2 N k n))
    (conj (tie_setEstimateSize N) (conj (tie_setDataSize N fill D) (conj (tie_setPreconditionner2 (T:=T))
    (conj (tie_setPreconditionner1 N) (tie_set_row N)))))))).
Qed.
Print Assumptions C07_source_tie_ls_constructors_and_setters.

(* the three estimate paths as written — estimateUsingCholeskyDecomposition (Ac_ * inverseJtJ_ * JtY_ + Bc_ with the LDLT solve against
   Identity), estimateUsingSVD (singular values above epsilon * sigma_0 inverted, the others left, V * D * U^T), weightedEstimate (in-place
   weighting of the first dataSize_ rows, then the Cholesky path) — and weightJAndY_ are the model's, state and returned vector *)
Theorem C07_source_tie_ls_estimate_paths :
  forall (T : Type) (N : NumOps T) ldlt_solve jacobi_svd, LsDictOK N -> ldlt_dims ldlt_solve -> svd_dims jacobi_svd ->
  forall s : src_ls (T:=T), src_dims s -> ls_wf (abs s) -> ls_est_ok (abs s) = true ->
  Some (abs (fst (src_estimateUsingCholeskyDecomposition N ldlt_solve s)), snd (src_estimateUsingCholeskyDecomposition N ldlt_solve s))
    = ls_estimate_chol N (inverse_of_src N ldlt_solve) (abs s) /\
  Some (abs (fst (src_estimateUsingSVD N jacobi_svd s)), snd (src_estimateUsingSVD N jacobi_svd s))
    = ls_estimate_svd N (svd_of_src jacobi_svd) (abs s) /\
  abs (src_weightJAndY_ N s) = ls_weight N (abs s) /\
  Some (abs (fst (src_weightedEstimate N ldlt_solve s)), snd (src_weightedEstimate N ldlt_solve s))
    = ls_weighted_estimate N (inverse_of_src N ldlt_solve) (abs s).
Proof.
  exact (fun T N ld sv D Hl Hs s Hd Hw Hok =>
    conj (proj1 (tie_chol N ld D s Hl Hd Hw Hok)) (conj (proj1 (tie_svd N sv D s Hs Hd Hw Hok))
    (conj (tie_weight N s Hw Hok) (proj1 (tie_weighted N ld D s Hl Hd Hw Hok))))).
Qed.
Print Assumptions C07_source_tie_ls_estimate_paths.

(* SIMULATION of every op sequence: wherever the model's run is defined (no undefined behaviour), running the GENERATED transformers
   gives the same outputs and a state that reads as the model's — so C07_ls_invariant_every_history, C07_ls_history_independent and
   the end-to-end minimiser theorems above speak about the member functions as written.
   [run_dims]: every preconditioner matrix passed has estimateSize_ rows (it is read as estimateSize_ x estimateSize_) *)
Theorem C07_source_tie_ls_state_machine_every_history :
  forall (T : Type) (N : NumOps T) (fill : T) ldlt_solve jacobi_svd, LsDictOK N -> ldlt_dims ldlt_solve -> svd_dims jacobi_svd ->
  forall ops (s : src_ls (T:=T)) t outs, src_dims s -> ls_wf (abs s) -> run_dims N fill ldlt_solve jacobi_svd ops s ->
  ls_run N (inverse_of_src N ldlt_solve) (svd_of_src jacobi_svd) fill true ops (abs s) = Some (t, outs) ->
  abs (fst (src_run N fill ldlt_solve jacobi_svd ops s)) = t /\ snd (src_run N fill ldlt_solve jacobi_svd ops s) = outs /\
  src_dims (fst (src_run N fill ldlt_solve jacobi_svd ops s)).
Proof. exact (fun T N fill ld sv => sim_run N fill ld sv). Qed.
Print Assumptions C07_source_tie_ls_state_machine_every_history.

(* HISTORY INDEPENDENCE ON THE CODE AS WRITTEN: after ANY history on one object (estimate size kept; defined), loading a problem and
   calling any of the three estimate member functions returns exactly the vector a freshly constructed LeastSquares(k) returns *)
Theorem C07_source_tie_ls_history_independence :
  forall (T : Type) (N : NumOps T) (fill : T) ldlt_solve jacobi_svd, LsDictOK N -> ldlt_dims ldlt_solve -> svd_dims jacobi_svd ->
  forall k hist (ms : ls_state (T:=T)) outs n rows ys ws A b est,
  forallb keeps_estimate_size hist = true ->
  ls_run N (inverse_of_src N ldlt_solve) (svd_of_src jacobi_svd) fill true hist (ls_new1 N k) = Some (ms, outs) ->
  run_dims N fill ldlt_solve jacobi_svd hist (src_new1 N k) -> length A = k ->
  (1 <= n)%nat -> (forall i, (i < n)%nat -> length (nth i rows []) = k) ->
  est = OpEstimateChol \/ est = OpEstimateSVD \/ est = OpWeightedEstimate ->
  let prob := load_ops N n rows ys ws ++ [OpSetPrecond A b] in
  exists x,
    snd (src_step N fill ldlt_solve jacobi_svd
           (fst (src_run N fill ldlt_solve jacobi_svd prob (fst (src_run N fill ldlt_solve jacobi_svd hist (src_new1 N k))))) est) = OutVec x /\
    snd (src_step N fill ldlt_solve jacobi_svd (fst (src_run N fill ldlt_solve jacobi_svd prob (src_new1 N k))) est) = OutVec x.
Proof. exact (fun T N fill ld sv => src_history_independent N fill ld sv). Qed.
Print Assumptions C07_source_tie_ls_history_independence.

(* END TO END on the generated Cholesky member function, over the reals: under the LDLT contract the vector it returns is Ac z + Bc with z
   the solution of the normal equations of the first dataSize_ rows, the global and unique minimiser *)
Theorem C07_source_tie_ls_cholesky_returns_the_minimiser :
  forall ldlt_solve (s : src_ls (T:=R)), ldlt_dims ldlt_solve -> src_dims s -> ls_wf (abs s) -> ls_est_ok (abs s) = true ->
  let a := abs s in let n := ls_n a in let k := ls_k a in
  let inv := inverse_of_src ROps ldlt_solve k (ls_JtJ ROps a) in
  inv_contract k (ls_JtJ ROps a) inv ->
  let x := snd (src_estimateUsingCholeskyDecomposition ROps ldlt_solve s) in
  let z := ls_z a inv in
  (forall i, (i < k)%nat -> vget ROps x i = Rsum k (fun l => Af a i l * z l) + bf a i) /\
  (forall i, (i < k)%nat -> grad n k (Jf a) (Yf a) z i = 0) /\
  (forall y, cost n k (Jf a) (Yf a) z <= cost n k (Jf a) (Yf a) y) /\
  (forall y, cost n k (Jf a) (Yf a) y = cost n k (Jf a) (Yf a) z -> forall i, (i < k)%nat -> y i = z i).
Proof.
  intros ld s Hl Hd Hw Hok a n k inv Hc x z.
  pose proof (eq_sym (proj1 (tie_chol ROps ld LsDictOK_R s Hl Hd Hw Hok))) as He.
  apply (estimate_with_inv ROps (inverse_of_src ROps ld)) in He. destruct He as (_ & _ & He). subst x. rewrite He.
  destruct (ls_apply_correct a inv Hc) as (H1 & H2 & _ & H4 & H5).
  exact (conj H1 (conj H2 (conj H4 H5))).
Qed.
Print Assumptions C07_source_tie_ls_cholesky_returns_the_minimiser.

(* non-vacuity of the tie premises: the real dictionary is LsDictOK; oracles of the right shapes exist; a defined history with its
   run_dims exists (grow to 3 rows, set a 1 x 1 preconditioner), and the generated transformers really compute on it *)
Example C07_source_tie_premises_satisfiable :
  let ld := fun (M B : dmat (T:=R)) => B in
  let sv := fun (M : dmat (T:=R)) => let I := mkdm (dm_nrows M) (mtab (dm_nrows M) (dm_nrows M) (fid ROps)) in
                                     (I, tab (dm_nrows M) (fun _ => 1), I) in
  LsDictOK ROps /\ ldlt_dims ld /\ svd_dims sv /\
  src_dims (src_new1 ROps 1) /\ ls_wf (abs (src_new1 ROps 1)) /\
  run_dims ROps 0 ld sv [OpSetDataSize 3; OpSetPrecond [[2]] [0]] (src_new1 ROps 1) /\
  exists t outs, ls_run ROps (inverse_of_src ROps ld) (svd_of_src sv) 0 true [OpSetDataSize 3; OpSetPrecond [[2]] [0]] (ls_new1 ROps 1) = Some (t, outs).
Proof.
  intros ld sv. split; [exact LsDictOK_R|]. split; [intros M B; reflexivity|]. split.
  { intros M. cbn. split; [apply dm_shape_mtab|]. split; [apply dm_shape_mtab|]. apply length_tab. }
  split; [apply dims_new1|]. split; [apply wf_new1|]. split; [cbn; auto|]. eexists. eexists. reflexivity.
Qed.
