(* SrcTie.v — what the source ties of closed-form real expressions share (C01, C02, C03, the angle functions and, through
   them, C10 and C12; also the tie sections of Properties_C01/C02/C03): the tactics [dict], [req], [lits] and the value
   of the literals 1.0, 2, 2.0, 0.0.  A tie lemma states that a closed-form leaf of a model equals the term regenerated
   from the C++ source: gen/SrcFuns<id>.v is produced on every run by translate/srcfuns.py from the clang AST of /repo,
   and the lemma is proved at the real-number instance (the one the theorems are about).  Literals differ in
   representation only (the source's `1`, `2`, `1.0`, `1.5` become nofZ / nofDec, the model writes n_one, ntwo, the
   constant table), so a tie is proved by computation plus the value of the decimal literals.  The ties are one file per
   property, so that a function the translator cannot handle breaks the tie of its own property only; when a C++
   expression is edited the generated term changes, and its tie fails exactly when the meaning over the reals changes. *)
From Coq Require Import Reals ZArith Lra.
From Romea Require Import Num NumR.
Local Open Scope R_scope.

(* [dict] exposes the real operations behind the dictionary projections; [req] closes an equation between two real terms
   that are the same up to the ring laws at some depth (same function symbols applied to ring-equal arguments): a
   re-association or a commutation in the C++ expression does not break a tie lemma, a change of meaning does. *)
Ltac dict := cbn [nadd nsub nmul ndiv nneg nsqrt nsin ncos ntan natan nasin nacos nexp nln nabs natan2 npow npi nofZ nofDec
                  nfmod nltb nleb neqb nzero n_one ntwo nhalf ROps].
Ltac unify1 f :=
  match goal with |- context [f ?a] => match goal with |- context [f ?b] =>
    tryif constr_eq a b then fail else replace (f b) with (f a) by (f_equal; ring) end end.
Ltac unify2 f :=
  match goal with |- context [f ?a ?c] => match goal with |- context [f ?b ?d] =>
    tryif (constr_eq a b; constr_eq c d) then fail else replace (f b d) with (f a c) by (f_equal; ring) end end.
(* arguments of the same function symbol that are ring-equal are made syntactically equal, innermost first *)
Ltac unify_apps :=
  repeat first [ unify1 sin | unify1 cos | unify1 tan | unify1 atan | unify1 asin | unify1 acos | unify1 exp | unify1 ln
               | unify1 sqrt | unify1 Rabs | unify1 Rinv | unify2 Ratan2 | unify2 Rpower | unify2 Rfmod
               | unify2 Rltb | unify2 Rleb ].
Ltac req_n n :=
  lazymatch n with
  | O => fail "terms differ"
  | S ?m => first [ reflexivity | ring | (progress f_equal; req_n m) ]
  end.
Ltac req := first [reflexivity | unfold Rdiv; unify_apps; req_n 12%nat].

Lemma dec_1_0 : IZR 1 * powerRZ 10 0 = 1.
Proof. simpl. lra. Qed.

Lemma izr2 : IZR 2 = 1 + 1.
Proof. replace (IZR 2) with 2 by reflexivity. lra. Qed.
Lemma dec_2_0 : IZR 2 * powerRZ 10 0 = 1 + 1.
Proof. simpl. lra. Qed.
Ltac lits := rewrite ?dec_2_0, ?dec_1_0, ?izr2.

Lemma dec_0_0 : IZR 0 * powerRZ 10 0 = 0.
Proof. simpl. lra. Qed.

(* an `if` on either side: the tests and the two branches are compared one by one *)
Lemma if_congr {A : Type} (c c' : bool) (x x' y y' : A) :
  c = c' -> x = x' -> y = y' -> (if c then x else y) = (if c' then x' else y').
Proof. intros -> -> ->. reflexivity. Qed.
