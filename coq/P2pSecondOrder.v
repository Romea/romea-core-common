(* P2pSecondOrder.v — the O(theta^2) part of property C05: a rotation of angle theta is recovered by the point-to-plane
   estimator (P2pModel.v) with an error of second order.
   Analytic facts  1 - cos t <= t^2/2  and  (1 - cos t)^2 + (t - sin t)^2 <= t^4/4  for every real t;
   the linearisation remainder (I + t K - R(t)) s  in 2D and in 3D (Rodrigues, unit axis);
   abstract least squares: Pythagoras from the normal equations, hence |J (z - x)|^2 <= cost x for every x;
   the model's rows: on exact-motion data the linearised residual of the true parameters is at most theta^2/2 |s_i|, hence
   |J (z - x_true)|^2 <= theta^4/4 sum_i |s_i|^2, for the estimate of p2p_estimate. *)
From Coq Require Import Reals List Arith Lia Lra Bool Psatz.
From Coquelicot Require Import Coquelicot.
From Romea Require Import Num NumR LinAlgBModel LinAlgBProofs LsModel LsProofs LsHistoryProofs P2pModel P2pProofs.
Import ListNotations.
Local Open Scope R_scope.

Local Notation vg := (vget ROps).

Lemma even_nonneg_of_deriv (f f' : R -> R) :
  f 0 = 0 -> (forall t, f (- t) = f t) ->
  (forall c, 0 <= c -> derivable_pt_lim f c (f' c)) -> (forall c, 0 <= c -> 0 <= f' c) ->
  forall t, 0 <= f t.
Proof.
  intros H0 Hev Hd Hp.
  assert (Hpos : forall t, 0 < t -> 0 <= f t).
  { intros t Ht. destruct (MVT_cor2 f f' 0 t Ht) as (c & Hc & Hin).
    - intros c Hc. apply Hd. lra.
    - rewrite H0 in Hc. assert (0 <= f' c * (t - 0)) by (apply Rmult_le_pos; [apply Hp|]; lra). lra. }
  intros t. destruct (Rtotal_order t 0) as [H|[->|H]].
  - rewrite <- Hev. apply Hpos. lra.
  - lra.
  - now apply Hpos.
Qed.

Lemma sin_le_x_nonneg t : 0 <= t -> sin t <= t.
Proof.
  intros Ht. destruct (Req_dec t 0) as [->|Hne]; [rewrite sin_0; lra|].
  apply Rlt_le, sin_lt_x. lra.
Qed.

Lemma one_sub_cos_bounds t : 0 <= 1 - cos t <= t ^ 2 / 2.
Proof.
  split; [pose proof (COS_bound t); lra|].
  enough (H : forall x, 0 <= x ^ 2 / 2 - 1 + cos x) by (specialize (H t); lra).
  apply (even_nonneg_of_deriv (fun x => x ^ 2 / 2 - 1 + cos x) (fun x => x - sin x)); cbv beta.
  - rewrite cos_0. lra.
  - intros x. rewrite cos_neg. field.
  - intros c _. apply is_derive_Reals. auto_derive; [exact I|field].
  - intros c Hc. pose proof (sin_le_x_nonneg c Hc). lra.
Qed.

(* the squared norm of the linearisation remainder of a rotation, as a function of the angle *)
Definition rot_rem2 (t : R) : R := (1 - cos t) ^ 2 + (t - sin t) ^ 2.

Lemma rot_rem2_closed t : rot_rem2 t = 2 - 2 * cos t - 2 * t * sin t + t ^ 2.
Proof. unfold rot_rem2. pose proof (sin2_cos2 t) as E. unfold Rsqr in E. lra. Qed.

Lemma rot_rem2_nonneg t : 0 <= rot_rem2 t.
Proof. apply Rplus_le_le_0_compat; apply pow2_ge_0. Qed.

(* the derivative of t^4/4 - rot_rem2 t is t (t^2 - 2 (1 - cos t)) *)
Lemma rot_rem2_le t : rot_rem2 t <= t ^ 4 / 4.
Proof.
  rewrite rot_rem2_closed.
  enough (H : forall x, 0 <= x ^ 4 / 4 - 2 + 2 * cos x + 2 * x * sin x - x ^ 2) by (specialize (H t); lra).
  apply (even_nonneg_of_deriv (fun x => x ^ 4 / 4 - 2 + 2 * cos x + 2 * x * sin x - x ^ 2)
                              (fun x => x * (x ^ 2 - 2 * (1 - cos x)))); cbv beta.
  - rewrite cos_0, sin_0. lra.
  - intros x. rewrite cos_neg, sin_neg. field.
  - intros c _. apply is_derive_Reals. auto_derive; [exact I|field].
  - intros c Hc. apply Rmult_le_pos; [exact Hc|]. pose proof (one_sub_cos_bounds c). lra.
Qed.

(* points as coordinate functions nat -> R (the model's [vget ROps p]) *)
Definition rot2 (t : R) (s : nat -> R) (i : nat) : R :=
  match i with
  | O => cos t * s 0%nat - sin t * s 1%nat
  | _ => sin t * s 0%nat + cos t * s 1%nat
  end.

Definition cross (u v : nat -> R) (i : nat) : R :=
  match i with
  | O => u 1%nat * v 2%nat - u 2%nat * v 1%nat
  | S O => u 2%nat * v 0%nat - u 0%nat * v 2%nat
  | _ => u 0%nat * v 1%nat - u 1%nat * v 0%nat
  end.

(* Rodrigues: R = I + sin t K + (1 - cos t) K^2, K = skew(k) *)
Definition rodrigues (k : nat -> R) (t : R) (s : nat -> R) (i : nat) : R :=
  s i + sin t * cross k s i + (1 - cos t) * cross k (cross k s) i.

Definition sq2 (s : nat -> R) : R := s 0%nat * s 0%nat + s 1%nat * s 1%nat.
Definition sq3 (s : nat -> R) : R := s 0%nat * s 0%nat + s 1%nat * s 1%nat + s 2%nat * s 2%nat.
Definition dot3 (u v : nat -> R) : R := u 0%nat * v 0%nat + u 1%nat * v 1%nat + u 2%nat * v 2%nat.

(* sanity of the definitions: both are isometries, the axis is fixed, and a rotation about e_z is the planar one *)
Lemma rot2_isometry t s : sq2 (rot2 t s) = sq2 s.
Proof.
  pose proof (sin2_cos2 t) as E. unfold Rsqr in E. rewrite <- (Rmult_1_l (sq2 s)), <- E. unfold sq2, rot2. ring.
Qed.

Lemma rodrigues_isometry k t s : sq3 k = 1 -> sq3 (rodrigues k t s) = sq3 s.
Proof.
  intros Hk. pose proof (sin2_cos2 t) as E. unfold Rsqr in E.
  assert (G : sq3 (rodrigues k t s) - sq3 s =
              (sq3 k * sq3 s - dot3 k s * dot3 k s) *
              (sin t * sin t + cos t * cos t - 1 + (1 - cos t) * (1 - cos t) * (sq3 k - 1))).
  { unfold sq3, dot3, rodrigues, cross. ring. }
  rewrite Hk, E in G. lra.
Qed.

Lemma rodrigues_axis k t : rodrigues k t k 0%nat = k 0%nat /\ rodrigues k t k 1%nat = k 1%nat /\ rodrigues k t k 2%nat = k 2%nat.
Proof. unfold rodrigues, cross. repeat split; ring. Qed.

Lemma rodrigues_ez t s :
  let ez := fun i => match i with 2%nat => 1 | _ => 0 end in
  rodrigues ez t s 0%nat = rot2 t s 0%nat /\ rodrigues ez t s 1%nat = rot2 t s 1%nat /\ rodrigues ez t s 2%nat = s 2%nat.
Proof. cbv zeta. unfold rodrigues, cross, rot2. repeat split; ring. Qed.

Lemma sq2_nonneg s : 0 <= sq2 s.
Proof. unfold sq2. nra. Qed.

(* the linearisation remainder, 2D:  |((I + t [[0,-1],[1,0]]) - R(t)) s|^2 = ((1 - cos t)^2 + (t - sin t)^2) |s|^2 <= t^4/4 |s|^2 *)
Lemma rot2_remainder_eq t s :
  sq2 (fun i => match i with O => s 0%nat - t * s 1%nat | _ => s 1%nat + t * s 0%nat end - rot2 t s i) = rot_rem2 t * sq2 s.
Proof. unfold sq2, rot2, rot_rem2. ring. Qed.

Lemma rot2_remainder_le t s :
  sq2 (fun i => match i with O => s 0%nat - t * s 1%nat | _ => s 1%nat + t * s 0%nat end - rot2 t s i) <= t ^ 4 / 4 * sq2 s.
Proof. rewrite rot2_remainder_eq. apply Rmult_le_compat_r; [apply sq2_nonneg|apply rot_rem2_le]. Qed.

(* the linearisation remainder, 3D, rotation of angle t about the unit axis k:
   (I + t K - R) s = (t - sin t) k x s - (1 - cos t) k x (k x s), the two vectors are orthogonal and both have squared
   norm |s|^2 - (k.s)^2 *)
Lemma rodrigues_remainder_eq k t s : sq3 k = 1 ->
  sq3 (fun i => s i + t * cross k s i - rodrigues k t s i) = rot_rem2 t * (sq3 s - dot3 k s ^ 2).
Proof.
  intros Hk.
  assert (G : sq3 (fun i => s i + t * cross k s i - rodrigues k t s i) =
              (t - sin t) ^ 2 * (sq3 k * sq3 s - dot3 k s ^ 2) +
              (1 - cos t) ^ 2 * (sq3 k * (sq3 k * sq3 s - dot3 k s ^ 2))).
  { unfold sq3, dot3, rodrigues, cross. ring. }
  rewrite G, Hk. unfold rot_rem2. ring.
Qed.

(* Cauchy-Schwarz with a unit vector n, through Lagrange's identity: (n.d)^2 <= |d|^2 *)
Lemma unit_dot_le_3 (n0 n1 n2 d0 d1 d2 : R) : n0 * n0 + n1 * n1 + n2 * n2 = 1 ->
  (n0 * d0 + n1 * d1 + n2 * d2) * (n0 * d0 + n1 * d1 + n2 * d2) <= d0 * d0 + d1 * d1 + d2 * d2.
Proof.
  intros Hn. rewrite <- (Rmult_1_l (d0 * d0 + d1 * d1 + d2 * d2)), <- Hn.
  pose proof (Rle_0_sqr (n0 * d1 - n1 * d0)) as A. pose proof (Rle_0_sqr (n1 * d2 - n2 * d1)) as B.
  pose proof (Rle_0_sqr (n2 * d0 - n0 * d2)) as C. unfold Rsqr in A, B, C. lra.
Qed.

Lemma unit_dot_le_2 (n0 n1 d0 d1 : R) : n0 * n0 + n1 * n1 = 1 ->
  (n0 * d0 + n1 * d1) * (n0 * d0 + n1 * d1) <= d0 * d0 + d1 * d1.
Proof. intros Hn. pose proof (unit_dot_le_3 n0 n1 0 d0 d1 0 ltac:(lra)). lra. Qed.

Lemma rodrigues_remainder_le k t s : sq3 k = 1 ->
  sq3 (fun i => s i + t * cross k s i - rodrigues k t s i) <= t ^ 4 / 4 * sq3 s.
Proof.
  intros Hk. rewrite (rodrigues_remainder_eq k t s Hk).
  pose proof (unit_dot_le_3 _ _ _ (s 0%nat) (s 1%nat) (s 2%nat) Hk) as CS. fold (dot3 k s) (sq3 s) in CS.
  pose proof (rot_rem2_le t). pose proof (rot_rem2_nonneg t).
  apply Rle_trans with (t ^ 4 / 4 * (sq3 s - dot3 k s ^ 2)).
  - apply Rmult_le_compat_r; [lra|assumption].
  - apply Rmult_le_compat_l; nra.
Qed.

(* abstract least squares: Pythagoras from the normal equations alone (z is ANY solution of J^T (J z - Y) = 0) *)
Section NormalEquations.
Variables (n k : nat) (J : nat -> nat -> R) (Y : nat -> R) (z : nat -> R).
Hypothesis Hz : forall i, (i < k)%nat -> grad n k J Y z i = 0.

Definition Jerr2 (x : nat -> R) : R :=
  Rsum n (fun r => Jx k J (fun c => z c - x c) r * Jx k J (fun c => z c - x c) r).

(* LinAlgBProofs.pythagoras_normal, with the difference taken as z - x *)
Lemma pythagoras_Jerr2 x : cost n k J Y x = cost n k J Y z + Jerr2 x.
Proof.
  rewrite (pythagoras_normal n k J Y z Hz x). f_equal. apply Rsum_ext. intros r _.
  replace (Jx k J (fun c => x c - z c) r) with (- Jx k J (fun c => z c - x c) r); [ring|].
  unfold Jx. rewrite <- Rsum_opp. apply Rsum_ext. intros c _. ring.
Qed.

Lemma cost_nonneg x : 0 <= cost n k J Y x.
Proof. apply Rsum_nonneg. intros r _. apply Rle_0_sqr. Qed.

Lemma Jerr2_le_cost x : Jerr2 x <= cost n k J Y x.
Proof. rewrite (pythagoras_Jerr2 x). pose proof (cost_nonneg z). lra. Qed.

Lemma Jerr2_le_of_residuals x (B : R) (w : nat -> R) :
  (forall r, (r < n)%nat -> (Jx k J x r - Y r) * (Jx k J x r - Y r) <= B * w r) ->
  Jerr2 x <= B * Rsum n w.
Proof.
  intros Hres. apply Rle_trans with (cost n k J Y x); [apply Jerr2_le_cost|].
  unfold cost. rewrite <- Rsum_scal_l. apply Rsum_le. exact Hres.
Qed.

End NormalEquations.

Lemma Jerr2_pow n k J z x :
  Rsum n (fun r => (Rsum k (fun a => J r a * (z a - x a))) ^ 2) = Jerr2 n k J z x.
Proof. unfold Jerr2, Jx. apply Rsum_ext. intros r _. ring. Qed.

Lemma param_error_of_Jerr n k J (z x : nat -> R) (lam C : R) :
  0 < lam ->
  (forall v : nat -> R, lam * Rsum k (fun a => v a * v a) <= Rsum n (fun r => Jx k J v r * Jx k J v r)) ->
  Rsum n (fun r => (Rsum k (fun a => J r a * (z a - x a))) ^ 2) <= C ->
  Rsum k (fun a => (z a - x a) * (z a - x a)) <= C / lam.
Proof.
  intros Hl Hev HC. rewrite Jerr2_pow in HC. pose proof (Hev (fun c => z c - x c)) as H. fold (Jerr2 n k J z x) in H.
  apply Rmult_le_reg_l with lam; [exact Hl|].
  replace (lam * (C / lam)) with C by (field; lra). cbv beta in H. lra.
Qed.

(* the form measured by the oracle: |J (z - x_true)| <= theta^2/2 sqrt(sum |s_i|^2) *)
Lemma sqrt_form (E S theta : R) : E <= theta ^ 4 / 4 * S -> sqrt E <= theta ^ 2 / 2 * sqrt S.
Proof.
  intros H.
  assert (Hq : 0 <= theta ^ 2 / 2) by (pose proof (pow2_ge_0 theta); lra).
  rewrite <- (sqrt_square (theta ^ 2 / 2)) at 1 by exact Hq.
  rewrite <- sqrt_mult_alt by (apply Rmult_le_pos; exact Hq).
  apply sqrt_le_1_alt. replace (theta ^ 2 / 2 * (theta ^ 2 / 2) * S) with (theta ^ 4 / 4 * S) by field. exact H.
Qed.

(* the model's rows.  Triples are ((source, target), normal). *)
Definition dtr : (list R * list R) * list R := (([], []), []).
Definition tsrc (triples : list ((list R * list R) * list R)) (r : nat) : list R := fst (fst (nth r triples dtr)).
Definition ttgt (triples : list ((list R * list R) * list R)) (r : nat) : list R := snd (fst (nth r triples dtr)).
Definition tnrm (triples : list ((list R * list R) * list R)) (r : nat) : list R := snd (nth r triples dtr).

Lemma Jp_nth d triples r c : (r < length triples)%nat ->
  Jp d triples r c = vg (p2p_row ROps d (tsrc triples r) (tnrm triples r)) c.
Proof. intros Hr. unfold Jp, tr_rows. now rewrite (nth_map_lt _ triples r dtr). Qed.

Lemma Yp_nth ps triples r : (r < length triples)%nat ->
  Yp ps triples r = p2p_y ROps ps (tsrc triples r) (ttgt triples r) (tnrm triples r).
Proof. intros Hr. unfold Yp, tr_ys. now rewrite (nth_map_lt _ triples r dtr). Qed.

Lemma Jerr_le_of_row_residuals d ps triples (z xt : nat -> R) (B : R) (w : list R -> R) :
  (forall r, (r < length triples)%nat ->
     (Rsum (p2p_k d) (fun c => vg (p2p_row ROps d (tsrc triples r) (tnrm triples r)) c * xt c)
      - p2p_y ROps ps (tsrc triples r) (ttgt triples r) (tnrm triples r)) *
     (Rsum (p2p_k d) (fun c => vg (p2p_row ROps d (tsrc triples r) (tnrm triples r)) c * xt c)
      - p2p_y ROps ps (tsrc triples r) (ttgt triples r) (tnrm triples r)) <= B * w (tsrc triples r)) ->
  (forall i, (i < p2p_k d)%nat -> grad (length triples) (p2p_k d) (Jp d triples) (Yp ps triples) z i = 0) ->
  Rsum (length triples) (fun r => (Rsum (p2p_k d) (fun a => Jp d triples r a * (z a - xt a))) ^ 2)
  <= B * Rsum (length triples) (fun r => w (tsrc triples r)).
Proof.
  intros Hres Hz. rewrite Jerr2_pow. apply (Jerr2_le_of_residuals _ _ _ (Yp ps triples) z Hz). intros r Hr.
  unfold Jx. rewrite (Yp_nth _ _ _ Hr).
  rewrite (Rsum_ext _ _ (fun c => vg (p2p_row ROps d (tsrc triples r) (tnrm triples r)) c * xt c))
    by (intros c _; now rewrite Jp_nth).
  now apply Hres.
Qed.

(* the true parameters, in the estimator's parameter order: 2D (tau_x, tau_y, w), 3D (tau, theta * axis) *)
Definition xtrue2 (tau : nat -> R) (theta : R) (c : nat) : R :=
  match c with 0%nat => tau 0%nat | 1%nat => tau 1%nat | _ => theta end.
Definition xtrue3 (tau k : nat -> R) (theta : R) (c : nat) : R :=
  match c with
  | 0%nat => tau 0%nat | 1%nat => tau 1%nat | 2%nat => tau 2%nat
  | 3%nat => theta * k 0%nat | 4%nat => theta * k 1%nat | _ => theta * k 2%nat
  end.

(* stored coordinates: Cartesian (ps = d) or homogeneous with the same last coordinate on both points *)
Definition same_w (d ps : nat) (s t : list R) : Prop := ps = d \/ (ps = S d /\ vg s d = vg t d).

Lemma p2p_y_same_w d ps s t n : same_w d ps s t -> p2p_y ROps ps s t n = p2p_y ROps d s t n.
Proof. intros [->|[-> H]]; [reflexivity|now apply p2p_y_homogeneous]. Qed.

(* one correspondence, 2D: the residual of the true parameters is n . d with d = (I + theta K - R) s the linearisation
   remainder (tau cancels), so by Cauchy-Schwarz with |n| = 1 its square is at most |d|^2 <= theta^4/4 |s|^2 *)
Lemma p2p_true_residual_2d theta tau ps (s t n : list R) :
  sq2 (vg n) = 1 -> same_w 2 ps s t ->
  (forall c, (c < 2)%nat -> vg t c = rot2 theta (vg s) c + tau c) ->
  (Rsum 3 (fun c => vg (p2p_row ROps 2 s n) c * xtrue2 tau theta c) - p2p_y ROps ps s t n) *
  (Rsum 3 (fun c => vg (p2p_row ROps 2 s n) c * xtrue2 tau theta c) - p2p_y ROps ps s t n)
  <= theta ^ 4 / 4 * sq2 (vg s).
Proof.
  intros Hn Hw Ht. rewrite (p2p_y_same_w 2 ps s t n Hw), p2p_residual_identity_2d.
  cbn [xtrue2]. rewrite (Ht 0%nat), (Ht 1%nat) by lia.
  eapply Rle_trans; [apply unit_dot_le_2; exact Hn|].
  eapply Rle_trans; [|apply (rot2_remainder_le theta (vg s))].
  apply Req_le. unfold sq2. ring.
Qed.

Lemma p2p_true_residual_3d theta tau k ps (s t n : list R) :
  sq3 (vg n) = 1 -> sq3 k = 1 -> same_w 3 ps s t ->
  (forall c, (c < 3)%nat -> vg t c = rodrigues k theta (vg s) c + tau c) ->
  (Rsum 6 (fun c => vg (p2p_row ROps 3 s n) c * xtrue3 tau k theta c) - p2p_y ROps ps s t n) *
  (Rsum 6 (fun c => vg (p2p_row ROps 3 s n) c * xtrue3 tau k theta c) - p2p_y ROps ps s t n)
  <= theta ^ 4 / 4 * sq3 (vg s).
Proof.
  intros Hn Hk Hw Ht. rewrite (p2p_y_same_w 3 ps s t n Hw), p2p_residual_identity_3d.
  cbn [xtrue3]. rewrite (Ht 0%nat), (Ht 1%nat), (Ht 2%nat) by lia.
  eapply Rle_trans; [apply unit_dot_le_3; exact Hn|].
  eapply Rle_trans; [|apply (rodrigues_remainder_le k theta (vg s) Hk)].
  apply Req_le. unfold sq3, cross. ring.
Qed.

(* exact-motion data: unit normals, stored coordinates, targets = R(theta) source + tau *)
Definition exact_motion_2d (theta : R) (tau : nat -> R) (ps : nat) (triples : list ((list R * list R) * list R)) : Prop :=
  forall r, (r < length triples)%nat ->
    sq2 (vg (tnrm triples r)) = 1 /\ same_w 2 ps (tsrc triples r) (ttgt triples r) /\
    (forall c, (c < 2)%nat -> vg (ttgt triples r) c = rot2 theta (vg (tsrc triples r)) c + tau c).

Definition exact_motion_3d (theta : R) (k tau : nat -> R) (ps : nat) (triples : list ((list R * list R) * list R)) : Prop :=
  forall r, (r < length triples)%nat ->
    sq3 (vg (tnrm triples r)) = 1 /\ same_w 3 ps (tsrc triples r) (ttgt triples r) /\
    (forall c, (c < 3)%nat -> vg (ttgt triples r) c = rodrigues k theta (vg (tsrc triples r)) c + tau c).

(* every solution z of the normal equations of the linearised problem built from exact-motion data:
   |J (z - x_true)|^2 <= theta^4/4 sum_i |s_i|^2 *)
Theorem p2p_rotation_second_order_2d theta tau ps triples (z : nat -> R) :
  exact_motion_2d theta tau ps triples ->
  (forall i, (i < 3)%nat -> grad (length triples) 3 (Jp 2 triples) (Yp ps triples) z i = 0) ->
  Rsum (length triples) (fun r => (Rsum 3 (fun a => Jp 2 triples r a * (z a - xtrue2 tau theta a))) ^ 2)
  <= theta ^ 4 / 4 * Rsum (length triples) (fun r => sq2 (vg (tsrc triples r))).
Proof.
  intros Hm Hz. apply (Jerr_le_of_row_residuals 2 ps triples z _ _ (fun s => sq2 (vg s))); [|exact Hz]. intros r Hr.
  destruct (Hm r Hr) as (Hn & Hw & Ht). now apply p2p_true_residual_2d.
Qed.

Theorem p2p_rotation_second_order_3d theta k tau ps triples (z : nat -> R) :
  sq3 k = 1 -> exact_motion_3d theta k tau ps triples ->
  (forall i, (i < 6)%nat -> grad (length triples) 6 (Jp 3 triples) (Yp ps triples) z i = 0) ->
  Rsum (length triples) (fun r => (Rsum 6 (fun a => Jp 3 triples r a * (z a - xtrue3 tau k theta a))) ^ 2)
  <= theta ^ 4 / 4 * Rsum (length triples) (fun r => sq3 (vg (tsrc triples r))).
Proof.
  intros Hk Hm Hz. apply (Jerr_le_of_row_residuals 3 ps triples z _ _ (fun s => sq3 (vg s))); [|exact Hz]. intros r Hr.
  destruct (Hm r Hr) as (Hn & Hw & Ht). now apply p2p_true_residual_3d.
Qed.

(* end to end: the estimate returned by the modelled estimator, 2D and 3D *)
Section EndToEnd.
Variable inverse_of : nat -> list (list R) -> list (list R).
Variable svd_of : nat -> list (list R) -> (list (list R) * list R) * list (list R).
Variable fill : R.
Variables (d ps : nat) (triples : list ((list R * list R) * list R)).
Hypothesis Hd : (d = 2 \/ d = 3)%nat.
Hypothesis Hn : (1 <= length triples)%nat.

Theorem p2p_estimate_normal_solution (P : (nat -> R) -> Prop) (st st2 : ls_state (T:=R)) (H : list (list R)) :
  ready (p2p_k d) st ->
  (forall z, (forall i, (i < p2p_k d)%nat -> grad (length triples) (p2p_k d) (Jp d triples) (Yp ps triples) z i = 0) -> P z) ->
  p2p_estimate ROps inverse_of svd_of fill true d ps triples st = Some (st2, H) ->
  exists st1 x,
    p2p_load ROps inverse_of svd_of fill true d ps triples st = Some st1 /\
    ls_estimate_svd ROps svd_of st1 = Some (st2, x) /\ H = p2p_scatter ROps d x /\
    (svd_contract (p2p_k d) (ls_JtJ ROps st1) (svd_of (p2p_k d) (ls_JtJ ROps st1)) -> svd_all_above svd_of st1 ->
     let z := ls_z st1 (svd_pinv ROps (p2p_k d) (svd_thr svd_of st1) (svd_of (p2p_k d) (ls_JtJ ROps st1))) in
     (forall i, (i < p2p_k d)%nat ->
        vg x i = Rsum (p2p_k d) (fun l => mget ROps (ls_A st) i l * z l) + vg (ls_b st) i) /\
     P z).
Proof.
  intros Hr HP He.
  destruct (p2p_estimate_correct inverse_of svd_of fill d ps triples st st2 H Hd Hr Hn He) as (st1 & x & El & Es & EH & Hrest).
  exists st1, x. repeat (split; [assumption|]). intros Hc Hab.
  destruct (Hrest Hc Hab) as (P1 & P2 & _). split; [exact P1|exact (HP _ P2)].
Qed.

(* a freshly constructed estimator has no preconditioner: Ac = I, Bc = 0 *)
Lemma fresh_affine (z : nat -> R) i : (i < p2p_k d)%nat ->
  Rsum (p2p_k d) (fun l => mget ROps (ls_A (p2p_new ROps d)) i l * z l) + vg (ls_b (p2p_new ROps d)) i = z i.
Proof.
  intros Hi. cbn [p2p_new ls_set_estimate_size ls_A ls_b]. unfold midentity, vzero. rewrite vget_tab by exact Hi.
  rewrite (Rsum_ext _ _ (fun l => delta i l * z l)) by (intros l Hl; now rewrite mget_mtab, fid_delta).
  rewrite Rsum_delta_l' by exact Hi. rsimpl. lra.
Qed.

Theorem p2p_fresh_estimate_bound (xt : nat -> R) (C : R) (st2 : ls_state (T:=R)) (H : list (list R)) :
  (forall z, (forall i, (i < p2p_k d)%nat -> grad (length triples) (p2p_k d) (Jp d triples) (Yp ps triples) z i = 0) ->
     Rsum (length triples) (fun r => (Rsum (p2p_k d) (fun a => Jp d triples r a * (z a - xt a))) ^ 2) <= C) ->
  p2p_estimate ROps inverse_of svd_of fill true d ps triples (p2p_new ROps d) = Some (st2, H) ->
  exists st1 x,
    p2p_load ROps inverse_of svd_of fill true d ps triples (p2p_new ROps d) = Some st1 /\ H = p2p_scatter ROps d x /\
    (svd_contract (p2p_k d) (ls_JtJ ROps st1) (svd_of (p2p_k d) (ls_JtJ ROps st1)) -> svd_all_above svd_of st1 ->
     Rsum (length triples) (fun r => (Rsum (p2p_k d) (fun a => Jp d triples r a * (vg x a - xt a))) ^ 2) <= C).
Proof.
  intros HP He.
  destruct (p2p_estimate_normal_solution _ _ st2 H (ready_new1 ROps (p2p_k d)) HP He) as (st1 & x & El & _ & EH & Hrest).
  exists st1, x. repeat (split; [assumption|]). intros Hc Hab. destruct (Hrest Hc Hab) as (P1 & P2).
  erewrite Rsum_ext; [exact P2|]. intros r _. cbv beta. f_equal. apply Rsum_ext. intros a Ha.
  now rewrite (P1 a Ha), fresh_affine.
Qed.

End EndToEnd.
