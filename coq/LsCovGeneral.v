(* LsCovGeneral.v — C12, least-squares sentence for an ARBITRARY configured preconditioner (the code from commit 870e444 on):
   the reported matrix is variance * A * inv * A^T; with the oracle contract inv * (J^T J) = I and any left inverse B of A
   (B * A = I), stripping the preconditioner gives the data variance times the inverse normal matrix:
       (B * cov * B^T) * (J^T J) = variance * I .
   Neither symmetry nor diagonality of A is needed. *)
From Coq Require Import Reals ZArith Lra Lia Arith Bool.
From Romea Require Import Num NumR AnglesModel AnglesProofs AnglesRoundtrip PoseCovModel PoseCovProofs PoseJacProofs LsCovContract.
Local Open Scope R_scope.

Definition delta (i k : nat) : R := if Nat.eqb i k then 1 else 0.

Local Notation gm := (gmul ROps).

(* B * (A * X * A^T) * B^T = X when B * A = I *)
Lemma strip_preconditioner n (a b x : mat R) :
  (forall i s, (i < n)%nat -> (s < n)%nat -> gm n b a i s = delta i s) ->
  forall i j, (i < n)%nat -> (j < n)%nat ->
    gm n (gm n b (gm n (gm n a x) (gtrans a))) (gtrans b) i j = x i j.
Proof.
  intros HB i j Hi Hj.
  (* = ((B A) X) (B A)^T *)
  transitivity (gm n (gm n (gm n b a) x) (gtrans (gm n b a)) i j).
  - transitivity (gm n (gm n (gm n (gm n b a) x) (gtrans a)) (gtrans b) i j).
    + apply gmul_ext; [|reflexivity]. intros k Hk.
      rewrite <- gmul_assoc. apply gmul_ext; [|reflexivity]. intros l Hl. rewrite <- gmul_assoc. reflexivity.
    + rewrite gmul_assoc. apply gmul_ext; [reflexivity|]. intros k Hk. rewrite gtrans_gmul. reflexivity.
  - rewrite gmul_id_r; [|assumption|intros s Hs; unfold gtrans; rewrite Nat.eqb_sym; apply HB; assumption].
    rewrite gmul_id_l; [reflexivity|assumption|intros s Hs; apply HB; assumption].
Qed.

Lemma ls_covariance_inverse_normal_general m n (jac a b inv : mat R) v :
  (forall i s, (i < n)%nat -> (s < n)%nat -> gm n b a i s = delta i s) ->
  ls_inv_contract n inv (ls_JtJ ROps m n jac) ->
  forall i k, (i < n)%nat -> (k < n)%nat ->
    gm n (gm n (gm n b (ls_covariance ROps n a inv v)) (gtrans b)) (ls_JtJ ROps m n jac) i k = if Nat.eqb i k then v else 0.
Proof.
  intros HB Hc i k Hi Hk.
  rewrite gmul_unfold.
  transitivity (rsum n (fun j => v * (inv i j * ls_JtJ ROps m n jac j k))).
  - apply rsum_ext. intros j Hj.
    replace (gm n (gm n b (ls_covariance ROps n a inv v)) (gtrans b) i j) with (v * inv i j); [ring|].
    rewrite <- (strip_preconditioner n a b inv HB i j Hi Hj).
    rewrite (gmul_unfold n (gm n b (ls_covariance ROps n a inv v))), (gmul_unfold n (gm n b (gm n (gm n a inv) (gtrans a)))).
    rewrite <- rsum_scal. apply rsum_ext. intros q Hq.
    rewrite !gmul_unfold. rewrite <- Rmult_assoc, <- rsum_scal. f_equal.
    apply rsum_ext. intros p Hp.
    unfold ls_covariance, gscale. change (gmul ROps) with gm. change (nmul ROps) with Rmult. ring.
  - rewrite rsum_scal, (Hc i k Hi Hk). destruct (Nat.eqb i k); ring.
Qed.

(* witness: two unknowns, J = I, a shear preconditioner A = [[1,1],[0,1]] with inverse B = [[1,-1],[0,1]] *)
Definition ex_shear : mat R := fun i j => match i, j with 1%nat, 0%nat => 0 | _, _ => 1 end.
Definition ex_shear_inv : mat R := fun i j => match i, j with 0%nat, 1%nat => -1 | 1%nat, 0%nat => 0 | _, _ => 1 end.
Lemma ex_ls_general_contract :
  (forall i s, (i < 2)%nat -> (s < 2)%nat -> gm 2 ex_shear_inv ex_shear i s = delta i s) /\
  ls_inv_contract 2 (fun i j => delta i j) (ls_JtJ ROps 2 2 (fun i j => delta i j)) /\
  ex_shear 0%nat 1%nat <> ex_shear 1%nat 0%nat.
Proof.
  split; [|split].
  - intros i s Hi Hs. destruct i as [|[|i]]; destruct s as [|[|s]]; try lia; unfold gmul, ex_shear, ex_shear_inv, delta; cbn; lra.
  - intros i k Hi Hk. destruct i as [|[|i]]; destruct k as [|[|k]]; try lia; unfold ls_JtJ, delta; cbn; lra.
  - unfold ex_shear. lra.
Qed.
