(* SrcTieLs.v — base of the syntactic source tie of LeastSquares<RealType> (gen/SrcLs.v, translate/tr_C07_ls.py): the reading [abs] of the
   generated record of data members as the state of LsModel.v, the shapes the class keeps ([src_dims]), the products with known
   shapes, and the tie of computeEstimateCovariance (used by C12 on its own, so that a member function of the class that can no
   longer be translated breaks the C07 tie only).  The rest of the tie is SrcTieC07.v. *)
From Coq Require Import List Arith Bool Lia ZArith.
From Romea Require Import Num LinAlgBModel LinAlgBProofs LsModel SrcEigenDyn SrcEigenDynFacts.
From Romea.gen Require Import SrcLs.
Import ListNotations.

Section TieBase.
Context {T : Type} (N : NumOps T).
Implicit Types (s : src_ls (T:=T)).

(* the generated record read as the model's state *)
Definition abs (s : src_ls (T:=T)) : ls_state (T:=T) :=
  mk_ls (dataSize_ s) (estimateSize_ s) (dm_rows (Ac_ s)) (Bc_ s) (dm_cols (J_ s)) (dm_rows (J_ s)) (Y_ s) (W_ s)
        (dm_rows (inverseJtJ_ s)).

Definition src_dims (s : src_ls (T:=T)) : Prop :=
  let k := estimateSize_ s in
  dm_nrows (Ac_ s) = k /\ dm_cols (Ac_ s) = k /\ dm_cols (inverseJtJ_ s) = k /\ dm_shape k k (JtJ_ s) /\ length (JtY_ s) = k.

(* products with known shapes are the model's products *)
Lemma dm_mul_eq A B n q m : dm_nrows A = n -> dm_cols A = q -> dm_cols B = m ->
  dm_mul N A B = mkdm m (mmul N n q m (dm_rows A) (dm_rows B)).
Proof. intros <- <- <-. reflexivity. Qed.
Lemma dm_mulv_eq A (v : list T) n q : dm_nrows A = n -> dm_cols A = q -> dm_mulv N A v = mvmul N n q (dm_rows A) v.
Proof. intros <- <-. reflexivity. Qed.
Lemma dv_add_eq (u v : list T) n : length u = n -> dv_add N u v = vadd N n u v.
Proof. intros <-. reflexivity. Qed.
Lemma dm_transpose_eq A n m : dm_nrows A = n -> dm_cols A = m -> dm_transpose N A = mkdm n (mtrans N n m (dm_rows A)).
Proof. intros <- <-. reflexivity. Qed.

(* computeEstimateCovariance:  Ac_ * inverseJtJ_ * Ac_^T * dataVariance *)
Lemma tie_covariance var s : src_dims s ->
  src_computeEstimateCovariance N var s = (s, mkdm (estimateSize_ s) (ls_covariance N (abs s) var)).
Proof.
  intros (H1 & H2 & H3 & _ & _). unfold src_computeEstimateCovariance, ls_covariance. f_equal. cbn [abs ls_k ls_A ls_inv].
  rewrite (dm_mul_eq _ _ _ _ _ H1 H2 H3). rewrite (dm_transpose_eq _ _ _ H1 H2).
  rewrite (dm_mul_eq _ _ (estimateSize_ s) (estimateSize_ s) (estimateSize_ s)); [|unfold dm_nrows; cbn; apply length_mtab|reflexivity|reflexivity].
  unfold dm_scale, dm_nrows; cbn [dm_rows dm_cols]. unfold mmul at 1. rewrite length_mtab. reflexivity.
Qed.

End TieBase.
