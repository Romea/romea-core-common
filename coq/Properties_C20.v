(* Properties_C20.v — C20: bounding volumes, intervals and point-set extents enclose exactly what they should.
   The statements; long proofs are in BoxProofs.v (reals), BoxFloat.v (floating point) and SrcTieC20.v (source tie).
   [v.[i]] is [nth i v 0]; vectors are lists of reals, point sets are lists of vectors. *)
From Coq Require Import Reals ZArith List Bool Lra Lia.
From Flocq Require Import Core.
From Romea Require Import Num NumR BoxModel BoxProofs BoxLits GridMapFloat BoxFloat SrcTieC20.
From Romea.gen Require Import SrcBoxes.
Import ListNotations.
Local Open Scope R_scope.

(* --- an axis-aligned box built from an interval reproduces that interval (any dimension) --- *)
Theorem C20_aabb_interval_roundtrip : forall lo hi : list R, length lo = length hi ->
  aabb_to_interval ROps (aabb_of_interval ROps {| i_lower := lo; i_upper := hi |}) = {| i_lower := lo; i_upper := hi |}.
Proof. exact aabb_interval_roundtrip. Qed.
Print Assumptions C20_aabb_interval_roundtrip.

Theorem C20_aabb_to_interval : forall (c h : list R) i, length c = length h -> (i < length c)%nat ->
  (i_lower (aabb_to_interval ROps {| a_center := c; a_half := h |})).[i] = c.[i] - h.[i] /\
  (i_upper (aabb_to_interval ROps {| a_center := c; a_half := h |})).[i] = c.[i] + h.[i].
Proof. intros c h i H Hi. cbn. unfold vsub, vadd. rewrite !map2_nth by auto. auto. Qed.

(* --- containment: exactly when every coordinate lies within centre +- half-extent (closed) --- *)
Theorem C20_aabb_inside_iff : forall c h p : list R, length c = length h -> length p = length c ->
  (aabb_inside ROps {| a_center := c; a_half := h |} p = true <->
   forall i, (i < length c)%nat -> c.[i] - h.[i] <= p.[i] <= c.[i] + h.[i]).
Proof. exact aabb_inside_iff. Qed.
Print Assumptions C20_aabb_inside_iff.

(* --- interval union is the componentwise hull; membership is closed --- *)
Theorem C20_include_is_hull : forall (lo1 hi1 lo2 hi2 : list R) i,
  length lo1 = length lo2 -> length hi1 = length hi2 -> (i < length lo1)%nat -> (i < length hi1)%nat ->
  let u := interval_include ROps {| i_lower := lo1; i_upper := hi1 |} {| i_lower := lo2; i_upper := hi2 |} in
  (i_lower u).[i] = Rmin lo1.[i] lo2.[i] /\ (i_upper u).[i] = Rmax hi1.[i] hi2.[i].
Proof. exact include_is_hull. Qed.
Print Assumptions C20_include_is_hull.

Theorem C20_interval_inside_iff : forall lo hi v : list R, length lo = length v -> length hi = length v ->
  (interval_inside ROps {| i_lower := lo; i_upper := hi |} v = true <->
   forall i, (i < length v)%nat -> lo.[i] <= v.[i] <= hi.[i]).
Proof. exact interval_inside_iff. Qed.

Theorem C20_include_encloses_and_is_minimal : forall lo1 hi1 lo2 hi2 : list R,
  length lo1 = length lo2 -> length hi1 = length hi2 -> length lo1 = length hi1 ->
  let u := interval_include ROps {| i_lower := lo1; i_upper := hi1 |} {| i_lower := lo2; i_upper := hi2 |} in
  (forall v, length v = length lo1 ->
     interval_inside ROps {| i_lower := lo1; i_upper := hi1 |} v = true \/
     interval_inside ROps {| i_lower := lo2; i_upper := hi2 |} v = true -> interval_inside ROps u v = true) /\
  (forall lo hi, length lo = length lo1 -> length hi = length lo1 ->
     (forall i, (i < length lo1)%nat -> lo.[i] <= lo1.[i] /\ lo.[i] <= lo2.[i] /\ hi1.[i] <= hi.[i] /\ hi2.[i] <= hi.[i]) ->
     forall i, (i < length lo1)%nat -> lo.[i] <= (i_lower u).[i] /\ (i_upper u).[i] <= hi.[i]).
Proof. exact include_encloses_minimal. Qed.
Print Assumptions C20_include_encloses_and_is_minimal.

(* --- min / max / mean of a container: true componentwise extrema and centroid, for every non-empty list of
       points of size n with finite coordinates (|x| <= numeric_limits::max()) --- *)
Theorem C20_container_min_max_mean_correct : forall n (pts : list (list R)),
  pts <> [] -> Forall (fun p => length p = n) pts -> bounded pts ->
  forall i, (i < n)%nat ->
    is_min (coords pts i) (cont_min ROps n pts).[i] /\
    is_max (coords pts i) (cont_max ROps n pts).[i] /\
    (cont_mean ROps n pts).[i] = Rsum (coords pts i) / INR (length pts).
Proof.
  intros n pts Hne Hf Hb i Hi. destruct (running_extents n pts i _ Hne Hf Hi Hb) as [A B].
  split; [exact A|]. split; [exact B|]. apply mean_correct; assumption.
Qed.
Print Assumptions C20_container_min_max_mean_correct.

(* --- PointSetPreconditioner::compute --- *)
(* the code of the snapshot (running maximum started from numeric_limits::min(), the smallest positive normal):
   false on the all-negative set (-3,-4),(-1,-2): the reported maximum is not a coordinate of any point and the scale
   is not the reciprocal of the largest side (2).  Replayed on the implementation by checks/C20.py. *)
Theorem C20_preconditioner_extents_correct_minpos_refuted :
  exists pts : list (list R), pts <> [] /\ Forall (fun p => length p = 2%nat) pts /\ bounded pts /\
    let pc := precond_compute_minpos ROps 2 2 pts in
    ~ is_max (coords pts 0) (pc_max pc).[0%nat] /\
    (exists L, is_max [ -1 - -3; -2 - -4 ] L /\ 0 < L /\ pc_scale pc <> / L).
Proof. exact precond_minpos_refuted. Qed.
Print Assumptions C20_preconditioner_extents_correct_minpos_refuted.

(* what a running maximum started from an arbitrary value m0 reports: max(m0, true maximum) *)
Theorem C20_preconditioner_max_characterised : forall m0 size cdim (pts : list (list R)) i,
  Forall (fun p => length p = size) pts -> (i < size)%nat ->
  (pc_max (precond_with ROps m0 size cdim pts)).[i] = fold_left Rmax (coords pts i) m0.
Proof. intros m0 size cdim pts i Hf Hi. cbn. rewrite running_fold by assumption. apply fold_nmax2. Qed.

(* with the running maximum started from lowest() = -max(): extents, centroid, scale = 1 / largest side
   (when that side is > 0) and translation = -centroid * scale, for every non-empty set *)
Theorem C20_preconditioner_extents_correct : forall size cdim (pts : list (list R)),
  pts <> [] -> (0 < size)%nat -> (cdim <= size)%nat -> Forall (fun p => length p = size) pts -> bounded pts ->
  let pc := precond_compute ROps size cdim pts in
  (forall i, (i < size)%nat ->
     is_min (coords pts i) (pc_min pc).[i] /\ is_max (coords pts i) (pc_max pc).[i] /\
     (pc_mean pc).[i] = Rsum (coords pts i) / INR (length pts)) /\
  (exists L, is_max (map (fun i => (pc_max pc).[i] - (pc_min pc).[i]) (seq 0 size)) L /\
             (0 < L -> pc_scale pc = / L)) /\
  (forall j, (j < cdim)%nat -> (pc_translation pc).[j] = - (pc_mean pc).[j] * pc_scale pc).
Proof. exact precond_lowest_correct. Qed.
Print Assumptions C20_preconditioner_extents_correct.

(* --- oriented boxes, 2D and 3D (the instantiated dimensions).  [orthogonal2/3]: R R^T = I and R^T R = I, which every
       proper rotation satisfies (C20_ex_rotation2, C20_ex_rotation3_z, C20_ex_rotation3_perm). --- *)

(* containment = the point expressed in the box frame, R^T (p - c), lies within +- half extents (closed) *)
Theorem C20_obb_inside_iff_2d : forall c0 c1 h0 h1 r00 r01 r10 r11 p0 p1 : R,
  obb_inside ROps {| o_center := [c0; c1]; o_half := [h0; h1]; o_rot := [[r00; r01]; [r10; r11]] |} [p0; p1] = true <->
  Rabs (r00 * (p0 - c0) + r10 * (p1 - c1)) <= h0 /\ Rabs (r01 * (p0 - c0) + r11 * (p1 - c1)) <= h1.
Proof. exact obb2_inside_frame. Qed.
Print Assumptions C20_obb_inside_iff_2d.

(* ... which, for a rotation, is membership in the rotated and translated box {c + R q : |q_j| <= h_j} *)
Theorem C20_obb_inside_is_rigid_image_2d : forall c0 c1 h0 h1 r00 r01 r10 r11 p0 p1 : R,
  orthogonal2 r00 r01 r10 r11 ->
  (obb_inside ROps {| o_center := [c0; c1]; o_half := [h0; h1]; o_rot := [[r00; r01]; [r10; r11]] |} [p0; p1] = true <->
   exists q0 q1, Rabs q0 <= h0 /\ Rabs q1 <= h1 /\ p0 = c0 + (r00 * q0 + r01 * q1) /\ p1 = c1 + (r10 * q0 + r11 * q1)).
Proof. exact obb2_inside_geometric. Qed.
Print Assumptions C20_obb_inside_is_rigid_image_2d.

Theorem C20_obb_to_aabb_encloses_2d : forall c0 c1 h0 h1 r00 r01 r10 r11 p0 p1 : R,
  orthogonal2 r00 r01 r10 r11 ->
  let o := {| o_center := [c0; c1]; o_half := [h0; h1]; o_rot := [[r00; r01]; [r10; r11]] |} in
  obb_inside ROps o [p0; p1] = true -> aabb_inside ROps (obb_to_aabb ROps o) [p0; p1] = true.
Proof. exact obb2_to_aabb_encloses. Qed.
Print Assumptions C20_obb_to_aabb_encloses_2d.

(* tight: each of the four faces x = c0 +- e0, y = c1 +- e1 of the derived box is touched by a corner c + R(+-h0, +-h1),
   and the corners belong to the oriented box *)
Theorem C20_obb_to_aabb_tight_2d : forall c0 c1 h0 h1 r00 r01 r10 r11 : R, 0 <= h0 -> 0 <= h1 ->
  let o := {| o_center := [c0; c1]; o_half := [h0; h1]; o_rot := [[r00; r01]; [r10; r11]] |} in
  let e0 := (a_half (obb_to_aabb ROps o)).[0%nat] in let e1 := (a_half (obb_to_aabb ROps o)).[1%nat] in
  let corner := corner2 c0 c1 h0 h1 r00 r01 r10 r11 in
  (exists p0 p1, corner p0 p1 /\ p0 = c0 + e0) /\ (exists p0 p1, corner p0 p1 /\ p0 = c0 - e0) /\
  (exists p0 p1, corner p0 p1 /\ p1 = c1 + e1) /\ (exists p0 p1, corner p0 p1 /\ p1 = c1 - e1).
Proof. exact obb2_to_aabb_tight. Qed.
Print Assumptions C20_obb_to_aabb_tight_2d.

Theorem C20_obb_corners_belong_2d : forall c0 c1 h0 h1 r00 r01 r10 r11 p0 p1 : R,
  0 <= h0 -> 0 <= h1 -> orthogonal2 r00 r01 r10 r11 -> corner2 c0 c1 h0 h1 r00 r01 r10 r11 p0 p1 ->
  obb_inside ROps {| o_center := [c0; c1]; o_half := [h0; h1]; o_rot := [[r00; r01]; [r10; r11]] |} [p0; p1] = true.
Proof.
  intros c0 c1 h0 h1 r00 r01 r10 r11 p0 p1 H0 H1 Ho Hc.
  apply obb2_inside_geometric; [exact Ho|]. apply corner2_in_obb; assumption.
Qed.

Theorem C20_obb_inside_iff_3d : forall c0 c1 c2 h0 h1 h2 r00 r01 r02 r10 r11 r12 r20 r21 r22 p0 p1 p2 : R,
  obb_inside ROps {| o_center := [c0; c1; c2]; o_half := [h0; h1; h2];
                     o_rot := [[r00; r01; r02]; [r10; r11; r12]; [r20; r21; r22]] |} [p0; p1; p2] = true <->
  Rabs (r00 * (p0 - c0) + r10 * (p1 - c1) + r20 * (p2 - c2)) <= h0 /\
  Rabs (r01 * (p0 - c0) + r11 * (p1 - c1) + r21 * (p2 - c2)) <= h1 /\
  Rabs (r02 * (p0 - c0) + r12 * (p1 - c1) + r22 * (p2 - c2)) <= h2.
Proof. exact obb3_inside_frame. Qed.
Print Assumptions C20_obb_inside_iff_3d.

Theorem C20_obb_inside_is_rigid_image_3d : forall c0 c1 c2 h0 h1 h2 r00 r01 r02 r10 r11 r12 r20 r21 r22 p0 p1 p2 : R,
  orthogonal3 r00 r01 r02 r10 r11 r12 r20 r21 r22 ->
  (obb_inside ROps {| o_center := [c0; c1; c2]; o_half := [h0; h1; h2];
                      o_rot := [[r00; r01; r02]; [r10; r11; r12]; [r20; r21; r22]] |} [p0; p1; p2] = true <->
   exists q0 q1 q2, Rabs q0 <= h0 /\ Rabs q1 <= h1 /\ Rabs q2 <= h2 /\
     p0 = c0 + (r00 * q0 + r01 * q1 + r02 * q2) /\ p1 = c1 + (r10 * q0 + r11 * q1 + r12 * q2) /\
     p2 = c2 + (r20 * q0 + r21 * q1 + r22 * q2)).
Proof. exact obb3_inside_geometric. Qed.
Print Assumptions C20_obb_inside_is_rigid_image_3d.

Theorem C20_obb_to_aabb_encloses_3d : forall c0 c1 c2 h0 h1 h2 r00 r01 r02 r10 r11 r12 r20 r21 r22 p0 p1 p2 : R,
  orthogonal3 r00 r01 r02 r10 r11 r12 r20 r21 r22 ->
  let o := {| o_center := [c0; c1; c2]; o_half := [h0; h1; h2];
              o_rot := [[r00; r01; r02]; [r10; r11; r12]; [r20; r21; r22]] |} in
  obb_inside ROps o [p0; p1; p2] = true -> aabb_inside ROps (obb_to_aabb ROps o) [p0; p1; p2] = true.
Proof. exact obb3_to_aabb_encloses. Qed.
Print Assumptions C20_obb_to_aabb_encloses_3d.

Theorem C20_obb_to_aabb_tight_3d : forall c0 c1 c2 h0 h1 h2 r00 r01 r02 r10 r11 r12 r20 r21 r22 : R,
  0 <= h0 -> 0 <= h1 -> 0 <= h2 ->
  let o := {| o_center := [c0; c1; c2]; o_half := [h0; h1; h2];
              o_rot := [[r00; r01; r02]; [r10; r11; r12]; [r20; r21; r22]] |} in
  let e0 := (a_half (obb_to_aabb ROps o)).[0%nat] in let e1 := (a_half (obb_to_aabb ROps o)).[1%nat] in
  let e2 := (a_half (obb_to_aabb ROps o)).[2%nat] in
  let corner := corner3 c0 c1 c2 h0 h1 h2 r00 r01 r02 r10 r11 r12 r20 r21 r22 in
  (exists p0 p1 p2, corner p0 p1 p2 /\ p0 = c0 + e0) /\ (exists p0 p1 p2, corner p0 p1 p2 /\ p0 = c0 - e0) /\
  (exists p0 p1 p2, corner p0 p1 p2 /\ p1 = c1 + e1) /\ (exists p0 p1 p2, corner p0 p1 p2 /\ p1 = c1 - e1) /\
  (exists p0 p1 p2, corner p0 p1 p2 /\ p2 = c2 + e2) /\ (exists p0 p1 p2, corner p0 p1 p2 /\ p2 = c2 - e2).
Proof. exact obb3_to_aabb_tight. Qed.
Print Assumptions C20_obb_to_aabb_tight_3d.

Theorem C20_obb_corners_belong_3d : forall c0 c1 c2 h0 h1 h2 r00 r01 r02 r10 r11 r12 r20 r21 r22 p0 p1 p2 : R,
  0 <= h0 -> 0 <= h1 -> 0 <= h2 -> orthogonal3 r00 r01 r02 r10 r11 r12 r20 r21 r22 ->
  corner3 c0 c1 c2 h0 h1 h2 r00 r01 r02 r10 r11 r12 r20 r21 r22 p0 p1 p2 ->
  obb_inside ROps {| o_center := [c0; c1; c2]; o_half := [h0; h1; h2];
                     o_rot := [[r00; r01; r02]; [r10; r11; r12]; [r20; r21; r22]] |} [p0; p1; p2] = true.
Proof.
  intros c0 c1 c2 h0 h1 h2 r00 r01 r02 r10 r11 r12 r20 r21 r22 p0 p1 p2 H0 H1 H2 Ho Hc.
  apply obb3_inside_geometric; [exact Ho|]. apply corner3_in_obb; assumption.
Qed.

(* --- oriented box -> axis-aligned box in ANY dimension, with the oriented box read as the point set
       { c + R q : |q_j| <= h_j } (= what isInside accepts for 2D/3D rotations, theorems ..._is_rigid_image_2d/3d);
       no orthogonality needed: every such point is inside the derived box, and for every axis i some corner
       q in {+-h} puts coordinate i on the face c_i + e_i and the opposite corner on c_i - e_i. --- *)
Theorem C20_obb_to_aabb_encloses : forall (c h : list R) (Rm : list (list R)) q,
  length Rm = length c -> Forall2 (fun q h => Rabs q <= h) q h ->
  aabb_inside ROps (obb_to_aabb ROps {| o_center := c; o_half := h; o_rot := Rm |}) (vadd ROps c (mul_vec ROps Rm q)) = true.
Proof. exact obb_image_in_aabb. Qed.
Print Assumptions C20_obb_to_aabb_encloses.

Theorem C20_obb_to_aabb_tight : forall (c h : list R) (Rm : list (list R)) i,
  length Rm = length c -> (i < length c)%nat -> Forall (fun x => 0 <= x) h ->
  let e := (a_half (obb_to_aabb ROps {| o_center := c; o_half := h; o_rot := Rm |})).[i] in
  exists q, Forall2 (fun q h => q = h \/ q = - h) q h /\
    (vadd ROps c (mul_vec ROps Rm q)).[i] = c.[i] + e /\
    (vadd ROps c (mul_vec ROps Rm (map Ropp q))).[i] = c.[i] - e.
Proof. exact obb_aabb_face_touched. Qed.
Print Assumptions C20_obb_to_aabb_tight.

(* ====================================================================================================================
   SYNTACTIC SOURCE TIE.  gen/SrcBoxes.v is regenerated on every run by translate/tr_C20_boxes.py from the clang AST of the
   class templates instantiated at Scalar = double, DIM = 2 and 3 (per-axis scalar reading of the Eigen expressions; the loop
   over the points is one fold over the list).  The generated terms equal the BoxModel.v functions all theorems above are
   about — for EVERY numeric dictionary satisfying the literal laws NumLits (0, 1, 2. are nzero, n_one, ntwo; + and *
   commute): the reals (C20_ex_lits_R) and the rounded binary64 / binary32 dictionaries (C20_ex_lits_binary64/32), so the
   floating-point theorems below are about the source's operation sequence as well.
   Signature of a generated term: parameters flattened in declaration order, then the data members in declaration order.
   ==================================================================================================================== *)
Theorem C20_source_tie_aabb_constructors : forall T (N : NumOps T), NumLits N ->
  (forall c0 c1 h0 h1 : T, aabb2 (src_aabb_ctor_2 c0 c1 h0 h1) = {| a_center := [c0; c1]; a_half := [h0; h1] |}) /\
  (forall c0 c1 c2 h0 h1 h2 : T,
     aabb3 (src_aabb_ctor_3 c0 c1 c2 h0 h1 h2) = {| a_center := [c0; c1; c2]; a_half := [h0; h1; h2] |}) /\
  (forall l0 l1 u0 u1, aabb2 (src_aabb_of_interval_2 N l0 l1 u0 u1) =
     aabb_of_interval N {| i_lower := [l0; l1]; i_upper := [u0; u1] |}) /\
  (forall l0 l1 l2 u0 u1 u2, aabb3 (src_aabb_of_interval_3 N l0 l1 l2 u0 u1 u2) =
     aabb_of_interval N {| i_lower := [l0; l1; l2]; i_upper := [u0; u1; u2] |}).
Proof.
  exact (fun T N L => conj (@tie_aabb_ctor_2 T) (conj (@tie_aabb_ctor_3 T)
                      (conj (tie_aabb_of_interval_2 N L) (tie_aabb_of_interval_3 N L)))).
Qed.
Print Assumptions C20_source_tie_aabb_constructors.

Theorem C20_source_tie_aabb_isInside : forall T (N : NumOps T), NumLits N ->
  (forall p0 p1 c0 c1 h0 h1,
     src_aabb_isInside_2 N p0 p1 c0 c1 h0 h1 = aabb_inside N {| a_center := [c0; c1]; a_half := [h0; h1] |} [p0; p1]) /\
  (forall p0 p1 p2 c0 c1 c2 h0 h1 h2,
     src_aabb_isInside_3 N p0 p1 p2 c0 c1 c2 h0 h1 h2 =
     aabb_inside N {| a_center := [c0; c1; c2]; a_half := [h0; h1; h2] |} [p0; p1; p2]).
Proof. exact (fun T N L => conj (tie_aabb_isInside_2 N L) (tie_aabb_isInside_3 N L)). Qed.
Print Assumptions C20_source_tie_aabb_isInside.

Theorem C20_source_tie_aabb_toInterval_getters : forall T (N : NumOps T), NumLits N ->
  (forall c0 c1 h0 h1, ival2 (src_aabb_toInterval_2 N c0 c1 h0 h1) =
     aabb_to_interval N {| a_center := [c0; c1]; a_half := [h0; h1] |}) /\
  (forall c0 c1 c2 h0 h1 h2, ival3 (src_aabb_toInterval_3 N c0 c1 c2 h0 h1 h2) =
     aabb_to_interval N {| a_center := [c0; c1; c2]; a_half := [h0; h1; h2] |}) /\
  (forall c0 c1 h0 h1 : T, vec2 (src_aabb_getCenterPosition_2 c0 c1 h0 h1) = [c0; c1] /\
                           vec2 (src_aabb_getHalfWidthExtents_2 c0 c1 h0 h1) = [h0; h1]) /\
  (forall c0 c1 c2 h0 h1 h2 : T, vec3 (src_aabb_getCenterPosition_3 c0 c1 c2 h0 h1 h2) = [c0; c1; c2] /\
                                 vec3 (src_aabb_getHalfWidthExtents_3 c0 c1 c2 h0 h1 h2) = [h0; h1; h2]).
Proof.
  exact (fun T N L => conj (tie_aabb_toInterval_2 N L) (conj (tie_aabb_toInterval_3 N L)
                      (conj (@tie_aabb_getters_2 T) (@tie_aabb_getters_3 T)))).
Qed.

Theorem C20_source_tie_interval_basics : forall T (N : NumOps T), NumLits N ->
  (forall l0 l1 u0 u1 : T, let i := {| i_lower := [l0; l1]; i_upper := [u0; u1] |} in
     ival2 (src_interval_ctor_2 l0 l1 u0 u1) = i /\
     vec2 (src_interval_lower_2 l0 l1 u0 u1) = i_lower i /\ vec2 (src_interval_upper_2 l0 l1 u0 u1) = i_upper i /\
     vec2 (src_interval_width_2 N l0 l1 u0 u1) = interval_width N i /\
     vec2 (src_interval_center_2 N l0 l1 u0 u1) = interval_center N i) /\
  (forall l0 l1 l2 u0 u1 u2 : T, let i := {| i_lower := [l0; l1; l2]; i_upper := [u0; u1; u2] |} in
     ival3 (src_interval_ctor_3 l0 l1 l2 u0 u1 u2) = i /\
     vec3 (src_interval_lower_3 l0 l1 l2 u0 u1 u2) = i_lower i /\ vec3 (src_interval_upper_3 l0 l1 l2 u0 u1 u2) = i_upper i /\
     vec3 (src_interval_width_3 N l0 l1 l2 u0 u1 u2) = interval_width N i /\
     vec3 (src_interval_center_3 N l0 l1 l2 u0 u1 u2) = interval_center N i).
Proof. exact (fun T N L => conj (tie_interval_basics_2 N L) (tie_interval_basics_3 N L)). Qed.

(* this->include(other): the parameter (other) comes first, then the members of this *)
Theorem C20_source_tie_interval_include : forall T (N : NumOps T), NumLits N ->
  (forall jl0 jl1 ju0 ju1 l0 l1 u0 u1,
     ival2 (src_interval_include_2 N jl0 jl1 ju0 ju1 l0 l1 u0 u1) =
     interval_include N {| i_lower := [l0; l1]; i_upper := [u0; u1] |} {| i_lower := [jl0; jl1]; i_upper := [ju0; ju1] |}) /\
  (forall jl0 jl1 jl2 ju0 ju1 ju2 l0 l1 l2 u0 u1 u2,
     ival3 (src_interval_include_3 N jl0 jl1 jl2 ju0 ju1 ju2 l0 l1 l2 u0 u1 u2) =
     interval_include N {| i_lower := [l0; l1; l2]; i_upper := [u0; u1; u2] |}
                        {| i_lower := [jl0; jl1; jl2]; i_upper := [ju0; ju1; ju2] |}).
Proof. exact (fun T N L => conj (tie_interval_include_2 N L) (tie_interval_include_3 N L)). Qed.
Print Assumptions C20_source_tie_interval_include.

Theorem C20_source_tie_interval_inside : forall T (N : NumOps T), NumLits N ->
  (forall v0 v1 l0 l1 u0 u1,
     src_interval_inside_2 N v0 v1 l0 l1 u0 u1 = interval_inside N {| i_lower := [l0; l1]; i_upper := [u0; u1] |} [v0; v1]) /\
  (forall v0 v1 v2 l0 l1 l2 u0 u1 u2,
     src_interval_inside_3 N v0 v1 v2 l0 l1 l2 u0 u1 u2 =
     interval_inside N {| i_lower := [l0; l1; l2]; i_upper := [u0; u1; u2] |} [v0; v1; v2]).
Proof. exact (fun T N L => conj (tie_interval_inside_2 N L) (tie_interval_inside_3 N L)). Qed.

(* OrientedBoundingBox: members aabb_ (centre, half extents) and rotation_ (row-major) *)
Theorem C20_source_tie_obb_constructor_getters : forall T (N : NumOps T), NumLits N ->
  (forall c0 c1 h0 h1 r00 r01 r10 r11 : T,
     obb2 (src_obb_ctor_2 c0 c1 h0 h1 r00 r01 r10 r11) =
       {| o_center := [c0; c1]; o_half := [h0; h1]; o_rot := [[r00; r01]; [r10; r11]] |} /\
     vec2 (src_obb_getCenterPosition_2 c0 c1 h0 h1 r00 r01 r10 r11) = [c0; c1] /\
     vec2 (src_obb_getHalfWidthExtents_2 c0 c1 h0 h1 r00 r01 r10 r11) = [h0; h1] /\
     src_obb_getRotationMatrix_2 c0 c1 h0 h1 r00 r01 r10 r11 = (r00, r01, r10, r11)) /\
  (forall c0 c1 c2 h0 h1 h2 r00 r01 r02 r10 r11 r12 r20 r21 r22 : T,
     obb3 (src_obb_ctor_3 c0 c1 c2 h0 h1 h2 r00 r01 r02 r10 r11 r12 r20 r21 r22) =
       {| o_center := [c0; c1; c2]; o_half := [h0; h1; h2]; o_rot := [[r00; r01; r02]; [r10; r11; r12]; [r20; r21; r22]] |} /\
     vec3 (src_obb_getCenterPosition_3 c0 c1 c2 h0 h1 h2 r00 r01 r02 r10 r11 r12 r20 r21 r22) = [c0; c1; c2] /\
     vec3 (src_obb_getHalfWidthExtents_3 c0 c1 c2 h0 h1 h2 r00 r01 r02 r10 r11 r12 r20 r21 r22) = [h0; h1; h2] /\
     src_obb_getRotationMatrix_3 c0 c1 c2 h0 h1 h2 r00 r01 r02 r10 r11 r12 r20 r21 r22 =
       (r00, r01, r02, r10, r11, r12, r20, r21, r22)).
Proof.
  exact (fun T N L =>
    conj (fun c0 c1 h0 h1 r00 r01 r10 r11 =>
            conj (tie_obb_ctor_2 c0 c1 h0 h1 r00 r01 r10 r11) (tie_obb_getters_2 c0 c1 h0 h1 r00 r01 r10 r11))
         (fun c0 c1 c2 h0 h1 h2 r00 r01 r02 r10 r11 r12 r20 r21 r22 =>
            conj (tie_obb_ctor_3 c0 c1 c2 h0 h1 h2 r00 r01 r02 r10 r11 r12 r20 r21 r22)
                 (tie_obb_getters_3 c0 c1 c2 h0 h1 h2 r00 r01 r02 r10 r11 r12 r20 r21 r22))).
Qed.

Theorem C20_source_tie_obb_isInside : forall T (N : NumOps T), NumLits N ->
  (forall p0 p1 c0 c1 h0 h1 r00 r01 r10 r11,
     src_obb_isInside_2 N p0 p1 c0 c1 h0 h1 r00 r01 r10 r11 =
     obb_inside N {| o_center := [c0; c1]; o_half := [h0; h1]; o_rot := [[r00; r01]; [r10; r11]] |} [p0; p1]) /\
  (forall p0 p1 p2 c0 c1 c2 h0 h1 h2 r00 r01 r02 r10 r11 r12 r20 r21 r22,
     src_obb_isInside_3 N p0 p1 p2 c0 c1 c2 h0 h1 h2 r00 r01 r02 r10 r11 r12 r20 r21 r22 =
     obb_inside N {| o_center := [c0; c1; c2]; o_half := [h0; h1; h2];
                     o_rot := [[r00; r01; r02]; [r10; r11; r12]; [r20; r21; r22]] |} [p0; p1; p2]).
Proof. exact (fun T N L => conj (tie_obb_isInside_2 N L) (tie_obb_isInside_3 N L)). Qed.
Print Assumptions C20_source_tie_obb_isInside.

(* the per-column accumulation loop `for n < DIM: ext.array() += (rotation_.col(n) * half(n)).array().abs()` unrolled *)
Theorem C20_source_tie_obb_toAxisAlignedBoundingBox : forall T (N : NumOps T), NumLits N ->
  (forall c0 c1 h0 h1 r00 r01 r10 r11,
     aabb2 (src_obb_toAABB_2 N c0 c1 h0 h1 r00 r01 r10 r11) =
     obb_to_aabb N {| o_center := [c0; c1]; o_half := [h0; h1]; o_rot := [[r00; r01]; [r10; r11]] |}) /\
  (forall c0 c1 c2 h0 h1 h2 r00 r01 r02 r10 r11 r12 r20 r21 r22,
     aabb3 (src_obb_toAABB_3 N c0 c1 c2 h0 h1 h2 r00 r01 r02 r10 r11 r12 r20 r21 r22) =
     obb_to_aabb N {| o_center := [c0; c1; c2]; o_half := [h0; h1; h2];
                      o_rot := [[r00; r01; r02]; [r10; r11; r12]; [r20; r21; r22]] |}).
Proof. exact (fun T N L => conj (tie_obb_toAABB_2 N L) (tie_obb_toAABB_3 N L)). Qed.
Print Assumptions C20_source_tie_obb_toAxisAlignedBoundingBox.

(* PointSetPreconditioner<Vector2d|Vector3d>::compute: for EVERY list of points and whatever the members held before the
   call (s .. ma*: the old member values are parameters of the generated term — a mean that is not reset shows up here) *)
Theorem C20_source_tie_preconditioner_compute : forall T (N : NumOps T), NumLits N ->
  (forall (points : list (T * T)) s t0 t1 me0 me1 mi0 mi1 ma0 ma1,
     pc2 (src_precond_compute_2 N points s t0 t1 me0 me1 mi0 mi1 ma0 ma1) = precond_compute N 2 2 (map pt2 points)) /\
  (forall (points : list (T * T * T)) s t0 t1 t2 me0 me1 me2 mi0 mi1 mi2 ma0 ma1 ma2,
     pc3 (src_precond_compute_3 N points s t0 t1 t2 me0 me1 me2 mi0 mi1 mi2 ma0 ma1 ma2) =
     precond_compute N 3 3 (map pt3 points)).
Proof. exact (fun T N L => conj (tie_precond_compute_2 N L) (tie_precond_compute_3 N L)). Qed.
Print Assumptions C20_source_tie_preconditioner_compute.

(* end to end over the reals: the generated terms themselves have the properties *)
Theorem C20_source_aabb_isInside_is_closed_box :
  (forall p0 p1 c0 c1 h0 h1 : R,
     src_aabb_isInside_2 ROps p0 p1 c0 c1 h0 h1 = true <-> (c0 - h0 <= p0 <= c0 + h0 /\ c1 - h1 <= p1 <= c1 + h1)) /\
  (forall p0 p1 p2 c0 c1 c2 h0 h1 h2 : R,
     src_aabb_isInside_3 ROps p0 p1 p2 c0 c1 c2 h0 h1 h2 = true <->
     (c0 - h0 <= p0 <= c0 + h0 /\ c1 - h1 <= p1 <= c1 + h1 /\ c2 - h2 <= p2 <= c2 + h2)).
Proof. exact (conj src_aabb_isInside_2_closed src_aabb_isInside_3_closed). Qed.
Print Assumptions C20_source_aabb_isInside_is_closed_box.

Theorem C20_source_preconditioner_extents_correct : forall (points : list (R * R)) s t0 t1 me0 me1 mi0 mi1 ma0 ma1,
  points <> [] -> (forall p, In p points -> Rabs (fst p) <= nmaxval ROps /\ Rabs (snd p) <= nmaxval ROps) ->
  let pc := pc2 (src_precond_compute_2 ROps points s t0 t1 me0 me1 mi0 mi1 ma0 ma1) in
  is_min (map fst points) (pc_min pc).[0%nat] /\ is_max (map fst points) (pc_max pc).[0%nat] /\
  is_min (map snd points) (pc_min pc).[1%nat] /\ is_max (map snd points) (pc_max pc).[1%nat] /\
  (pc_mean pc).[0%nat] = Rsum (map fst points) / INR (length points) /\
  (pc_mean pc).[1%nat] = Rsum (map snd points) / INR (length points).
Proof. exact src_precond_compute_2_extents. Qed.
Print Assumptions C20_source_preconditioner_extents_correct.

Example C20_ex_lits_R : NumLits ROps.
Proof. exact NumLits_R. Qed.
Example C20_ex_lits_binary64 : NumLits B64Ops.
Proof. exact (fl_NumLits 53 (-1074) ltac:(lia) ltac:(lia)). Qed.
Example C20_ex_lits_binary32 : NumLits B32Ops.
Proof. exact (fl_NumLits 24 (-149) ltac:(lia) ltac:(lia)). Qed.

(* ====================================================================================================================
   FLOATING-POINT LEVEL (Flocq).  B64Ops / B32Ops (GridMapFloat.v): + - * / are the real operation followed by ONE rounding
   to nearest-even in binary64 / binary32 (rnd64, rnd32); comparisons, negation, |.| exact; b64 x / b32 x = "x is a
   floating-point number".  The format has no largest exponent: overflow is excluded by hypothesis / not modelled.
   ==================================================================================================================== *)
(* (a) running minimum / maximum are EXACT: the reported extents are elements of the data bounding all the data, for every
       non-empty point list within the finite range (nmaxval B64Ops = DBL_MAX = nmaxval ROps, C20_maxval_binary64) *)
Theorem C20_extents_exact_binary64 : forall n (pts : list (list R)),
  pts <> [] -> Forall (fun p => length p = n) pts ->
  (forall p x, In p pts -> In x p -> Rabs x <= nmaxval B64Ops) ->
  forall i, (i < n)%nat ->
    is_min (coords pts i) (cont_min B64Ops n pts).[i] /\ is_max (coords pts i) (cont_max B64Ops n pts).[i].
Proof. exact (fl_extents_exact 53 (-1074)). Qed.
Print Assumptions C20_extents_exact_binary64.

Theorem C20_preconditioner_extents_exact_binary64 : forall size cdim (pts : list (list R)),
  pts <> [] -> Forall (fun p => length p = size) pts ->
  (forall p x, In p pts -> In x p -> Rabs x <= nmaxval B64Ops) ->
  forall i, (i < size)%nat ->
    is_min (coords pts i) (pc_min (precond_compute B64Ops size cdim pts)).[i] /\
    is_max (coords pts i) (pc_max (precond_compute B64Ops size cdim pts)).[i].
Proof. exact (fl_precond_extents_exact 53 (-1074)). Qed.
Print Assumptions C20_preconditioner_extents_exact_binary64.

Theorem C20_extents_exact_binary32 : forall n (pts : list (list R)),
  pts <> [] -> Forall (fun p => length p = n) pts ->
  (forall p x, In p pts -> In x p -> Rabs x <= nmaxval B32Ops) ->
  forall i, (i < n)%nat ->
    is_min (coords pts i) (cont_min B32Ops n pts).[i] /\ is_max (coords pts i) (cont_max B32Ops n pts).[i].
Proof. exact (fl_extents_exact 24 (-149)). Qed.

Theorem C20_preconditioner_extents_exact_binary32 : forall size cdim (pts : list (list R)),
  pts <> [] -> Forall (fun p => length p = size) pts ->
  (forall p x, In p pts -> In x p -> Rabs x <= nmaxval B32Ops) ->
  forall i, (i < size)%nat ->
    is_min (coords pts i) (pc_min (precond_compute B32Ops size cdim pts)).[i] /\
    is_max (coords pts i) (pc_max (precond_compute B32Ops size cdim pts)).[i].
Proof. exact (fl_precond_extents_exact 24 (-149)). Qed.

Theorem C20_maxval_binary64 : nmaxval B64Ops = nmaxval ROps.
Proof. exact nmaxval_B64_R. Qed.

(* (b) AxisAlignedBoundingBox::isInside in floats: the subtraction rounds once, |.| and <= are exact *)
Theorem C20_aabb_inside_iff_binary64 : forall c h p : list R, length c = length h -> length p = length c ->
  (aabb_inside B64Ops {| a_center := c; a_half := h |} p = true <->
   forall i, (i < length c)%nat -> Rabs (rnd64 (p.[i] - c.[i])) <= h.[i]).
Proof. exact (fl_aabb_inside_iff 53 (-1074)). Qed.
Print Assumptions C20_aabb_inside_iff_binary64.

(* real-inside => float-inside, with NO margin, when the half extents are floats (monotonicity of rounding) *)
Theorem C20_aabb_real_inside_float_inside_binary64 : forall c h p : list R, length c = length h -> length p = length c ->
  (forall i, (i < length c)%nat -> b64 h.[i]) ->
  (forall i, (i < length c)%nat -> Rabs (p.[i] - c.[i]) <= h.[i]) ->
  aabb_inside B64Ops {| a_center := c; a_half := h |} p = true.
Proof. exact (fl_real_inside_float_inside 53 (-1074)). Qed.
Print Assumptions C20_aabb_real_inside_float_inside_binary64.

(* float-inside => real-inside within half a unit in the last place of the half extent *)
Theorem C20_aabb_float_inside_real_inside_binary64 : forall c h p : list R, length c = length h -> length p = length c ->
  (forall i, (i < length c)%nat -> b64 h.[i]) ->
  aabb_inside B64Ops {| a_center := c; a_half := h |} p = true ->
  forall i, (i < length c)%nat -> Rabs (p.[i] - c.[i]) <= h.[i] + / 2 * ulp radix2 (FLT_exp (-1074) 53) h.[i].
Proof. exact (fl_float_inside_real_inside 53 (-1074)). Qed.
Print Assumptions C20_aabb_float_inside_real_inside_binary64.

(* ... and that margin is needed: a float box and a float point OUTSIDE the real box that isInside accepts *)
Theorem C20_aabb_float_inside_implies_real_inside_binary64_refuted :
  exists c h p : list R, length c = length h /\ length p = length c /\
    (forall i, (i < length c)%nat -> b64 c.[i] /\ b64 h.[i] /\ b64 p.[i]) /\
    aabb_inside B64Ops {| a_center := c; a_half := h |} p = true /\
    aabb_inside ROps {| a_center := c; a_half := h |} p = false.
Proof. exact box_aabb_float_inside_not_real_inside_binary64. Qed.
Print Assumptions C20_aabb_float_inside_implies_real_inside_binary64_refuted.

(* when p - c is representable (e.g. Sterbenz: c/2 <= p <= 2c) the float test IS the real test *)
Theorem C20_aabb_inside_exact_subtraction_binary64 : forall c h p : list R, length c = length h -> length p = length c ->
  (forall i, (i < length c)%nat -> b64 (p.[i] - c.[i])) ->
  aabb_inside B64Ops {| a_center := c; a_half := h |} p = aabb_inside ROps {| a_center := c; a_half := h |} p /\
  (aabb_inside B64Ops {| a_center := c; a_half := h |} p = true <->
   forall i, (i < length c)%nat -> Rabs (p.[i] - c.[i]) <= h.[i]).
Proof. exact (fl_aabb_inside_exact_sub 53 (-1074)). Qed.

Theorem C20_sterbenz_binary64 : forall x y, b64 x -> b64 y -> y / 2 <= x <= 2 * y -> b64 (x - y).
Proof. exact (fl_sterbenz 53 (-1074)). Qed.

(* the interval form lower <= p <= upper does no arithmetic: exact *)
Theorem C20_interval_inside_exact_binary64 : forall lo hi v : list R, length lo = length v -> length hi = length v ->
  (interval_inside B64Ops {| i_lower := lo; i_upper := hi |} v = true <->
   forall i, (i < length v)%nat -> lo.[i] <= v.[i] <= hi.[i]).
Proof. exact (fl_interval_inside_iff 53 (-1074)). Qed.
Print Assumptions C20_interval_inside_exact_binary64.

Theorem C20_aabb_inside_iff_binary32 : forall c h p : list R, length c = length h -> length p = length c ->
  (aabb_inside B32Ops {| a_center := c; a_half := h |} p = true <->
   forall i, (i < length c)%nat -> Rabs (rnd32 (p.[i] - c.[i])) <= h.[i]).
Proof. exact (fl_aabb_inside_iff 24 (-149)). Qed.

Theorem C20_aabb_float_inside_real_inside_binary32 : forall c h p : list R, length c = length h -> length p = length c ->
  (forall i, (i < length c)%nat -> b32 h.[i]) ->
  aabb_inside B32Ops {| a_center := c; a_half := h |} p = true ->
  forall i, (i < length c)%nat -> Rabs (p.[i] - c.[i]) <= h.[i] + / 2 * ulp radix2 (FLT_exp (-149) 24) h.[i].
Proof. exact (fl_float_inside_real_inside 24 (-149)). Qed.

(* (c) interval -> box -> interval in floats: centre = rnd (rnd (hi + lo) / 2), half = rnd (rnd (hi - lo) / 2),
       lower' = rnd (centre - half), upper' = rnd (centre + half); for ALL real bounds, u = 2^-53, eta = 2^-1075 *)
Theorem C20_roundtrip_error_binary64 : forall (lo hi : list R) i, length lo = length hi -> (i < length lo)%nat ->
  Rabs ((i_lower (aabb_to_interval B64Ops (aabb_of_interval B64Ops {| i_lower := lo; i_upper := hi |}))).[i] - lo.[i])
    <= 6 * (bpow radix2 (-53) * Rmax (Rabs lo.[i]) (Rabs hi.[i])) + 5 * bpow radix2 (-1075) /\
  Rabs ((i_upper (aabb_to_interval B64Ops (aabb_of_interval B64Ops {| i_lower := lo; i_upper := hi |}))).[i] - hi.[i])
    <= 6 * (bpow radix2 (-53) * Rmax (Rabs lo.[i]) (Rabs hi.[i])) + 5 * bpow radix2 (-1075).
Proof. exact (fl_roundtrip_error_list 53 (-1074) ltac:(lia) ltac:(lia)). Qed.
Print Assumptions C20_roundtrip_error_binary64.

Theorem C20_roundtrip_error_binary32 : forall (lo hi : list R) i, length lo = length hi -> (i < length lo)%nat ->
  Rabs ((i_lower (aabb_to_interval B32Ops (aabb_of_interval B32Ops {| i_lower := lo; i_upper := hi |}))).[i] - lo.[i])
    <= 6 * (bpow radix2 (-24) * Rmax (Rabs lo.[i]) (Rabs hi.[i])) + 5 * bpow radix2 (-150) /\
  Rabs ((i_upper (aabb_to_interval B32Ops (aabb_of_interval B32Ops {| i_lower := lo; i_upper := hi |}))).[i] - hi.[i])
    <= 6 * (bpow radix2 (-24) * Rmax (Rabs lo.[i]) (Rabs hi.[i])) + 5 * bpow radix2 (-150).
Proof. exact (fl_roundtrip_error_list 24 (-149) ltac:(lia) ltac:(lia)). Qed.

(* exact when hi + lo, hi - lo, their halves, lo and hi are representable (dyadic data) *)
Theorem C20_roundtrip_exact_binary64 : forall (lo hi : list R) i, length lo = length hi -> (i < length lo)%nat ->
  b64 (hi.[i] + lo.[i]) -> b64 (hi.[i] - lo.[i]) -> b64 ((hi.[i] + lo.[i]) / 2) -> b64 ((hi.[i] - lo.[i]) / 2) ->
  b64 lo.[i] -> b64 hi.[i] ->
  (i_lower (aabb_to_interval B64Ops (aabb_of_interval B64Ops {| i_lower := lo; i_upper := hi |}))).[i] = lo.[i] /\
  (i_upper (aabb_to_interval B64Ops (aabb_of_interval B64Ops {| i_lower := lo; i_upper := hi |}))).[i] = hi.[i].
Proof. exact (fl_roundtrip_exact_list 53 (-1074) ltac:(lia) ltac:(lia)). Qed.
Print Assumptions C20_roundtrip_exact_binary64.

(* the real-number round-trip theorem (C20_aabb_interval_roundtrip) is FALSE in binary64: [2^-55, 1] comes back as [0, 1] *)
Theorem C20_aabb_interval_roundtrip_binary64_refuted :
  exists lo hi : list R, length lo = length hi /\ b64 lo.[0%nat] /\ b64 hi.[0%nat] /\ 0 < lo.[0%nat] < hi.[0%nat] /\
    (i_lower (aabb_to_interval B64Ops (aabb_of_interval B64Ops {| i_lower := lo; i_upper := hi |}))).[0%nat] = 0 /\
    (i_upper (aabb_to_interval B64Ops (aabb_of_interval B64Ops {| i_lower := lo; i_upper := hi |}))).[0%nat] = 1.
Proof. exact box_roundtrip_inexact_binary64. Qed.
Print Assumptions C20_aabb_interval_roundtrip_binary64_refuted.

Example C20_ex_extents_hyps_binary64 :
  [[1; 2]; [3; -4]] <> [] /\ Forall (fun p : list R => length p = 2%nat) [[1; 2]; [3; -4]] /\
  (forall p x, In p [[1; 2]; [3; -4]] -> In x p -> Rabs x <= nmaxval B64Ops).
Proof. exact box_extents_hyps_sat_binary64. Qed.
Example C20_ex_roundtrip_exact_hyps_binary64 :
  b64 (3 + 1) /\ b64 (3 - 1) /\ b64 ((3 + 1) / 2) /\ b64 ((3 - 1) / 2) /\ b64 1 /\ b64 3.
Proof. exact box_roundtrip_exact_hyps_sat_binary64. Qed.

(* --- non-vacuity --- *)
Example C20_ex_rotation2 : forall a, orthogonal2 (cos a) (- sin a) (sin a) (cos a).
Proof. intros a. pose proof (sin2_cos2 a) as H. unfold Rsqr in H. unfold orthogonal2. repeat split; nra. Qed.
Example C20_ex_rotation3_z : forall a, orthogonal3 (cos a) (- sin a) 0 (sin a) (cos a) 0 0 0 1.
Proof. intros a. pose proof (sin2_cos2 a) as H. unfold Rsqr in H. unfold orthogonal3. repeat split; nra. Qed.
Example C20_ex_rotation3_perm : orthogonal3 0 0 1 1 0 0 0 1 0.
Proof. unfold orthogonal3. repeat split; lra. Qed.
Example C20_ex_bounded : bounded [[-3; -4]; [-1; -2]].
Proof. exact sample_bounded. Qed.
Example C20_ex_inside : aabb_inside ROps {| a_center := [1; 2]; a_half := [1; 0] |} [2; 2] = true.
Proof. apply C20_aabb_inside_iff; auto. intros [|[|i]] Hi; cbn in *; try lia; lra. Qed.
