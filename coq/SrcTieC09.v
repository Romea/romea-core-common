(* SrcTieC09.v — the SYNTACTIC source tie of C09.  gen/SrcNormals.v is regenerated on every run by
   translate/tr_C09_normals.py from the clang AST of src/pointset/algorithms/NormalAndCurvatureEstimation.cpp, in the
   instantiations V2 = Eigen::Vector2d, V3 = Eigen::Vector3d, H2 = HomogeneousCoordinates2d, H3 = HomogeneousCoordinates3d.
   Here the generated terms are proved equal to the functions of NormalsModel.v the C09 theorems are about, for EVERY numeric
   dictionary N (the proofs are by computation, case analysis and induction over the loops: the generated term and the model
   perform the same floating-point operations in the same order):
     tie_flip_<I>          flipNormalTowardOriginCoordinate = flip_cart (test on the Cartesian part, '>', w kept)   [NormLits N]
     tie_reliability_<I>   computeNormalReliability = reliability
     tie_plane_<I>         planeEstimation_ = kd_find, then eig (covariance N dim size (neighbours)), members = its components:
                           the loop over 0..k-1 reading neighborIndexes_[i] is the model's fold over the neighbour list
                           (fold_left_map_idx), the generated tuple-valued loop state and the model's lists / matrix entries
                           run in lock step (fold_left_rel; for the covariance, one state indexed by the entry: fold_left_family)
     tie_compute_kd_ncr_<I>   the loop of compute(): entry j of normals, curvatures, reliability after the loop is
                           e_normal / e_curvature / e_reliability of estimate_point at point j, every other entry untouched
                           (fold_zrange_pointwise: pass i changes entry i only); [compute_tie] proves it, and also the
                           overloads with fewer outputs, under C09_source_tie_compute_fewer_outputs
   The overloads building their own kd-tree are the ones above on [kd_build size points] up to the eta-expansion of a tuple
   (proved under C09_source_tie_compute_own_kdtree).  [unit_facing] and [cloud_rotation] at the end read a tie_compute_kd_ncr_<I>
   over the reals, for the corollaries C09_source_normals_unit_and_facing and C09_source_rotation_equivariance.
   A point / normal is a tuple of scalars in the generated terms; l2 / l3 / l4 turn it into the model's list. *)
From Coq Require Import Reals ZArith List Bool Lia Lra.
From Romea Require Import Num NumR NormalsModel NormalsProofs SrcEigen SrcNormalsLib.
From Romea.gen Require Import SrcNormals.
Import ListNotations.

Ltac destruct_tuples := repeat match goal with st : (_ * _)%type |- _ => destruct st end.
Ltac head t := lazymatch t with ?f _ => head f | _ => t end.
Section Tie.
Context {T : Type} (N : NumOps T).

Definition l2 (t : T * T) : list T := let '(a, b) := t in [a; b].
Definition l3 (t : T * T * T) : list T := let '(a, b, c) := t in [a; b; c].
Definition l4 (t : T * T * T * T) : list T := let '(a, b, c, d) := t in [a; b; c; d].

Lemma l2_inj x y : l2 x = l2 y -> x = y.
Proof. destruct x as [a b], y as [a' b']. cbn. intros H. injection H as -> ->. reflexivity. Qed.
Lemma l3_inj x y : l3 x = l3 y -> x = y.
Proof. destruct x as [[a b] c], y as [[a' b'] c']. cbn. intros H. injection H as -> -> ->. reflexivity. Qed.
Lemma l4_inj x y : l4 x = l4 y -> x = y.
Proof. destruct x as [[[a b] c] d], y as [[[a' b'] c'] d']. cbn. intros H. injection H as -> -> -> ->. reflexivity. Qed.

Lemma l2_length t : length (l2 t) = 2%nat.
Proof. destruct t as [a b]. reflexivity. Qed.
Lemma l3_length t : length (l3 t) = 3%nat.
Proof. destruct t as [[a b] c]. reflexivity. Qed.
Lemma l4_length t : length (l4 t) = 4%nat.
Proof. destruct t as [[[a b] c] d]. reflexivity. Qed.

Context (L : NormLits N).

(* flipNormalTowardOriginCoordinate = flip_cart *)
Ltac flip_tie f :=
  unfold f, flip_cart, ngtb, vdot, vnorm, vdot, vdivs, vneg, eig_dot, eig_norm;
  rewrite (nl_zero N L); cbn [firstn skipn map vdot_acc eig_dot_acc fold_left app l2 l3 l4];
  rewrite !(nl_negone N L);
  match goal with |- context [nltb N ?a ?b] => destruct (nltb N a b) end; reflexivity.

Lemma tie_flip_V2 p0 p1 n0 n1 : l2 (src_flip_V2 N p0 p1 n0 n1) = flip_cart N 2 [p0; p1] [n0; n1].
Proof. flip_tie @src_flip_V2. Qed.
Lemma tie_flip_V3 p0 p1 p2 n0 n1 n2 : l3 (src_flip_V3 N p0 p1 p2 n0 n1 n2) = flip_cart N 3 [p0; p1; p2] [n0; n1; n2].
Proof. flip_tie @src_flip_V3. Qed.
Lemma tie_flip_H2 p0 p1 p2 n0 n1 n2 : l3 (src_flip_H2 N p0 p1 p2 n0 n1 n2) = flip_cart N 2 [p0; p1; p2] [n0; n1; n2].
Proof. flip_tie @src_flip_H2. Qed.
Lemma tie_flip_H3 p0 p1 p2 p3 n0 n1 n2 n3 :
  l4 (src_flip_H3 N p0 p1 p2 p3 n0 n1 n2 n3) = flip_cart N 3 [p0; p1; p2; p3] [n0; n1; n2; n3].
Proof. flip_tie @src_flip_H3. Qed.

(* computeNormalReliability = reliability *)
Lemma tie_reliability_V2 a b : src_reliability_V2 N a b = reliability N 2 [a; b].
Proof. reflexivity. Qed.
Lemma tie_reliability_H2 a b : src_reliability_H2 N a b = reliability N 2 [a; b].
Proof. reflexivity. Qed.
Lemma tie_reliability_V3 a b c : src_reliability_V3 N a b c = reliability N 3 [a; b; c].
Proof. reflexivity. Qed.
Lemma tie_reliability_H3 a b c : src_reliability_H3 N a b c = reliability N 3 [a; b; c].
Proof. reflexivity. Qed.

(* planeEstimation_ *)
(* (M a0, M a1, ..) for the list of indexes [a0; a1; ..] *)
Ltac tuple_acc M acc l := lazymatch l with [] => acc | ?b :: ?r => tuple_acc M constr:((acc, M b)) r end.
Ltac tuple_of M l := lazymatch l with ?a :: ?r => tuple_acc M constr:(M a) r end.

(* goal: src_planeEstimation_<I> .. = (.., eig (covariance N dim size (map (lS o points) nbi)), ..).
   The model accumulates every covariance entry by a fold of its own; together they are one fold over a state indexed by the
   entry (fold_left_family), with which the generated loop, one tuple for all the entries, runs in lock step (HF). *)
Ltac plane_tie f lS dim size kdf points idx k :=
  let Ep := fresh "Ep" in let nbi := fresh "nbi" in let Hkk := fresh "Hkk" in let EM := fresh "EM" in let h := fresh "h" in
  let HM := fresh "HM" in let GC := fresh "GC" in let cs := fresh "cs" in let FM := fresh "FM" in let HF := fresh "HF" in
  let HC := fresh "HC" in
  unfold f;
  destruct (points idx) as [? ?] eqn:Ep; destruct_tuples;
  match goal with |- context [kdf ?kd ?p k] => set (nbi := kdf kd p k) in * end;
  assert (Hkk : k = Z.of_nat (length nbi)) by lia;
  match goal with |- context [fold_left ?g (zrange k) ?init] =>
    destruct (fold_left g (zrange k) init) as [? ?] eqn:EM end; destruct_tuples;
  pose (h := fun i : Z => lS (points i));
  match type of EM with _ = ?tupM =>
    assert (HM : mean N size (map h nbi) = vdivs N (lS tupM) (nofZ N k));
    [ unfold mean, scalar_of_nat; rewrite map_length, <- Hkk; f_equal;
      rewrite fold_left_map_idx, <- Hkk, <- EM;
      match goal with |- fold_left ?H _ _ = lS (fold_left ?G _ _) =>
        apply (fold_left_rel (fun st acc => acc = lS st) G H) end; [|reflexivity];
      let i := fresh "i" in let st := fresh "st" in let acc := fresh "acc" in
      intros i st acc _ ->; destruct_tuples; cbv beta iota zeta; unfold h;
      destruct (points (znth nbi i)) as [? ?]; destruct_tuples; reflexivity
    | ];
    pose (cs := map (fun x => vsub N (h x) (vdivs N (lS tupM) (nofZ N k))) nbi) end;
  pose (FM := fun (M : nat * nat -> T) (c : list T) (ij : nat * nat) =>
                nadd N (M ij) (nmul N (vcoord N c (fst ij)) (vcoord N c (snd ij))));
  let ijs := eval cbv in (list_prod (seq 0 size) (seq 0 size)) in
  match goal with |- context [fold_left ?g (zrange k) ?init] =>
    set (GC := g);
    assert (HF : fold_left GC (zrange k) init
                 = ltac:(let t := tuple_of (fold_left FM cs (fun _ : nat * nat => nzero N)) ijs in exact t));
    [ unfold cs; rewrite fold_left_map_idx, <- Hkk;
      let ty := type of init in
      match goal with |- _ = ?rhs => match rhs with context [fold_left ?H _ _] =>
        apply (fold_left_rel (fun (st : ty) (M : nat * nat -> T) => st = ltac:(let t := tuple_of M ijs in exact t)) GC H) end end;
      [ let i := fresh "i" in let st := fresh "st" in let M := fresh "M" in
        intros i st M _ ->; unfold GC, FM, h; cbv beta iota zeta;
        destruct (points (znth nbi i)) as [? ?]; destruct_tuples; reflexivity
      | reflexivity ]
    | rewrite HF; cbv beta iota ] end;
  match goal with |- context [?e ?M] =>
    lazymatch type of M with list (list T) => assert (HC : M = covariance N dim size (map h nbi)) end end;
  [ unfold covariance, cov_entry, scalar_of_nat; rewrite HM, map_length, <- Hkk, map_map;
    cbn [map seq]; repeat f_equal; symmetry;
    lazymatch goal with |- _ = fold_left _ _ _ ?a =>
      exact (fold_left_family (fun (ij : nat * nat) acc c => nadd N acc (nmul N (vcoord N c (fst ij)) (vcoord N c (snd ij))))
               cs (fun _ => nzero N) a) end
  | rewrite HC; reflexivity ].

Section Plane.
Context {K : Type} (eig : list (list T) -> list T * list (list T)).

Lemma tie_plane_V2 (kd_find : K -> T * T -> Z -> list Z) points kd idx k :
  (0 <= k)%Z -> length (kd_find kd (points idx) k) = Z.to_nat k ->
  src_planeEstimation_V2 N kd_find eig points kd idx k =
    let nbi := kd_find kd (points idx) k in
    let es := eig (covariance N 2 2 (map (fun i => l2 (points i)) nbi)) in
    (nbi, es, eig_val N es 0, eig_val N es 1, eig_vec N es 0 0, eig_vec N es 0 1, eig_vec N es 1 0, eig_vec N es 1 1).
Proof. intros Hk Hlen. plane_tie @src_planeEstimation_V2 l2 2%nat 2%nat kd_find points idx k. Qed.

Lemma tie_plane_H2 (kd_find : K -> T * T * T -> Z -> list Z) points kd idx k :
  (0 <= k)%Z -> length (kd_find kd (points idx) k) = Z.to_nat k ->
  src_planeEstimation_H2 N kd_find eig points kd idx k =
    let nbi := kd_find kd (points idx) k in
    let es := eig (covariance N 2 3 (map (fun i => l3 (points i)) nbi)) in
    (nbi, es, eig_val N es 0, eig_val N es 1, eig_vec N es 0 0, eig_vec N es 0 1, eig_vec N es 1 0, eig_vec N es 1 1).
Proof. intros Hk Hlen. plane_tie @src_planeEstimation_H2 l3 2%nat 3%nat kd_find points idx k. Qed.

Lemma tie_plane_V3 (kd_find : K -> T * T * T -> Z -> list Z) points kd idx k :
  (0 <= k)%Z -> length (kd_find kd (points idx) k) = Z.to_nat k ->
  src_planeEstimation_V3 N kd_find eig points kd idx k =
    let nbi := kd_find kd (points idx) k in
    let es := eig (covariance N 3 3 (map (fun i => l3 (points i)) nbi)) in
    (nbi, es, eig_val N es 0, eig_val N es 1, eig_val N es 2,
     eig_vec N es 0 0, eig_vec N es 0 1, eig_vec N es 0 2, eig_vec N es 1 0, eig_vec N es 1 1, eig_vec N es 1 2,
     eig_vec N es 2 0, eig_vec N es 2 1, eig_vec N es 2 2).
Proof. intros Hk Hlen. plane_tie @src_planeEstimation_V3 l3 3%nat 3%nat kd_find points idx k. Qed.

Lemma tie_plane_H3 (kd_find : K -> T * T * T * T -> Z -> list Z) points kd idx k :
  (0 <= k)%Z -> length (kd_find kd (points idx) k) = Z.to_nat k ->
  src_planeEstimation_H3 N kd_find eig points kd idx k =
    let nbi := kd_find kd (points idx) k in
    let es := eig (covariance N 3 4 (map (fun i => l4 (points i)) nbi)) in
    (nbi, es, eig_val N es 0, eig_val N es 1, eig_val N es 2,
     eig_vec N es 0 0, eig_vec N es 0 1, eig_vec N es 0 2, eig_vec N es 1 0, eig_vec N es 1 1, eig_vec N es 1 2,
     eig_vec N es 2 0, eig_vec N es 2 1, eig_vec N es 2 2).
Proof. intros Hk Hlen. plane_tie @src_planeEstimation_H3 l4 3%nat 4%nat kd_find points idx k. Qed.
End Plane.

(* compute (the caller's kd-tree) *)
Definition eig_shape (dim : nat) (r : list T * list (list T)) : Prop :=
  length (fst r) = dim /\ length (nth 0 (snd r) []) = dim.

End Tie.

(* One pass of the loop of compute() at index i, read at index j: entry i becomes the model's estimate_point at point i
   (computed from the old entry i), every other entry is kept; then fold_zrange_pointwise.  The solver's result at point i
   is named and given its shape (Hshape) and the array reads at i are named while the loop body G is still folded; after
   unfolding, the body reduces by computation once these names are put in.
   Goal (after intros):  let '(nrm [, cv [, rl]], ..) := src_compute.. in forall j, (in range -> .. = ..) /\ (.. -> ..) *)
Ltac compute_core G get F planetie flipf fliptie lS points size Hsz Hshape init :=
  let Hstep := fresh "Hstep" in let P := fresh "P" in
  assert (Hstep : forall s i j, (0 <= i < Z.of_nat (Z.to_nat size))%Z ->
                    get (G s i) j = if Z.eqb j i then F i (get s i) else get s j);
  [ let s := fresh "s" in let i := fresh "i" in let j' := fresh "j" in let Hi := fresh "Hi" in
    let Hs1 := fresh "Hs1" in let Hs2 := fresh "Hs2" in let es := fresh "es" in let Ees := fresh "Ees" in
    let lam := fresh "lam" in let vecs := fresh "vecs" in let col := fresh "col" in
    let En := fresh "En" in let Ep := fresh "Ep" in
    intros s i j' Hi; destruct_tuples; unfold get; cbn [fst snd];
    match goal with |- context [lS (?a i)] => destruct (a i) as [? ?] eqn:En end;
    destruct (points i) as [? ?] eqn:Ep; destruct_tuples;
    pose proof (Hshape i ltac:(lia)) as [Hs1 Hs2];
    match type of Hs1 with length (fst ?e) = _ => remember e as es eqn:Ees end;
    destruct es as [lam vecs]; cbn [fst snd] in Hs1, Hs2;
    repeat (destruct lam as [|? lam]; try discriminate Hs1);
    destruct vecs as [|col vecs]; [discriminate Hs2|]; cbn [nth] in Hs2;
    repeat (destruct col as [|? col]; try discriminate Hs2);
    unfold G, F; rewrite planetie by auto; unfold estimate_point; rewrite <- Ees, En, Ep;
    cbv beta iota zeta; cbn [eig_val eig_vec fst snd nth e_normal e_curvature e_reliability];
    rewrite arr_set_same; unfold arr_set, flipf; cbv beta iota zeta;
    cbn [l2 l3 l4 write_normal firstn skipn app fst snd];
    destruct (Z.eqb j' i); [rewrite <- fliptie|]; reflexivity
  | ];
  pose proof (fold_zrange_pointwise G get F (Z.to_nat size) Hstep init) as P;
  rewrite Z2Nat.id in P by exact Hsz; clear Hstep; clearbody G;
  destruct (fold_left G (zrange size) init) as [? ?]; destruct_tuples;
  let j := fresh "j" in intros j; specialize (P j); unfold get, F in P; cbn [fst snd] in P; exact P.

Ltac compute_tie N f planetie flipf fliptie lS dim sz eig kd_find kd points k size Hsz Hshape :=
  let T := lazymatch type of N with NumOps ?T => T end in
  let G := fresh "G" in let get := fresh "get" in let F := fresh "F" in
  unfold f;
  let est i old := constr:(estimate_point N eig false dim sz (lS (points i))
                             (map (fun i0 => lS (points i0)) (kd_find kd (points i) k)) old) in
  match goal with |- context [fold_left ?g (zrange size) ?init] =>
    set (G := g);
    (* the loop state ends with the output arrays: normals [, curvatures [, reliability]] *)
    let ty := type of init in
    lazymatch ty with
    | (_ * (Z -> _) * (Z -> T) * (Z -> T))%type =>
      pose (get := fun (st : ty) (i : Z) => (lS (snd (fst (fst st)) i), snd (fst st) i, snd st i));
      pose (F := fun (i : Z) (old : list T * T * T) =>
        ltac:(let e := est i (fst (fst old)) in exact (e_normal e, e_curvature e, e_reliability e)))
    | (_ * (Z -> _) * (Z -> T))%type =>
      pose (get := fun (st : ty) (i : Z) => (lS (snd (fst st) i), snd st i));
      pose (F := fun (i : Z) (old : list T * T) =>
        ltac:(let e := est i (fst old) in exact (e_normal e, e_curvature e)))
    | _ =>
      pose (get := fun (st : ty) (i : Z) => lS (snd st i));
      pose (F := fun (i : Z) (old : list T) => ltac:(let e := est i old in exact (e_normal e)))
    end;
    compute_core G get F planetie flipf fliptie lS points size Hsz Hshape init
  end.

Section Compute.
Context {T : Type} (N : NumOps T) (L : NormLits N) {K : Type} (eig : list (list T) -> list T * list (list T)).

Lemma tie_compute_kd_ncr_V2 (kd_find : K -> T * T -> Z -> list Z) points size kd normals curvatures reliab k nbi0 es0 a0 a1 v00 v01 v10 v11 :
  (0 <= k)%Z -> (0 <= size)%Z -> (forall p, length (kd_find kd p k) = Z.to_nat k) ->
  (forall j, (0 <= j < size)%Z ->
     eig_shape 2 (eig (covariance N 2 2 (map (fun i => l2 (points i)) (kd_find kd (points j) k))))) ->
  let '(nrm, cv, rl, _, _, _, _, _, _, _, _) :=
    src_compute_kd_ncr_V2 N kd_find eig points size kd normals curvatures reliab k nbi0 es0 a0 a1 v00 v01 v10 v11 in
  forall j,
    ((0 <= j < size)%Z ->
     let e := estimate_point N eig false 2 2 (l2 (points j)) (map (fun i => l2 (points i)) (kd_find kd (points j) k)) (l2 (normals j)) in
     (l2 (nrm j), cv j, rl j) = (e_normal e, e_curvature e, e_reliability e)) /\
    (~ (0 <= j < size)%Z -> (l2 (nrm j), cv j, rl j) = (l2 (normals j), curvatures j, reliab j)).
Proof.
  intros Hk Hsz Hkd Hshape.
  compute_tie N @src_compute_kd_ncr_V2 (tie_plane_V2 N eig kd_find) (@src_flip_V2) (tie_flip_V2 N L) (@l2 T) 2%nat 2%nat eig kd_find kd points k size Hsz Hshape.
Qed.

Lemma tie_compute_kd_ncr_V3 (kd_find : K -> T * T * T -> Z -> list Z) points size kd normals curvatures reliab k nbi0 es0 a0 a1 a2 v00 v01 v02 v10 v11 v12 v20 v21 v22 :
  (0 <= k)%Z -> (0 <= size)%Z -> (forall p, length (kd_find kd p k) = Z.to_nat k) ->
  (forall j, (0 <= j < size)%Z ->
     eig_shape 3 (eig (covariance N 3 3 (map (fun i => l3 (points i)) (kd_find kd (points j) k))))) ->
  let '(nrm, cv, rl, _, _, _, _, _, _, _, _, _, _, _, _, _, _) :=
    src_compute_kd_ncr_V3 N kd_find eig points size kd normals curvatures reliab k nbi0 es0 a0 a1 a2 v00 v01 v02 v10 v11 v12 v20 v21 v22 in
  forall j,
    ((0 <= j < size)%Z ->
     let e := estimate_point N eig false 3 3 (l3 (points j)) (map (fun i => l3 (points i)) (kd_find kd (points j) k)) (l3 (normals j)) in
     (l3 (nrm j), cv j, rl j) = (e_normal e, e_curvature e, e_reliability e)) /\
    (~ (0 <= j < size)%Z -> (l3 (nrm j), cv j, rl j) = (l3 (normals j), curvatures j, reliab j)).
Proof.
  intros Hk Hsz Hkd Hshape.
  compute_tie N @src_compute_kd_ncr_V3 (tie_plane_V3 N eig kd_find) (@src_flip_V3) (tie_flip_V3 N L) (@l3 T) 3%nat 3%nat eig kd_find kd points k size Hsz Hshape.
Qed.

Lemma tie_compute_kd_ncr_H2 (kd_find : K -> T * T * T -> Z -> list Z) points size kd normals curvatures reliab k nbi0 es0 a0 a1 v00 v01 v10 v11 :
  (0 <= k)%Z -> (0 <= size)%Z -> (forall p, length (kd_find kd p k) = Z.to_nat k) ->
  (forall j, (0 <= j < size)%Z ->
     eig_shape 2 (eig (covariance N 2 3 (map (fun i => l3 (points i)) (kd_find kd (points j) k))))) ->
  let '(nrm, cv, rl, _, _, _, _, _, _, _, _) :=
    src_compute_kd_ncr_H2 N kd_find eig points size kd normals curvatures reliab k nbi0 es0 a0 a1 v00 v01 v10 v11 in
  forall j,
    ((0 <= j < size)%Z ->
     let e := estimate_point N eig false 2 3 (l3 (points j)) (map (fun i => l3 (points i)) (kd_find kd (points j) k)) (l3 (normals j)) in
     (l3 (nrm j), cv j, rl j) = (e_normal e, e_curvature e, e_reliability e)) /\
    (~ (0 <= j < size)%Z -> (l3 (nrm j), cv j, rl j) = (l3 (normals j), curvatures j, reliab j)).
Proof.
  intros Hk Hsz Hkd Hshape.
  compute_tie N @src_compute_kd_ncr_H2 (tie_plane_H2 N eig kd_find) (@src_flip_H2) (tie_flip_H2 N L) (@l3 T) 2%nat 3%nat eig kd_find kd points k size Hsz Hshape.
Qed.

Lemma tie_compute_kd_ncr_H3 (kd_find : K -> T * T * T * T -> Z -> list Z) points size kd normals curvatures reliab k nbi0 es0 a0 a1 a2 v00 v01 v02 v10 v11 v12 v20 v21 v22 :
  (0 <= k)%Z -> (0 <= size)%Z -> (forall p, length (kd_find kd p k) = Z.to_nat k) ->
  (forall j, (0 <= j < size)%Z ->
     eig_shape 3 (eig (covariance N 3 4 (map (fun i => l4 (points i)) (kd_find kd (points j) k))))) ->
  let '(nrm, cv, rl, _, _, _, _, _, _, _, _, _, _, _, _, _, _) :=
    src_compute_kd_ncr_H3 N kd_find eig points size kd normals curvatures reliab k nbi0 es0 a0 a1 a2 v00 v01 v02 v10 v11 v12 v20 v21 v22 in
  forall j,
    ((0 <= j < size)%Z ->
     let e := estimate_point N eig false 3 4 (l4 (points j)) (map (fun i => l4 (points i)) (kd_find kd (points j) k)) (l4 (normals j)) in
     (l4 (nrm j), cv j, rl j) = (e_normal e, e_curvature e, e_reliability e)) /\
    (~ (0 <= j < size)%Z -> (l4 (nrm j), cv j, rl j) = (l4 (normals j), curvatures j, reliab j)).
Proof.
  intros Hk Hsz Hkd Hshape.
  compute_tie N @src_compute_kd_ncr_H3 (tie_plane_H3 N eig kd_find) (@src_flip_H3) (tie_flip_H3 N L) (@l4 T) 3%nat 4%nat eig kd_find kd points k size Hsz Hshape.
Qed.

End Compute.

(* the real dictionary *)
Lemma NormLits_R : NormLits ROps.
Proof. split; [reflexivity|]. intros x. cbn. lra. Qed.

Lemma contract_shape dim C r : (0 < dim)%nat -> eig_contract dim C r -> eig_shape dim r.
Proof. intros Hd (H1 & _ & H3 & _). split; [exact H1|apply H3; exact Hd]. Qed.

(* reading the ties of compute() over the reals.
   Ht : a tie_compute_kd_ncr_<I> for a run of compute(), Hc : the solver's contract at every point.  The outputs of the run
   are named and the tie is read at point j; the written normal is then the model's, to which the C09 theorems apply. *)
Ltac name_run Ht := lazymatch type of Ht with match ?run with _ => _ end => destruct run as [? ?] end; destruct_tuples.

Ltac unit_facing Ht Hc :=
  name_run Ht;
  let j := fresh "j" in let Hj := fresh "Hj" in let Q := fresh "Q" in
  intros j Hj; destruct (Ht j) as [Q _]; specialize (Q Hj); cbv zeta in Q; injection Q as Q _ _; rewrite Q; cbv zeta;
  split; [apply normal_unit|apply normal_faces_sensor]; auto; exact (Hc j Hj).

(* two runs, on a cloud and on the turned cloud, with the same neighbour indexes (Hnb); core : rotation_equivariance_indexed
   applied to the two clouds *)
Ltac cloud_rotation Ht Ht' Hnb Hc Hc' core :=
  name_run Ht; name_run Ht';
  let j := fresh "j" in let Hj := fresh "Hj" in let Gap := fresh "Gap" in
  let Q1 := fresh "Q" in let Q2 := fresh "Q" in let Q1' := fresh "Q" in let Q2' := fresh "Q" in
  intros j Hj; destruct (Ht j) as [Q1 _]; destruct (Ht' j) as [Q1' _];
  specialize (Q1 Hj); specialize (Q1' Hj); specialize (Hc j Hj); specialize (Hc' j Hj);
  cbv zeta in Q1, Q1', Hc, Hc'; injection Q1 as Q1 Q2 _; injection Q1' as Q1' Q2' _;
  rewrite (Hnb j Hj) in Q1', Q2', Hc';
  cbv zeta; intros Gap; rewrite Q1, Q1', Q2, Q2'; apply core; assumption.
