(* KabschLists.v — C04: the list sums of the model ([mean_of], [cross_cov], [assemble] of KabschModel.v) identified with the
   finite sums of the function view used by the optimality theorems (KabschProofs.v, KabschProper.v), and the resulting
   theorems about the output of [estimate_pairs] itself: least-squares optimal among all proper rigid motions (rotation
   AND translation), exact recovery of (R0, tau0) from exact data of rank >= d-1. *)
From Coq Require Import Reals List Arith ZArith Lia Lra Bool Psatz.
From Romea Require Import Num NumR LinAlgBModel LinAlgBProofs LsProofs KabschModel KabschProofs KabschProper.
Import ListNotations.
Local Open Scope R_scope.

Local Notation mg := (mget ROps).
Local Notation vg := (vget ROps).

(* ---- finite sums ---- *)
Lemma Rsum_shift n f : Rsum (S n) f = f 0%nat + Rsum n (fun i => f (S i)).
Proof.
  induction n as [|n IH].
  - cbn [sumn]. rsimpl. ring.
  - rewrite (Rsum_S (S n)), IH, (Rsum_S n (fun i => f (S i))). ring.
Qed.

Lemma Rsum_const n c : Rsum n (fun _ => c) = IZR (Z.of_nat n) * c.
Proof.
  induction n as [|n IH].
  - cbn. ring.
  - rewrite Rsum_S, IH, Nat2Z.inj_succ, succ_IZR. ring.
Qed.

Lemma Rsum_tail_zero d n f : (d <= n)%nat -> (forall l, (d <= l)%nat -> f l = 0) -> Rsum n f = Rsum d f.
Proof.
  intros Hdn Hz. induction n as [|n IH].
  - now replace d with 0%nat by lia.
  - destruct (Nat.eq_dec d (S n)) as [->|Hne]; [reflexivity|].
    rewrite Rsum_S, IH by lia. rewrite (Hz n) by lia. ring.
Qed.

(* ---- list sums ---- *)
Lemma sum_list_nil {A} (f : A -> R) : sum_list ROps f [] = 0.
Proof. reflexivity. Qed.

Lemma sum_list_Rsum {A} (f : A -> R) (dflt : A) l :
  sum_list ROps f l = Rsum (length l) (fun n => f (nth n l dflt)).
Proof.
  induction l as [|x l IH].
  - reflexivity.
  - rewrite sum_list_cons, IH. cbn [length]. rewrite Rsum_shift. reflexivity.
Qed.

Lemma sum_list_map {A B} (g : A -> B) (f : B -> R) l : sum_list ROps f (map g l) = sum_list ROps (fun x => f (g x)) l.
Proof.
  induction l as [|x l IH]; [reflexivity|]. cbn [map]. now rewrite !sum_list_cons, IH.
Qed.

(* ---- the function view of a list of pairs ---- *)
Section Pairs.
Variables (d ps : nat) (pairs : list (list R * list R)).

Definition p_N : nat := length pairs.
Definition p_src (n i : nat) : R := vg (fst (nth n pairs ([], []))) i.
Definition p_tgt (n i : nat) : R := vg (snd (nth n pairs ([], []))) i.
Definition p_sm : list R := mean_of ROps ps (map fst pairs).
Definition p_tm : list R := mean_of ROps ps (map snd pairs).
(* centred coordinates *)
Definition Sc (n i : nat) : R := p_src n i - vg p_sm i.
Definition Tc (n i : nat) : R := p_tgt n i - vg p_tm i.

Lemma p_sm_get i : (i < ps)%nat -> vg p_sm i = Rsum p_N (fun n => p_src n i) / IZR (Z.of_nat p_N).
Proof.
  intros Hi. unfold p_sm, mean_of. rewrite vget_tab by exact Hi. rsimpl. unfold nat_to_T. rsimpl.
  rewrite map_length, sum_list_map, (sum_list_Rsum _ ([], [])). reflexivity.
Qed.
Lemma p_tm_get i : (i < ps)%nat -> vg p_tm i = Rsum p_N (fun n => p_tgt n i) / IZR (Z.of_nat p_N).
Proof.
  intros Hi. unfold p_tm, mean_of. rewrite vget_tab by exact Hi. rsimpl. unfold nat_to_T. rsimpl.
  rewrite map_length, sum_list_map, (sum_list_Rsum _ ([], [])). reflexivity.
Qed.

Lemma p_N_nonzero : pairs <> [] -> IZR (Z.of_nat p_N) <> 0.
Proof.
  intros Hne. unfold p_N. destruct pairs as [|x l]; [congruence|]. apply not_0_IZR. cbn [length]. lia.
Qed.

(* the cross covariance computed by the model is the finite sum of the function view *)
Lemma cross_cov_get i j : (i < d)%nat -> (j < d)%nat ->
  mg (cross_cov ROps d pairs p_sm p_tm) i j = Ccov p_N Sc Tc i j.
Proof.
  intros Hi Hj. unfold cross_cov. rewrite mget_mtab by assumption.
  rewrite (sum_list_Rsum _ ([], [])). unfold Ccov. apply Rsum_ext. intros n _. reflexivity.
Qed.

(* the means computed by the model centre the pairs *)
Lemma Sc_centred i : (i < ps)%nat -> pairs <> [] -> Rsum p_N (fun n => Sc n i) = 0.
Proof.
  intros Hi Hne. unfold Sc. rewrite Rsum_minus, Rsum_const, (p_sm_get i Hi). field. now apply p_N_nonzero.
Qed.
Lemma Tc_centred i : (i < ps)%nat -> pairs <> [] -> Rsum p_N (fun n => Tc n i) = 0.
Proof.
  intros Hi Hne. unfold Tc. rewrite Rsum_minus, Rsum_const, (p_tm_get i Hi). field. now apply p_N_nonzero.
Qed.

(* ---- the matrix assembled by the model ---- *)
Lemma assemble_block Rm sm tm i j : (i < d)%nat -> (j < d)%nat -> mg (assemble ROps d ps Rm sm tm) i j = mg Rm i j.
Proof.
  intros Hi Hj. unfold assemble. rewrite mget_mtab by lia.
  replace (Nat.eqb j d) with false by (symmetry; apply Nat.eqb_neq; lia). cbn [andb].
  replace (Nat.ltb i d) with true by (symmetry; apply Nat.ltb_lt; lia).
  replace (Nat.ltb j d) with true by (symmetry; apply Nat.ltb_lt; lia). reflexivity.
Qed.

Lemma assemble_col Rm sm tm i : (i < d)%nat -> (d <= ps)%nat ->
  mg (assemble ROps d ps Rm sm tm) i d = vg tm i - Rsum d (fun l => mg Rm i l * vg sm l).
Proof.
  intros Hi Hps. unfold assemble. rewrite mget_mtab by lia.
  rewrite Nat.eqb_refl. replace (Nat.ltb i ps) with true by (symmetry; apply Nat.ltb_lt; lia). cbn [andb].
  replace (Nat.ltb i d) with true by (symmetry; apply Nat.ltb_lt; lia).
  rewrite Nat.ltb_irrefl. cbn [andb]. rewrite fid_delta, (delta_diff i d) by lia. rsimpl.
  rewrite (Rsum_tail_zero d ps).
  - rewrite (Rsum_ext d _ (fun l => mg Rm i l * vg sm l)); [lra|].
    intros l Hl. replace (Nat.ltb l d) with true by (symmetry; apply Nat.ltb_lt; lia). reflexivity.
  - exact Hps.
  - intros l Hl. replace (Nat.ltb l d) with false by (symmetry; apply Nat.ltb_ge; lia). cbn [andb].
    rewrite fid_delta, (delta_diff i l) by lia. ring.
Qed.

(* ---- the registration cost of a rigid motion (Rm, t) on the listed pairs themselves (not centred) ---- *)
Definition fcost (Rm : nat -> nat -> R) (t : nat -> R) : R :=
  Rsum p_N (fun n => Rsum d (fun i =>
    (Rsum d (fun j => Rm i j * p_src n j) + t i - p_tgt n i) * (Rsum d (fun j => Rm i j * p_src n j) + t i - p_tgt n i))).

(* with the translation tm - Rm sm the cost is the cost of Rm on the centred pairs *)
Lemma fcost_centred Rm :
  fcost Rm (fun i => vg p_tm i - Rsum d (fun j => Rm i j * vg p_sm j)) = rcost d p_N Sc Tc Rm.
Proof.
  unfold fcost, rcost. apply Rsum_ext. intros n _. apply Rsum_ext. intros i _.
  pose proof (translation_maps d Rm (p_src n) (vg p_sm) (vg p_tm) i) as E. unfold Sc, Tc.
  assert (E' : Rsum d (fun j => Rm i j * p_src n j) + (vg p_tm i - Rsum d (fun j => Rm i j * vg p_sm j)) - p_tgt n i
             = Rsum d (fun j => Rm i j * (p_src n j - vg p_sm j)) - (p_tgt n i - vg p_tm i)) by lra.
  now rewrite E'.
Qed.

(* any other translation costs more: fcost Q tau = rcost Q + N |Q sm + tau - tm|^2 *)
Lemma fcost_ge_rcost Q tau : (d <= ps)%nat -> pairs <> [] -> rcost d p_N Sc Tc Q <= fcost Q tau.
Proof.
  intros Hps Hne.
  set (c := fun i => Rsum d (fun j => Q i j * vg p_sm j) + tau i - vg p_tm i).
  set (r := fun n i => Rsum d (fun j => Q i j * Sc n j) - Tc n i).
  assert (Hterm : forall n i, Rsum d (fun j => Q i j * p_src n j) + tau i - p_tgt n i = r n i + c i).
  { intros n i. unfold r, c, Sc, Tc.
    rewrite (Rsum_ext d (fun j => Q i j * (p_src n j - vg p_sm j)) (fun j => Q i j * p_src n j - Q i j * vg p_sm j)) by (intros; ring).
    rewrite Rsum_minus. ring. }
  assert (Hr0 : forall i, (i < d)%nat -> Rsum p_N (fun n => r n i) = 0).
  { intros i Hi. unfold r. rewrite Rsum_minus, (Tc_centred i) by (assumption || lia).
    rewrite Rsum_swap. rewrite (Rsum_ext d _ (fun j => Q i j * Rsum p_N (fun n => Sc n j))) by (intros; now rewrite Rsum_scal_l).
    rewrite (Rsum_zero d); [ring|]. intros j Hj. rewrite (Sc_centred j) by (assumption || lia). ring. }
  unfold fcost.
  rewrite (Rsum_ext p_N _ (fun n => Rsum d (fun i => r n i * r n i) + (2 * Rsum d (fun i => c i * r n i) + Rsum d (fun i => c i * c i)))).
  2:{ intros n _. rewrite <- Rsum_scal_l, <- !Rsum_plus. apply Rsum_ext. intros i _. rewrite Hterm. ring. }
  rewrite !Rsum_plus, Rsum_scal_l.
  assert (Hcross : Rsum p_N (fun n => Rsum d (fun i => c i * r n i)) = 0).
  { rewrite Rsum_swap. apply Rsum_zero. intros i Hi. rewrite Rsum_scal_l, (Hr0 i Hi). ring. }
  rewrite Hcross.
  assert (Hsq : 0 <= Rsum p_N (fun _ => Rsum d (fun i => c i * c i))).
  { apply Rsum_nonneg. intros. apply Rsum_nonneg. intros. apply Rle_0_sqr. }
  change (rcost d p_N Sc Tc Q) with (Rsum p_N (fun n => Rsum d (fun i => r n i * r n i))). lra.
Qed.

(* exact data t_n = R0 s_n + tau0: the centred targets are R0 times the centred sources, and tm = R0 sm + tau0 *)
Lemma exact_mean R0 tau0 : (d <= ps)%nat -> pairs <> [] ->
  (forall n i, (n < p_N)%nat -> (i < d)%nat -> p_tgt n i = Rsum d (fun j => R0 i j * p_src n j) + tau0 i) ->
  forall i, (i < d)%nat -> vg p_tm i = Rsum d (fun j => R0 i j * vg p_sm j) + tau0 i.
Proof.
  intros Hps Hne Hex i Hi. pose proof (p_N_nonzero Hne) as HN.
  rewrite p_tm_get by lia.
  rewrite (Rsum_ext p_N _ (fun n => Rsum d (fun j => R0 i j * p_src n j) + tau0 i)) by (intros n Hn; now apply Hex).
  rewrite Rsum_plus, Rsum_const, Rsum_swap.
  rewrite (Rsum_ext d (fun j => R0 i j * vg p_sm j) (fun j => Rsum p_N (fun n => R0 i j * p_src n j) / IZR (Z.of_nat p_N))).
  2:{ intros j Hj. rewrite p_sm_get by lia. rewrite Rsum_scal_l. field. exact HN. }
  unfold Rdiv at 2. rewrite Rsum_scal_r. field. exact HN.
Qed.

Lemma exact_centred R0 tau0 : (d <= ps)%nat -> pairs <> [] ->
  (forall n i, (n < p_N)%nat -> (i < d)%nat -> p_tgt n i = Rsum d (fun j => R0 i j * p_src n j) + tau0 i) ->
  forall n i, (n < p_N)%nat -> (i < d)%nat -> Tc n i = Rsum d (fun j => R0 i j * Sc n j).
Proof.
  intros Hps Hne Hex n i Hn Hi. unfold Tc, Sc. rewrite (Hex n i Hn Hi), (exact_mean R0 tau0 Hps Hne Hex i Hi).
  rewrite (Rsum_ext d (fun j => R0 i j * (p_src n j - vg p_sm j)) (fun j => R0 i j * p_src n j - R0 i j * vg p_sm j)) by (intros; ring).
  rewrite Rsum_minus. ring.
Qed.

End Pairs.

(* ---- the output of [estimate_pairs] (repaired code) ---- *)
Section Estimate.
Variable svd_of : nat -> list (list R) -> (list (list R) * list R) * list (list R).
Variables (d ps : nat) (pairs : list (list R * list R)).
Hypothesis Hd : (d = 2 \/ d = 3)%nat.
Hypothesis Hps : (d <= ps)%nat.
Hypothesis Hne : pairs <> [].

Let cov := cross_cov ROps d pairs (p_sm ps pairs) (p_tm ps pairs).
Let H := estimate_pairs ROps svd_of true d ps pairs.
Let Rblock := rotation_of ROps svd_of true d cov.

Hypothesis Hc : svd_contract d cov (svd_of d cov).

Lemma estimate_block i j : (i < d)%nat -> (j < d)%nat -> mg H i j = mg Rblock i j.
Proof. intros Hi Hj. unfold H, estimate_pairs. now apply assemble_block. Qed.

Lemma estimate_col i : (i < d)%nat ->
  mg H i d = vg (p_tm ps pairs) i - Rsum d (fun l => mg H i l * vg (p_sm ps pairs) l).
Proof.
  intros Hi. unfold H at 1. unfold estimate_pairs. rewrite assemble_col by assumption.
  f_equal. apply Rsum_ext. intros l Hl. now rewrite estimate_block.
Qed.

Lemma fcost_ext Rm Rm' t t' :
  (forall i j, (i < d)%nat -> (j < d)%nat -> Rm i j = Rm' i j) -> (forall i, (i < d)%nat -> t i = t' i) ->
  fcost d pairs Rm t = fcost d pairs Rm' t'.
Proof.
  intros HR Ht. unfold fcost. apply Rsum_ext. intros n _. apply Rsum_ext. intros i Hi.
  rewrite (Rsum_ext d (fun j => Rm i j * p_src pairs n j) (fun j => Rm' i j * p_src pairs n j)) by (intros j Hj; now rewrite HR).
  now rewrite Ht.
Qed.

(* the linear part of the estimate is a proper rotation *)
Theorem estimate_is_proper_rotation : is_orth d (mg H) /\ fdet ROps d (mg H) = 1.
Proof.
  split.
  - intros a b Ha Hb.
    rewrite (Rsum_ext d _ (fun l => mg Rblock l a * mg Rblock l b)) by (intros l Hl; now rewrite !estimate_block).
    exact (rotation_orthogonal svd_of d cov Hc true a b Ha Hb).
  - rewrite (fdet_ext d (mg H) (mg Rblock) Hd) by (intros; now apply estimate_block).
    exact (rotation_proper svd_of d cov Hd Hc).
Qed.

(* least-squares optimality of the estimate among ALL proper rigid motions x -> Q x + tau *)
Theorem estimate_optimal Q tau : is_orth d Q -> fdet ROps d Q = 1 ->
  fcost d pairs (mg H) (fun i => mg H i d) <= fcost d pairs Q tau.
Proof.
  intros HQ HdQ.
  rewrite (fcost_ext (mg H) (mg H) (fun i => mg H i d)
             (fun i => vg (p_tm ps pairs) i - Rsum d (fun j => mg H i j * vg (p_sm ps pairs) j))
             (fun _ _ _ _ => eq_refl) estimate_col).
  rewrite fcost_centred.
  rewrite (rcost_ext d _ _ _ (mg H) (mg Rblock)) by (intros; now apply estimate_block).
  apply Rle_trans with (rcost d (p_N pairs) (Sc ps pairs) (Tc ps pairs) Q).
  - apply (rotation_of_optimal_proper svd_of d cov (p_N pairs) (Sc ps pairs) (Tc ps pairs) Hd Hc); [|exact HQ|exact HdQ].
    intros j i Hj Hi. symmetry. now apply cross_cov_get.
  - now apply fcost_ge_rcost.
Qed.

(* exact recovery: if every target is R0 s + tau0 (R0 a proper rotation) and the sources are not all collinear (3D) /
   not all coincident (2D), the estimate is (R0, tau0) *)
Theorem estimate_exact_recovery R0 tau0 : is_orth d R0 -> fdet ROps d R0 = 1 ->
  rank_ge_dm1 d (p_N pairs) (Sc ps pairs) ->
  (forall n i, (n < p_N pairs)%nat -> (i < d)%nat ->
     p_tgt pairs n i = Rsum d (fun j => R0 i j * p_src pairs n j) + tau0 i) ->
  (forall i j, (i < d)%nat -> (j < d)%nat -> mg H i j = R0 i j) /\ (forall i, (i < d)%nat -> mg H i d = tau0 i).
Proof.
  intros H0 Hd0 Hr Hex.
  assert (HB : forall i j, (i < d)%nat -> (j < d)%nat -> mg H i j = R0 i j).
  { intros i j Hi Hj. rewrite estimate_block by assumption.
    apply (rotation_of_exact_recovery svd_of d cov (p_N pairs) (Sc ps pairs) (Tc ps pairs) Hd Hc); try assumption.
    - intros j' i' Hj' Hi'. symmetry. now apply cross_cov_get.
    - intros n i' Hn Hi'. now apply (exact_centred d ps pairs R0 tau0). }
  split; [exact HB|].
  intros i Hi. rewrite estimate_col by exact Hi.
  rewrite (exact_mean d ps pairs R0 tau0 Hps Hne Hex i Hi).
  rewrite (Rsum_ext d (fun l => mg H i l * vg (p_sm ps pairs) l) (fun l => R0 i l * vg (p_sm ps pairs) l))
    by (intros l Hl; now rewrite HB).
  ring.
Qed.

(* and then every source is mapped onto its target *)
Corollary estimate_exact_maps R0 tau0 : is_orth d R0 -> fdet ROps d R0 = 1 ->
  rank_ge_dm1 d (p_N pairs) (Sc ps pairs) ->
  (forall n i, (n < p_N pairs)%nat -> (i < d)%nat ->
     p_tgt pairs n i = Rsum d (fun j => R0 i j * p_src pairs n j) + tau0 i) ->
  forall n i, (n < p_N pairs)%nat -> (i < d)%nat ->
    Rsum d (fun j => mg H i j * p_src pairs n j) + mg H i d = p_tgt pairs n i.
Proof.
  intros H0 Hd0 Hr Hex n i Hn Hi. destruct (estimate_exact_recovery R0 tau0 H0 Hd0 Hr Hex) as (HB & HT).
  rewrite (Hex n i Hn Hi), (HT i Hi). f_equal. apply Rsum_ext. intros j Hj. now rewrite HB.
Qed.

End Estimate.
