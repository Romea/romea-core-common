(* BoxFloat.v — C20 (bounding volumes, intervals, point-set extents) at the floating-point level
   (IEEE-754 binary64 and binary32).
   The SAME generic model (BoxModel.v) is instantiated at the dictionary [FlOps prec emin : NumOps R] of GridMapFloat.v:
   +, -, *, / are the real operation followed by ONE rounding to nearest-even in the format with [prec] significand
   bits and smallest exponent [emin] (Flocq: [round radix2 (FLT_exp emin prec) ZnearestE]); comparisons, negation and
   |.| are exact.     binary64 = FlOps 53 (-1074) (B64Ops),   binary32 = FlOps 24 (-149) (B32Ops).
   The format has no largest exponent: overflow is not modelled.  It is excluded by hypotheses on the data where it
   matters (the extents theorems ask every coordinate to be at most the largest finite number, DBL_MAX / FLT_MAX, in
   magnitude; they involve comparisons only, so nothing can overflow), and the statements about containment and the
   interval <-> box round trip are about the unbounded-exponent format: they coincide with IEEE-754 whenever
   hi + lo, hi - lo, p - c stay below the overflow threshold.

   Everything is proved once for any format (Sections Fmt and FmtRoundTrip, the lemmas named fl_...); the property theorems instantiate it at
   53 (-1074) and 24 (-149).
   (a) EXTENTS ARE EXACT.  The running minimum / maximum (EigenContainers min / max, PointSetPreconditioner) use
       comparisons only: the folds are literally the real-number folds (fl_min_fold_exact, fl_max_fold_exact), and for
       every non-empty point list within the finite range the result is, per axis, an element of the data that bounds
       all the data (fl_extents_exact, fl_precond_extents_exact).
   (b) CONTAINMENT.  AxisAlignedBoundingBox::isInside rounds once (p - c); |.| and <= are exact.
       fl_aabb_inside_iff            : isInside <-> forall i, |rnd (p_i - c_i)| <= h_i
       fl_real_inside_float_inside   : h_i floats, |p_i - c_i| <= h_i  ->  isInside   (no margin)
       fl_float_inside_real_inside   : h_i floats, isInside -> |p_i - c_i| <= h_i + ulp(h_i)/2
       fl_aabb_inside_exact_sub      : p_i - c_i representable (e.g. Sterbenz, fl_sterbenz) -> the float test IS the real test
       fl_interval_inside_exact      : Interval::isInside does no arithmetic: same as over the reals
   (c) INTERVAL -> BOX -> INTERVAL.  Per axis c = rnd (rnd (hi + lo) / 2), h = rnd (rnd (hi - lo) / 2),
       lower' = rnd (c - h), upper' = rnd (c + h)  (fl_roundtrip_unfold).  For ALL reals lo, hi:
         |lower' - lo|, |upper' - hi| <= 6 u M + 5 eta,   M = max |lo| |hi|,  u = 2^-prec, eta = half the least subnormal
       (fl_roundtrip_error), and the round trip is exact when hi + lo, hi - lo, their halves, lo and hi are
       representable (fl_roundtrip_exact): this covers dyadic test data.
   Also: the literal laws NumLits (BoxLits.v) of the rounded dictionaries (fl_NumLits), and two binary64 witnesses showing
   that the margin of (b) and the error of (c) are not artefacts. *)
From Coq Require Import Reals ZArith List Bool Lra Lia.
From Flocq Require Import Core Sterbenz.
From Romea Require Import Num NumR BoxModel BoxProofs GridMapFloat BoxLits.
Import ListNotations.
Local Open Scope R_scope.

Section Fmt.
Variables prec emin : Z.
Context {prec_gt_0_ : Prec_gt_0 prec}.

Local Notation rnd := (frnd prec emin).
Local Notation fmt := (ffmt prec emin).
Local Notation Ops := (FlOps prec emin).
Local Notation u := (fl_u prec).
Local Notation eta := (fl_eta emin).
Local Notation fexp := (FLT_exp emin prec).

Lemma fl_nmin2 : nmin2 Ops = nmin2 ROps.
Proof. reflexivity. Qed.
Lemma fl_nmax2 : nmax2 Ops = nmax2 ROps.
Proof. reflexivity. Qed.

Lemma fl_min_fold_exact (pts : list (list R)) (acc0 : list R) :
  fold_left (fun acc p => map2 (nmin2 Ops) acc p) pts acc0 = fold_left (fun acc p => map2 (nmin2 ROps) acc p) pts acc0.
Proof. reflexivity. Qed.
Lemma fl_max_fold_exact (pts : list (list R)) (acc0 : list R) :
  fold_left (fun acc p => map2 (nmax2 Ops) acc p) pts acc0 = fold_left (fun acc p => map2 (nmax2 ROps) acc p) pts acc0.
Proof. reflexivity. Qed.

Theorem fl_extents_exact n (pts : list (list R)) : pts <> [] -> Forall (fun p => length p = n) pts ->
  (forall p x, In p pts -> In x p -> Rabs x <= nmaxval Ops) ->
  forall i, (i < n)%nat ->
    is_min (coords pts i) (cont_min Ops n pts).[i] /\ is_max (coords pts i) (cont_max Ops n pts).[i].
Proof. intros Hne Hf Hb i Hi. exact (running_extents n pts i (nmaxval Ops) Hne Hf Hi Hb). Qed.

Theorem fl_precond_extents_exact size cdim (pts : list (list R)) :
  pts <> [] -> Forall (fun p => length p = size) pts ->
  (forall p x, In p pts -> In x p -> Rabs x <= nmaxval Ops) ->
  forall i, (i < size)%nat ->
    is_min (coords pts i) (pc_min (precond_compute Ops size cdim pts)).[i] /\
    is_max (coords pts i) (pc_max (precond_compute Ops size cdim pts)).[i].
Proof. intros Hne Hf Hb i Hi. exact (running_extents size pts i (nmaxval Ops) Hne Hf Hi Hb). Qed.

(* the largest finite number is at least 4 in every format with emin + prec <= 0 (so that the range hypothesis of
   the two theorems above is satisfiable by ordinary data) *)
Lemma fl_maxval_ge_4 : (emin + prec <= 0)%Z -> 4 <= nmaxval Ops.
Proof.
  intros H. cbn [nmaxval FlOps].
  assert (A : bpow radix2 (- prec) <= / 2).
  { change (/ 2) with (bpow radix2 (-1)). apply bpow_le. unfold Prec_gt_0 in prec_gt_0_. lia. }
  assert (B : 8 <= bpow radix2 (3 - emin - prec)).
  { replace 8 with (bpow radix2 3) by (simpl; lra). apply bpow_le. lia. }
  pose proof (bpow_gt_0 radix2 (- prec)). nra.
Qed.

Lemma fl_extents_hyps_sat : (emin + prec <= 0)%Z ->
  [[1; 2]; [3; -4]] <> [] /\ Forall (fun p : list R => length p = 2%nat) [[1; 2]; [3; -4]] /\
  (forall p x, In p [[1; 2]; [3; -4]] -> In x p -> Rabs x <= nmaxval Ops).
Proof.
  intros H. pose proof (fl_maxval_ge_4 H). split; [discriminate|]. split; [repeat constructor|].
  apply bounded_Forall. repeat first [apply Forall_cons|apply Forall_nil]; apply Rabs_le; lra.
Qed.

Lemma fl_aabb_inside_iff (c h p : list R) : length c = length h -> length p = length c ->
  (aabb_inside Ops {| a_center := c; a_half := h |} p = true <->
   forall i, (i < length c)%nat -> Rabs (rnd (p.[i] - c.[i])) <= h.[i]).
Proof.
  intros Hch Hpc. rewrite aabb_inside_nth by assumption.
  split; intros H i Hi; apply Rleb_true, H, Hi.
Qed.

Theorem fl_real_inside_float_inside (c h p : list R) : length c = length h -> length p = length c ->
  (forall i, (i < length c)%nat -> fmt h.[i]) ->
  (forall i, (i < length c)%nat -> Rabs (p.[i] - c.[i]) <= h.[i]) ->
  aabb_inside Ops {| a_center := c; a_half := h |} p = true.
Proof.
  intros Hch Hpc Fh H. apply fl_aabb_inside_iff; try assumption.
  intros i Hi. exact (rnd_abs_le prec emin _ _ (Fh i Hi) (H i Hi)).
Qed.

Lemma fl_ulp_pos h : 0 < ulp radix2 fexp h.
Proof.
  destruct (Req_dec h 0) as [->|Hz].
  - rewrite ulp_FLT_0 by assumption. apply bpow_gt_0.
  - rewrite ulp_neq_0 by exact Hz. apply bpow_gt_0.
Qed.

(* |rnd x| <= h with h a float  ->  |x| is at most half a unit in the last place above h *)
Lemma rnd_abs_le_inv x h : fmt h -> Rabs (rnd x) <= h -> Rabs x <= h + / 2 * ulp radix2 fexp h.
Proof.
  intros Fh H.
  assert (Hh : 0 <= h) by (pose proof (Rabs_pos (rnd x)); lra).
  destruct (Rle_or_lt (Rabs x) (h + / 2 * ulp radix2 fexp h)) as [L|L]; [exact L|exfalso].
  assert (Hs : succ radix2 fexp h = h + ulp radix2 fexp h) by (apply succ_eq_pos; exact Hh).
  pose proof (fl_ulp_pos h) as Hu.
  assert (G : succ radix2 fexp h <= rnd (Rabs x)).
  { unfold frnd. apply round_N_ge_midp; auto with typeclass_instances.
    - apply generic_format_succ; auto with typeclass_instances.
    - rewrite pred_succ by (auto with typeclass_instances). rewrite Hs. lra. }
  unfold frnd in G, H. rewrite round_NE_abs in G by (auto with typeclass_instances). lra.
Qed.

Theorem fl_float_inside_real_inside (c h p : list R) : length c = length h -> length p = length c ->
  (forall i, (i < length c)%nat -> fmt h.[i]) ->
  aabb_inside Ops {| a_center := c; a_half := h |} p = true ->
  forall i, (i < length c)%nat -> Rabs (p.[i] - c.[i]) <= h.[i] + / 2 * ulp radix2 fexp h.[i].
Proof.
  intros Hch Hpc Fh H i Hi. rewrite fl_aabb_inside_iff in H by assumption.
  apply rnd_abs_le_inv; [apply Fh; exact Hi|apply H; exact Hi].
Qed.

Theorem fl_aabb_inside_exact_sub (c h p : list R) : length c = length h -> length p = length c ->
  (forall i, (i < length c)%nat -> fmt (p.[i] - c.[i])) ->
  aabb_inside Ops {| a_center := c; a_half := h |} p = aabb_inside ROps {| a_center := c; a_half := h |} p /\
  (aabb_inside Ops {| a_center := c; a_half := h |} p = true <->
   forall i, (i < length c)%nat -> Rabs (p.[i] - c.[i]) <= h.[i]).
Proof.
  intros Hch Hpc Fs.
  assert (E : aabb_inside Ops {| a_center := c; a_half := h |} p = true <->
              forall i, (i < length c)%nat -> Rabs (p.[i] - c.[i]) <= h.[i]).
  { rewrite fl_aabb_inside_iff by assumption.
    split; intros H i Hi; specialize (H i Hi); [rewrite rnd_id in H|rewrite rnd_id]; auto. }
  split; [|exact E]. apply eq_true_iff_eq. rewrite E. symmetry. apply aabb_inside_abs_iff; assumption.
Qed.

(* Sterbenz: a sufficient condition for the subtraction to be exact *)
Lemma fl_sterbenz x y : fmt x -> fmt y -> y / 2 <= x <= 2 * y -> fmt (x - y).
Proof. unfold ffmt. apply sterbenz; auto with typeclass_instances. Qed.

Theorem fl_interval_inside_exact (i : interval) (v : list R) : interval_inside Ops i v = interval_inside ROps i v.
Proof. reflexivity. Qed.

Theorem fl_interval_inside_iff (lo hi v : list R) : length lo = length v -> length hi = length v ->
  (interval_inside Ops {| i_lower := lo; i_upper := hi |} v = true <->
   forall i, (i < length v)%nat -> lo.[i] <= v.[i] <= hi.[i]).
Proof. intros H1 H2. rewrite fl_interval_inside_exact. apply interval_inside_iff; assumption. Qed.

End Fmt.

(* the round trip and the literal laws need the constants 1, 2 (and 4) to be representable: at least 3 significand bits,
   and the exponent 0 available *)
Section FmtRoundTrip.
Variables prec emin : Z.
Context {prec_gt_0_ : Prec_gt_0 prec}.
Hypothesis Hprec : (3 <= prec)%Z.
Hypothesis Hemin : (emin <= 0)%Z.

Local Notation rnd := (frnd prec emin).
Local Notation fmt := (ffmt prec emin).
Local Notation Ops := (FlOps prec emin).
Local Notation u := (fl_u prec).
Local Notation eta := (fl_eta emin).

Definition rt_center (lo hi : R) : R := rnd (rnd (hi + lo) / 2).
Definition rt_half (lo hi : R) : R := rnd (rnd (hi - lo) / 2).
Definition rt_lower (lo hi : R) : R := rnd (rt_center lo hi - rt_half lo hi).
Definition rt_upper (lo hi : R) : R := rnd (rt_center lo hi + rt_half lo hi).

Lemma fl_fmt_small k : (Z.abs k <= 4)%Z -> fmt (IZR k).
Proof.
  intros Hk. apply fmt_int; [exact Hemin|]. pose proof (pow_prec_ge prec 3 ltac:(lia)). change (2 ^ 3)%Z with 8%Z in *. lia.
Qed.

Lemma ntwo_fl : ntwo Ops = 2.
Proof. unfold ntwo. cbn [nadd n_one FlOps]. unfold fl_add. replace (1 + 1) with 2 by lra. apply rnd_id, (fl_fmt_small 2). simpl; lia. Qed.

Lemma fl_roundtrip_unfold (lo hi : list R) i : length lo = length hi -> (i < length lo)%nat ->
  (i_lower (aabb_to_interval Ops (aabb_of_interval Ops {| i_lower := lo; i_upper := hi |}))).[i] = rt_lower lo.[i] hi.[i] /\
  (i_upper (aabb_to_interval Ops (aabb_of_interval Ops {| i_lower := lo; i_upper := hi |}))).[i] = rt_upper lo.[i] hi.[i].
Proof.
  intros HL Hi.
  unfold aabb_to_interval, aabb_of_interval, interval_center, interval_width, vhalf, vadd, vsub.
  cbn [i_lower i_upper a_center a_half]. rewrite ntwo_fl. cbn [nadd nsub ndiv FlOps].
  assert (L1 : length (map2 (fl_add prec emin) hi lo) = length lo) by (rewrite map2_length; lia).
  assert (L2 : length (map2 (fl_sub prec emin) hi lo) = length lo) by (rewrite map2_length; lia).
  unfold rt_lower, rt_upper, rt_center, rt_half.
  split; rewrite map2_nth by (rewrite !map_length; lia);
    rewrite !map_nth0 by lia; rewrite !map2_nth by lia; reflexivity.
Qed.

Lemma fl_u_le_8 : u <= / 8.
Proof.
  unfold fl_u. replace (/ 8) with (bpow radix2 (-3)) by (simpl; lra). apply bpow_le. lia.
Qed.

(* x |-> rnd (rnd x / 2): two roundings *)
Lemma half_err x B : Rabs x <= B -> Rabs (rnd (rnd x / 2) - x / 2) <= / 16 * (17 * (u * B) + 25 * eta).
Proof.
  intros H. pose proof (Rabs_pos x) as Hx. pose proof (u_pos prec) as U0. pose proof fl_u_le_8 as U8.
  pose proof (eta_pos emin) as E0. pose proof (err_bound prec emin x B H) as E1.
  assert (Ht : Rabs (x / 2) <= / 2 * B) by (apply Rabs_le; apply Rabs_le_inv in H; lra).
  assert (Hz : Rabs (rnd x / 2 - x / 2) <= / 2 * (u * B + eta)) by (apply Rabs_le; lra).
  pose proof (rnd_err_step prec emin _ _ _ _ Ht Hz) as E2.
  assert (P1 : 0 <= u * B) by nra.
  assert (P2 : u * (u * B) <= / 8 * (u * B)) by nra.
  assert (P3 : u * eta <= / 8 * eta) by nra.
  lra.
Qed.

Theorem fl_roundtrip_error (lo hi : R) :
  Rabs (rt_lower lo hi - lo) <= 6 * (u * Rmax (Rabs lo) (Rabs hi)) + 5 * eta /\
  Rabs (rt_upper lo hi - hi) <= 6 * (u * Rmax (Rabs lo) (Rabs hi)) + 5 * eta.
Proof.
  pose proof (Rmax_l (Rabs lo) (Rabs hi)) as Mlo. pose proof (Rmax_r (Rabs lo) (Rabs hi)) as Mhi.
  set (M := Rmax (Rabs lo) (Rabs hi)) in *.
  pose proof (u_pos prec) as U0. pose proof fl_u_le_8 as U8. pose proof (eta_pos emin) as E0.
  assert (M0 : 0 <= M) by (pose proof (Rabs_pos lo); lra).
  assert (Hs : Rabs (hi + lo) <= 2 * M) by (pose proof (Rabs_triang hi lo); lra).
  assert (Hd : Rabs (hi - lo) <= 2 * M).
  { unfold Rminus. pose proof (Rabs_triang hi (- lo)). rewrite Rabs_Ropp in *. lra. }
  pose proof (half_err _ _ Hs) as Ec. pose proof (half_err _ _ Hd) as Eh.
  fold (rt_center lo hi) in Ec. fold (rt_half lo hi) in Eh.
  (* centre - half and centre + half are within D of lo and hi *)
  set (D := / 8 * (17 * (u * (2 * M)) + 25 * eta)).
  assert (Dl : Rabs (rt_center lo hi - rt_half lo hi - lo) <= D)
    by (apply Rabs_le; apply Rabs_le_inv in Ec, Eh; unfold D; lra).
  assert (Du : Rabs (rt_center lo hi + rt_half lo hi - hi) <= D)
    by (apply Rabs_le; apply Rabs_le_inv in Ec, Eh; unfold D; lra).
  pose proof (rnd_err_step prec emin _ _ _ _ Mlo Dl) as El. pose proof (rnd_err_step prec emin _ _ _ _ Mhi Du) as Eu.
  assert (P1 : 0 <= u * M) by nra.
  assert (P2 : u * (u * M) <= / 8 * (u * M)) by nra.
  assert (P3 : u * eta <= / 8 * eta) by nra.
  unfold rt_lower, rt_upper, D in *. lra.
Qed.

Theorem fl_roundtrip_exact (lo hi : R) :
  fmt (hi + lo) -> fmt (hi - lo) -> fmt ((hi + lo) / 2) -> fmt ((hi - lo) / 2) -> fmt lo -> fmt hi ->
  rt_lower lo hi = lo /\ rt_upper lo hi = hi.
Proof.
  intros F1 F2 F3 F4 F5 F6. unfold rt_lower, rt_upper, rt_center, rt_half.
  rewrite (rnd_id _ _ _ F1), (rnd_id _ _ _ F2), (rnd_id _ _ _ F3), (rnd_id _ _ _ F4).
  replace ((hi + lo) / 2 - (hi - lo) / 2) with lo by field.
  replace ((hi + lo) / 2 + (hi - lo) / 2) with hi by field.
  split; apply rnd_id; assumption.
Qed.

Theorem fl_roundtrip_error_list (lo hi : list R) i : length lo = length hi -> (i < length lo)%nat ->
  Rabs ((i_lower (aabb_to_interval Ops (aabb_of_interval Ops {| i_lower := lo; i_upper := hi |}))).[i] - lo.[i])
    <= 6 * (u * Rmax (Rabs lo.[i]) (Rabs hi.[i])) + 5 * eta /\
  Rabs ((i_upper (aabb_to_interval Ops (aabb_of_interval Ops {| i_lower := lo; i_upper := hi |}))).[i] - hi.[i])
    <= 6 * (u * Rmax (Rabs lo.[i]) (Rabs hi.[i])) + 5 * eta.
Proof.
  intros HL Hi. destruct (fl_roundtrip_unfold lo hi i HL Hi) as [-> ->]. apply fl_roundtrip_error.
Qed.

Theorem fl_roundtrip_exact_list (lo hi : list R) i : length lo = length hi -> (i < length lo)%nat ->
  fmt (hi.[i] + lo.[i]) -> fmt (hi.[i] - lo.[i]) -> fmt ((hi.[i] + lo.[i]) / 2) -> fmt ((hi.[i] - lo.[i]) / 2) ->
  fmt lo.[i] -> fmt hi.[i] ->
  (i_lower (aabb_to_interval Ops (aabb_of_interval Ops {| i_lower := lo; i_upper := hi |}))).[i] = lo.[i] /\
  (i_upper (aabb_to_interval Ops (aabb_of_interval Ops {| i_lower := lo; i_upper := hi |}))).[i] = hi.[i].
Proof.
  intros HL Hi F1 F2 F3 F4 F5 F6. destruct (fl_roundtrip_unfold lo hi i HL Hi) as [-> ->].
  apply fl_roundtrip_exact; assumption.
Qed.

(* the representability hypotheses are satisfiable: [1, 3] -> centre 2, half 1 -> [1, 3] *)
Lemma fl_roundtrip_exact_hyps_sat : fmt (3 + 1) /\ fmt (3 - 1) /\ fmt ((3 + 1) / 2) /\ fmt ((3 - 1) / 2) /\ fmt 1 /\ fmt 3.
Proof.
  replace (3 + 1) with 4 by lra. replace (3 - 1) with 2 by lra. replace (4 / 2) with 2 by lra. replace (2 / 2) with 1 by lra.
  repeat split; apply fl_fmt_small; simpl; lia.
Qed.

Lemma fl_NumLits : NumLits Ops.
Proof.
  split.
  - intros a b. cbn [nadd FlOps]. unfold fl_add. f_equal. apply Rplus_comm.
  - intros a b. cbn [nmul FlOps]. unfold fl_mul. f_equal. apply Rmult_comm.
  - apply rnd_0.
  - cbn [nofZ n_one FlOps]. apply rnd_id, (fl_fmt_small 1). simpl; lia.
  - unfold ntwo. cbn [nofDec nadd n_one FlOps]. unfold fl_add. f_equal. simpl. lra.
  - intros a b. cbn [nmul nneg FlOps]. unfold fl_mul, frnd. replace (- a * b) with (- (a * b)) by ring.
    apply round_NE_opp.
Qed.

End FmtRoundTrip.

(* binary64: prec = 53, emin = -1074, u = 2^-53, eta = 2^-1075
   binary32: prec = 24, emin = -149,  u = 2^-24, eta = 2^-150 *)
Local Instance prec53_box : Prec_gt_0 53.
Proof. now unfold Prec_gt_0. Qed.
Local Instance prec24_box : Prec_gt_0 24.
Proof. now unfold Prec_gt_0. Qed.

Lemma forall_lt_1 (P : nat -> Prop) : P 0%nat -> forall i, (i < 1)%nat -> P i.
Proof. intros H [|i] Hi; [exact H|lia]. Qed.

Theorem box_minmax_exact_binary64 (pts : list (list R)) (acc0 : list R) :
  fold_left (fun acc p => map2 (nmin2 B64Ops) acc p) pts acc0 = fold_left (fun acc p => map2 (nmin2 ROps) acc p) pts acc0 /\
  fold_left (fun acc p => map2 (nmax2 B64Ops) acc p) pts acc0 = fold_left (fun acc p => map2 (nmax2 ROps) acc p) pts acc0.
Proof. split; reflexivity. Qed.

Theorem box_minmax_exact_binary32 (pts : list (list R)) (acc0 : list R) :
  fold_left (fun acc p => map2 (nmin2 B32Ops) acc p) pts acc0 = fold_left (fun acc p => map2 (nmin2 ROps) acc p) pts acc0 /\
  fold_left (fun acc p => map2 (nmax2 B32Ops) acc p) pts acc0 = fold_left (fun acc p => map2 (nmax2 ROps) acc p) pts acc0.
Proof. split; reflexivity. Qed.

(* nmaxval B64Ops = (1 - 2^-53) * 2^1024 is DBL_MAX, the same number as nmaxval ROps = (2 - 2^-52) * 2^1023:
   the range hypothesis of fl_extents_exact at binary64 is literally [bounded] of BoxProofs.v
   (nmaxval B32Ops = (1 - 2^-24) * 2^128 is FLT_MAX) *)
Lemma pow2_bpow e : powerRZ 2 e = bpow radix2 e.
Proof. rewrite bpow_powerRZ. reflexivity. Qed.

Lemma nmaxval_B64_R : nmaxval B64Ops = nmaxval ROps.
Proof.
  unfold B64Ops. cbn [nmaxval FlOps ROps]. rewrite !pow2_bpow.
  change (3 - -1074 - 53)%Z with (1023 + 1)%Z. change (-52)%Z with (- (53) + 1)%Z.
  rewrite !bpow_plus. change (bpow radix2 1) with 2. ring.
Qed.

Corollary box_extents_exact_bounded_binary64 n (pts : list (list R)) :
  pts <> [] -> Forall (fun p => length p = n) pts -> bounded pts ->
  forall i, (i < n)%nat ->
    is_min (coords pts i) (cont_min B64Ops n pts).[i] /\ is_max (coords pts i) (cont_max B64Ops n pts).[i] /\
    is_min (coords pts i) (pc_min (precond_compute B64Ops n n pts)).[i] /\
    is_max (coords pts i) (pc_max (precond_compute B64Ops n n pts)).[i].
Proof.
  intros Hne Hf Hb i Hi. unfold bounded in Hb. rewrite <- nmaxval_B64_R in Hb.
  destruct (fl_extents_exact 53 (-1074) n pts Hne Hf Hb i Hi) as [A B].
  destruct (fl_precond_extents_exact 53 (-1074) n n pts Hne Hf Hb i Hi) as [C D]. auto.
Qed.

(* the hypotheses are satisfiable (here by a 2-point set with negative coordinates) *)
Example box_extents_hyps_sat_binary64 :
  [[1; 2]; [3; -4]] <> [] /\ Forall (fun p : list R => length p = 2%nat) [[1; 2]; [3; -4]] /\
  (forall p x, In p [[1; 2]; [3; -4]] -> In x p -> Rabs x <= nmaxval B64Ops).
Proof. exact (fl_extents_hyps_sat 53 (-1074) ltac:(lia)). Qed.

Example box_extents_hyps_sat_binary32 :
  [[1; 2]; [3; -4]] <> [] /\ Forall (fun p : list R => length p = 2%nat) [[1; 2]; [3; -4]] /\
  (forall p x, In p [[1; 2]; [3; -4]] -> In x p -> Rabs x <= nmaxval B32Ops).
Proof. exact (fl_extents_hyps_sat 24 (-149) ltac:(lia)). Qed.

Theorem box_aabb_real_inside_float_inside_binary32 (c h p : list R) : length c = length h -> length p = length c ->
  (forall i, (i < length c)%nat -> b32 h.[i]) ->
  (forall i, (i < length c)%nat -> Rabs (p.[i] - c.[i]) <= h.[i]) ->
  aabb_inside B32Ops {| a_center := c; a_half := h |} p = true.
Proof. exact (fl_real_inside_float_inside 24 (-149) c h p). Qed.

(* the same, from the real-number model's verdict *)
Corollary box_aabb_real_model_inside_float_inside_binary64 (c h p : list R) :
  length c = length h -> length p = length c -> (forall i, (i < length c)%nat -> b64 h.[i]) ->
  aabb_inside ROps {| a_center := c; a_half := h |} p = true -> aabb_inside B64Ops {| a_center := c; a_half := h |} p = true.
Proof.
  intros Hch Hpc Fh H. apply (fl_real_inside_float_inside 53 (-1074)); try assumption.
  apply aabb_inside_abs_iff; assumption.
Qed.

Theorem box_aabb_inside_exact_sub_binary32 (c h p : list R) : length c = length h -> length p = length c ->
  (forall i, (i < length c)%nat -> b32 (p.[i] - c.[i])) ->
  aabb_inside B32Ops {| a_center := c; a_half := h |} p = aabb_inside ROps {| a_center := c; a_half := h |} p /\
  (aabb_inside B32Ops {| a_center := c; a_half := h |} p = true <->
   forall i, (i < length c)%nat -> Rabs (p.[i] - c.[i]) <= h.[i]).
Proof. exact (fl_aabb_inside_exact_sub 24 (-149) c h p). Qed.

(* Sterbenz: point and centre floats within a factor 2 of each other -> p - c is representable *)
Lemma box_sterbenz_binary32 x y : b32 x -> b32 y -> y / 2 <= x <= 2 * y -> b32 (x - y).
Proof. exact (fl_sterbenz 24 (-149) x y). Qed.

Theorem box_interval_inside_exact_binary64 (i : interval) (v : list R) :
  interval_inside B64Ops i v = interval_inside ROps i v.
Proof. reflexivity. Qed.

Theorem box_interval_inside_exact_binary32 (i : interval) (v : list R) :
  interval_inside B32Ops i v = interval_inside ROps i v.
Proof. reflexivity. Qed.

Theorem box_interval_inside_iff_binary32 (lo hi v : list R) : length lo = length v -> length hi = length v ->
  (interval_inside B32Ops {| i_lower := lo; i_upper := hi |} v = true <->
   forall i, (i < length v)%nat -> lo.[i] <= v.[i] <= hi.[i]).
Proof. exact (fl_interval_inside_iff 24 (-149) lo hi v). Qed.

(* the hypotheses of the containment theorems are satisfiable together: centre 0, half extent 1, point 1 (on the face) *)
Example box_aabb_hyps_sat_binary64 :
  length [0] = length [1] /\ length [1] = length [0] /\
  (forall i, (i < length [0])%nat -> b64 [1].[i]) /\
  (forall i, (i < length [0])%nat -> Rabs ([1].[i] - [0].[i]) <= [1].[i]) /\
  (forall i, (i < length [0])%nat -> b64 ([1].[i] - [0].[i])) /\
  aabb_inside B64Ops {| a_center := [0]; a_half := [1] |} [1] = true.
Proof.
  pose proof b64_1 as F1.
  assert (A : forall i, (i < length [0])%nat -> b64 [1].[i]) by (apply forall_lt_1; exact F1).
  assert (B : forall i, (i < length [0])%nat -> Rabs ([1].[i] - [0].[i]) <= [1].[i])
    by (apply forall_lt_1; simpl; apply Rabs_le; lra).
  repeat split; try assumption.
  - apply forall_lt_1. simpl. replace (1 - 0) with 1 by lra. exact F1.
  - apply (fl_real_inside_float_inside 53 (-1074)); auto.
Qed.

Theorem box_roundtrip_unfold_binary32 (lo hi : list R) i : length lo = length hi -> (i < length lo)%nat ->
  (i_lower (aabb_to_interval B32Ops (aabb_of_interval B32Ops {| i_lower := lo; i_upper := hi |}))).[i]
    = rnd32 (rnd32 (rnd32 (hi.[i] + lo.[i]) / 2) - rnd32 (rnd32 (hi.[i] - lo.[i]) / 2)) /\
  (i_upper (aabb_to_interval B32Ops (aabb_of_interval B32Ops {| i_lower := lo; i_upper := hi |}))).[i]
    = rnd32 (rnd32 (rnd32 (hi.[i] + lo.[i]) / 2) + rnd32 (rnd32 (hi.[i] - lo.[i]) / 2)).
Proof. exact (fl_roundtrip_unfold 24 (-149) ltac:(lia) ltac:(lia) lo hi i). Qed.

Theorem box_roundtrip_exact_binary32 (lo hi : list R) i : length lo = length hi -> (i < length lo)%nat ->
  b32 (hi.[i] + lo.[i]) -> b32 (hi.[i] - lo.[i]) -> b32 ((hi.[i] + lo.[i]) / 2) -> b32 ((hi.[i] - lo.[i]) / 2) ->
  b32 lo.[i] -> b32 hi.[i] ->
  (i_lower (aabb_to_interval B32Ops (aabb_of_interval B32Ops {| i_lower := lo; i_upper := hi |}))).[i] = lo.[i] /\
  (i_upper (aabb_to_interval B32Ops (aabb_of_interval B32Ops {| i_lower := lo; i_upper := hi |}))).[i] = hi.[i].
Proof. exact (fl_roundtrip_exact_list 24 (-149) ltac:(lia) ltac:(lia) lo hi i). Qed.

Example box_roundtrip_exact_hyps_sat_binary64 :
  b64 (3 + 1) /\ b64 (3 - 1) /\ b64 ((3 + 1) / 2) /\ b64 ((3 - 1) / 2) /\ b64 1 /\ b64 3.
Proof. exact (fl_roundtrip_exact_hyps_sat 53 (-1074) ltac:(lia) ltac:(lia)). Qed.

Example box_roundtrip_exact_hyps_sat_binary32 :
  b32 (3 + 1) /\ b32 (3 - 1) /\ b32 ((3 + 1) / 2) /\ b32 ((3 - 1) / 2) /\ b32 1 /\ b32 3.
Proof. exact (fl_roundtrip_exact_hyps_sat 24 (-149) ltac:(lia) ltac:(lia)). Qed.

(* the margins are needed: binary64 witnesses (all inputs are floating-point numbers) *)
Lemma bpow2_double e : bpow radix2 (e + 1) = 2 * bpow radix2 e.
Proof. rewrite bpow_plus. change (bpow radix2 1) with 2. ring. Qed.

(* isInside can accept a point that is outside the box: centre -2^-54, half extent 1, point 1
   (p - c = 1 + 2^-54 rounds to 1).  So fl_float_inside_real_inside needs its half-ulp margin. *)
Theorem box_aabb_float_inside_not_real_inside_binary64 :
  exists c h p : list R, length c = length h /\ length p = length c /\
    (forall i, (i < length c)%nat -> b64 c.[i] /\ b64 h.[i] /\ b64 p.[i]) /\
    aabb_inside B64Ops {| a_center := c; a_half := h |} p = true /\
    aabb_inside ROps {| a_center := c; a_half := h |} p = false.
Proof.
  exists [- bpow radix2 (-54)], [1], [1].
  pose proof (bpow_gt_0 radix2 (-54)) as E0.
  pose proof (bpow2_double (-54)) as E53. change (-54 + 1)%Z with (-53)%Z in E53.
  pose proof b64_1 as F1.
  split; [reflexivity|]. split; [reflexivity|]. split; [|split].
  - apply forall_lt_1. cbn [nth]. split; [|split; exact F1].
    apply (fmt_dyadic 53 (-1074) _ (-1) (-54)); [ring|reflexivity|lia].
  - apply (fl_aabb_inside_iff 53 (-1074)); [reflexivity|reflexivity|].
    apply forall_lt_1. cbn [nth].
    change (frnd 53 (-1074)) with rnd64. rewrite rnd64_to_1 by lra. rewrite Rabs_R1. lra.
  - unfold aabb_inside, vabs, vsub. cbn [a_center a_half map map2 all2 nleb nabs nsub ROps].
    rewrite andb_true_r. apply Rleb_false. rewrite Rabs_pos_eq by lra. lra.
Qed.

(* the interval -> box -> interval round trip is not the identity on floating-point bounds: [2^-55, 1] comes back
   as [0, 1] (centre and half extent both round to 1/2): the lower bound loses all its relative accuracy, within
   the absolute bound 6 u M of fl_roundtrip_error *)
Theorem box_roundtrip_inexact_binary64 :
  exists lo hi : list R, length lo = length hi /\ b64 lo.[0%nat] /\ b64 hi.[0%nat] /\ 0 < lo.[0%nat] < hi.[0%nat] /\
    (i_lower (aabb_to_interval B64Ops (aabb_of_interval B64Ops {| i_lower := lo; i_upper := hi |}))).[0%nat] = 0 /\
    (i_upper (aabb_to_interval B64Ops (aabb_of_interval B64Ops {| i_lower := lo; i_upper := hi |}))).[0%nat] = 1.
Proof.
  exists [bpow radix2 (-55)], [1].
  pose proof (bpow_gt_0 radix2 (-55)) as E0.
  pose proof (bpow2_double (-55)) as E54. change (-55 + 1)%Z with (-54)%Z in E54.
  pose proof (bpow2_double (-54)) as E53. change (-54 + 1)%Z with (-53)%Z in E53.
  pose proof b64_1 as F1.
  assert (Fh : b64 (1 / 2)).
  { apply (fmt_dyadic 53 (-1074) _ 1 (-1)); [change (bpow radix2 (-1)) with (/ 2); lra|reflexivity|lia]. }
  assert (L1 : bpow radix2 (-55) < 1).
  { change 1 with (bpow radix2 0). apply bpow_lt. lia. }
  split; [reflexivity|]. split.
  { apply (fmt_dyadic 53 (-1074) _ 1 (-55)); [cbn [nth]; ring|reflexivity|lia]. }
  split; [exact F1|]. split; [cbn [nth]; lra|].
  unfold B64Ops.
  destruct (fl_roundtrip_unfold 53 (-1074) ltac:(lia) ltac:(lia) [bpow radix2 (-55)] [1] 0%nat eq_refl ltac:(simpl; lia))
    as [-> ->].
  unfold rt_lower, rt_upper, rt_center, rt_half. change (frnd 53 (-1074)) with rnd64. cbn [nth].
  rewrite (rnd64_to_1 (1 + bpow radix2 (-55))) by lra. rewrite (rnd64_to_1 (1 - bpow radix2 (-55))) by lra.
  unfold rnd64. rewrite (rnd_id 53 (-1074) (1 / 2) Fh).
  replace (1 / 2 - 1 / 2) with 0 by lra. replace (1 / 2 + 1 / 2) with 1 by lra.
  split; [apply rnd_0|exact (rnd_id 53 (-1074) 1 F1)].
Qed.
