(* AnglesFloat.v — the two angle normalisers of EulerAngles.hpp in IEEE-754 binary64 (Scalar = double).
   The SAME generic model (AnglesModel.v: between0And2Pi, betweenMinusPiAndPi) is instantiated at the rounded
   dictionary B64Ops of GridMapFloat.v: + and - are the real operation followed by ONE rounding to nearest-even in
   FLT(-1074, 53), comparisons and negation are exact, npi is the double nearest to pi (M_PI), and fmod is the exact
   real remainder x - y*trunc(x/y) — which is proved here to be a floating-point number whenever x and y are
   (Rfmod_fmt, any precision), so leaving it unrounded in the dictionary is faithful to std::fmod.
     M_PI64  = rnd64 PI = 884279719003555 * 2^-48 (0x1.921fb54442d18p+1),  1.2246e-16 < pi - M_PI64 < 1.2247e-16
     M_2PI64 = 2 * M_PI64 (exact doubling) < 2*pi
   Results: between0And2Pi returns r in the CLOSED interval [0, M_2PI64] with |r - (v - k*M_2PI64)| <= 2^-51 (one
   rounding; none when fmod(v) >= 0 or fmod(v) <= -M_PI64), and r = M_2PI64 is attained for every v in (-2^-51, 0);
   betweenMinusPiAndPi returns r in [-M_PI64, M_PI64] with r = v - k*M_2PI64 EXACTLY (both conditional operations fall
   under Sterbenz' lemma). *)
From Coq Require Import Reals ZArith Lra Lia.
From Flocq Require Import Core Sterbenz Div_sqrt_error.
From Interval Require Import Tactic.
From Romea Require Import Num NumR AnglesModel AnglesRoundtrip GridMapFloat.
Local Open Scope R_scope.

Local Notation fexp64 := (FLT_exp (-1074) 53).
Local Notation bp := (bpow radix2).

Definition M_PI64 : R := rnd64 PI.              (* M_PI: the double nearest to pi *)
Definition M_2PI64 : R := 2 * M_PI64.           (* M_2PI = 2 * M_PI *)
Definition b02_64 (v : R) : R := between0And2Pi B64Ops idR idR v.
Definition bpi_64 (v : R) : R := betweenMinusPiAndPi B64Ops idR idR v.
Local Notation Pd := M_PI64.
Local Notation Td := M_2PI64.

Lemma ulp64 x e : bp (e - 1) <= Rabs x < bp e -> (-1074 <= e - 53)%Z -> ulp radix2 fexp64 x = bp (e - 53).
Proof. apply ulp_binade. Qed.

Lemma rnd64_near x m e : bp (e + 52) <= Rabs x < bp (e + 53) -> (-1074 <= e)%Z ->
  Rabs (x * bp (- e) - IZR m) < / 2 -> rnd64 x = IZR m * bp e.
Proof. intros H. apply rnd_near. replace (e + 53 - 1)%Z with (e + 52)%Z by lia. exact H. Qed.

(* std::fmod is exact: the remainder of two floating-point numbers is a floating-point number
   (any precision, any y — also y < 0 and y = 0 where Rfmod x 0 = x; Flocq's format_REM_ZR) *)
Lemma Rfmod_fmt prec emin (Hp : Prec_gt_0 prec) x y :
  ffmt prec emin x -> ffmt prec emin y -> ffmt prec emin (Rfmod x y).
Proof.
  intros Hx Hy. unfold Rfmod, ffmt.
  replace (x - y * IZR (Ztrunc (x / y))) with (x - IZR (Ztrunc (x / y)) * y) by ring.
  apply format_REM_ZR; auto with typeclass_instances.
Qed.

Lemma Rfmod_b64 x y : b64 x -> b64 y -> b64 (Rfmod x y).
Proof. apply Rfmod_fmt, prec53. Qed.

Lemma Rfmod_b32 x y : b32 x -> b32 y -> b32 (Rfmod x y).
Proof. apply Rfmod_fmt, prec24. Qed.

Lemma Rfmod_unique x y (k : Z) : 0 < y ->
  (0 <= x -> 0 <= x - y * IZR k < y) -> (x <= 0 -> - y < x - y * IZR k <= 0) -> Rfmod x y = x - y * IZR k.
Proof.
  intros Hy P N. destruct (Rfmod_spec x y Hy) as [A B]. unfold Rfmod in *.
  set (k0 := Ztrunc (x / y)) in *. replace k0 with k; [reflexivity|].
  assert (H : -1 < IZR (k0 - k) < 1).
  { rewrite minus_IZR. destruct (Rle_dec 0 x) as [Q|Q]; [specialize (A Q); specialize (P Q)|
      specialize (B ltac:(lra)); specialize (N ltac:(lra))]; split; nra. }
  assert (-1 < k0 - k < 1)%Z by (split; apply lt_IZR; apply H). lia.
Qed.

Lemma Rfmod_small x y : 0 < y -> Rabs x < y -> Rfmod x y = x.
Proof.
  intros Hy Hx. apply Rabs_lt_inv in Hx. rewrite (Rfmod_unique x y 0 Hy); [simpl; ring|simpl; lra|simpl; lra].
Qed.

Lemma Rfmod_one x y : 0 < y -> y <= x < 2 * y -> Rfmod x y = x - y.
Proof. intros Hy Hx. rewrite (Rfmod_unique x y 1 Hy); [simpl; ring|simpl; lra|simpl; lra]. Qed.

Lemma Ztrunc_small x y : 0 < y -> Rabs x < 2 * y -> (-1 <= Ztrunc (x / y) <= 1)%Z.
Proof.
  intros Hy Hx. apply Rabs_lt_inv in Hx. destruct (Rfmod_spec x y Hy) as [A B]. unfold Rfmod in A, B.
  set (k := Ztrunc (x / y)) in *.
  assert (H : -2 < IZR k < 2).
  { destruct (Rle_dec 0 x) as [Q|Q]; [specialize (A Q)|specialize (B ltac:(lra))]; split; nra. }
  assert (-2 < k < 2)%Z by (split; apply lt_IZR; apply H). lia.
Qed.

Definition M_PI64_q : R := 884279719003555 / 281474976710656.      (* 884279719003555 * 2^-48 *)
Local Notation Pq := M_PI64_q.

Lemma Pq_dyadic : Pq = IZR 884279719003555 * bp (-48).
Proof. unfold M_PI64_q. simpl. lra. Qed.

Lemma Pq_b64 : b64 Pq.
Proof. apply (fmt_dyadic 53 (-1074) Pq 884279719003555 (-48) Pq_dyadic); [reflexivity|lia]. Qed.

(* M_PI is 0x1.921fb54442d18p+1: pi lies strictly between that double and the midpoint to its successor *)
Lemma M_PI64_val : Pd = Pq.
Proof.
  unfold M_PI64, rnd64. apply Rle_antisym.
  - unfold frnd. apply round_N_le_midp; [auto with typeclass_instances|exact Pq_b64|].
    assert (B : 2 <= Pq < 4) by (unfold M_PI64_q; lra).
    rewrite succ_eq_pos by lra.
    rewrite (ulp64 Pq 2); [|rewrite Rabs_pos_eq by lra; simpl; lra|lia].
    replace (bp (2 - 53)) with (/ 2251799813685248) by (simpl; lra).
    unfold M_PI64_q. interval with (i_prec 100).
  - apply rnd64_ge; [exact Pq_b64|]. unfold M_PI64_q. interval with (i_prec 100).
Qed.

Lemma M_PI64_b64 : b64 Pd.
Proof. rewrite M_PI64_val. exact Pq_b64. Qed.

Lemma M_PI64_err : 12246 / 100000000000000000000 < PI - Pd < 12247 / 100000000000000000000.
Proof. rewrite M_PI64_val. unfold M_PI64_q. split; interval with (i_prec 100). Qed.

Lemma M_PI64_err_half_ulp : Rabs (Pd - PI) <= bp (-52).
Proof.
  pose proof M_PI64_err as E. replace (bp (-52)) with (/ 4503599627370496) by (simpl; lra).
  rewrite Rabs_left by lra. lra.
Qed.

Lemma M_PI64_box : 314 / 100 < Pd < 315 / 100.
Proof. rewrite M_PI64_val. unfold M_PI64_q. lra. Qed.

Lemma M_2PI64_dyadic : Td = IZR 884279719003555 * bp (-47).
Proof. unfold M_2PI64. rewrite M_PI64_val, Pq_dyadic. simpl. lra. Qed.

Lemma M_2PI64_b64 : b64 Td.
Proof. apply (fmt_dyadic 53 (-1074) Td 884279719003555 (-47) M_2PI64_dyadic); [reflexivity|lia]. Qed.

Lemma M_2PI64_box : 628 / 100 < Td < 630 / 100.
Proof. unfold M_2PI64. pose proof M_PI64_box. lra. Qed.

Lemma M_2PI64_lt_2pi : Td < 2 * PI.
Proof. unfold M_2PI64. pose proof M_PI64_err. lra. Qed.

(* the model's constant m_2pi, evaluated in binary64 (2 = 1 + 1 and 2 * M_PI are exact) *)
Lemma m_2pi_b64 : m_2pi B64Ops = Td.
Proof.
  unfold m_2pi, ntwo, B64Ops. cbn [nmul nadd n_one npi FlOps]. unfold fl_mul, fl_add.
  replace (1 + 1) with (IZR 2) by (simpl; lra).
  rewrite (rnd_id 53 (-1074) (IZR 2)) by (apply b64_int; lia).
  change (frnd 53 (-1074) PI) with Pd. replace (IZR 2 * Pd) with Td by (unfold M_2PI64; simpl; lra).
  apply rnd_id. exact M_2PI64_b64.
Qed.

Lemma b02_64_unf v :
  b02_64 v = if Rltb (Rfmod v Td) 0 then rnd64 (Rfmod v Td + Td) else Rfmod v Td.
Proof. unfold b02_64, between0And2Pi, idR. rewrite m_2pi_b64. reflexivity. Qed.

Lemma bpi_64_unf v :
  bpi_64 v = if Rltb (Rfmod v Td) (- Pd) then rnd64 (Rfmod v Td + Td)
             else if Rltb Pd (Rfmod v Td) then rnd64 (Rfmod v Td - Td) else Rfmod v Td.
Proof. unfold bpi_64, betweenMinusPiAndPi, idR. rewrite m_2pi_b64. reflexivity. Qed.

(* one rounding of a number in [0, M_2PI]: error at most half an ulp of M_2PI = 2^-51 *)
Lemma ulp_M_2PI64 : ulp radix2 fexp64 Td = bp (-50).
Proof.
  pose proof M_2PI64_box. rewrite (ulp64 Td 3); [reflexivity| |lia].
  rewrite Rabs_pos_eq by lra. simpl. lra.
Qed.

Lemma rnd64_err_below_2pi x : 0 <= x <= Td -> Rabs (rnd64 x - x) <= bp (-51).
Proof.
  intros Hx. pose proof M_2PI64_box.
  eapply Rle_trans; [apply error_le_half_ulp; auto with typeclass_instances|].
  assert (U : ulp radix2 fexp64 x <= bp (-50)).
  { rewrite <- ulp_M_2PI64. apply ulp_le; auto with typeclass_instances. rewrite !Rabs_pos_eq by lra. lra. }
  replace (bp (-51)) with (/ 2 * bp (-50)) by (simpl; lra). lra.
Qed.

(* a small v added to M_2PI = 7074237752028440 * 2^-50 rounds to the multiple of 2^-50 nearest to it *)
Lemma rnd64_near_2pi v m : -2 < v < 1 -> Rabs (v * bp 50 - IZR m) < / 2 -> rnd64 (v + Td) = Td + IZR m * bp (-50).
Proof.
  intros Hv Hm. pose proof M_2PI64_box.
  assert (ET : Td = IZR 7074237752028440 * bp (-50)) by (rewrite M_2PI64_dyadic; simpl; lra).
  replace (Td + IZR m * bp (-50)) with (IZR (7074237752028440 + m) * bp (-50)) by (rewrite plus_IZR, ET; ring).
  apply rnd64_near; [rewrite Rabs_pos_eq by lra; simpl; lra|lia|].
  replace ((v + Td) * bp (- -50) - IZR (7074237752028440 + m)) with (v * bp 50 - IZR m); [exact Hm|].
  rewrite plus_IZR, ET. simpl. lra.
Qed.

(* the first stage of both normalisers: value = fmod(v, M_2PI) *)
Lemma fmod_2pi_64 v : b64 v ->
  exists k0 : Z, Rfmod v Td = v - IZR k0 * Td /\ b64 (Rfmod v Td) /\ - Td < Rfmod v Td < Td /\
    (Rabs v < 2 * Td -> (-1 <= k0 <= 1)%Z).
Proof.
  intros Fv. pose proof M_2PI64_box as BT. assert (HT : 0 < Td) by lra.
  exists (Ztrunc (v / Td)). split; [unfold Rfmod; ring|]. split; [exact (Rfmod_b64 v Td Fv M_2PI64_b64)|].
  split; [exact (Rfmod_abs v Td HT)|exact (Ztrunc_small v Td HT)].
Qed.

Lemma plus_2pi_exact x : b64 x -> - Td < x <= - Pd -> b64 (x + Td).
Proof.
  intros Fx Hx. replace (x + Td) with (Td - (- x)) by ring.
  refine (sterbenz radix2 fexp64 Td (- x) M_2PI64_b64 (generic_format_opp _ _ _ Fx) _). unfold M_2PI64 in *. lra.
Qed.

Lemma b02_64_spec v : b64 v ->
  exists k : Z,
    0 <= b02_64 v <= Td /\ b64 (b02_64 v) /\
    Rabs (b02_64 v - (v - IZR k * Td)) <= bp (-51) /\
    (0 <= Rfmod v Td \/ Rfmod v Td <= - Pd -> b02_64 v = v - IZR k * Td) /\
    (Rabs v < 2 * Td -> (-2 <= k <= 1)%Z).
Proof.
  intros Fv. pose proof M_2PI64_box as BT.
  destruct (fmod_2pi_64 v Fv) as (k0 & Ek & Fm & Habs & Hk0).
  rewrite b02_64_unf. set (value := Rfmod v Td) in *.
  destruct (Rltb value 0) eqn:E.
  - apply Rltb_true in E. exists (k0 - 1)%Z.
    assert (Hx : 0 <= value + Td <= Td) by lra.
    assert (Ex : v - IZR (k0 - 1) * Td = value + Td) by (rewrite minus_IZR, Ek; ring).
    rewrite Ex. split; [split|split; [|split; [|split]]].
    + apply rnd64_ge; [apply (b64_int 0); lia|lra].
    + apply rnd64_le; [exact M_2PI64_b64|lra].
    + apply (fmt_rnd 53 (-1074)).
    + apply rnd64_err_below_2pi. exact Hx.
    + intros [H|H]; [lra|]. apply rnd64_id, plus_2pi_exact; [exact Fm|lra].
    + intros Hd. specialize (Hk0 Hd). lia.
  - apply Rltb_false in E. exists k0.
    assert (Ex : v - IZR k0 * Td = value) by (rewrite Ek; ring).
    rewrite Ex. split; [split; lra|split; [exact Fm|split; [|split]]].
    + replace (value - value) with 0 by ring. rewrite Rabs_R0. apply bpow_ge_0.
    + intros _. reflexivity.
    + intros Hd. specialize (Hk0 Hd). lia.
Qed.

Lemma cong_true_2pi r v k e :
  Rabs (r - (v - IZR k * Td)) <= e ->
  Rabs (r - (v - IZR k * (2 * PI))) <= e + IZR (Z.abs k) * (2 * Rabs (Pd - PI)).
Proof.
  intros H. replace (r - (v - IZR k * (2 * PI))) with ((r - (v - IZR k * Td)) + IZR k * (2 * (PI - Pd)))
    by (unfold M_2PI64; ring).
  eapply Rle_trans; [apply Rabs_triang|]. apply Rplus_le_compat; [exact H|].
  rewrite Rabs_mult, abs_IZR, Rabs_mult, (Rabs_pos_eq 2) by lra. rewrite (Rabs_minus_sym PI Pd). lra.
Qed.

Lemma cong_true_2pi_num r v k e : (Z.abs k <= 2)%Z ->
  Rabs (r - (v - IZR k * Td)) <= e ->
  Rabs (r - (v - IZR k * (2 * PI))) <= e + 49 / 100000000000000000.
Proof.
  intros Hk H. eapply Rle_trans; [apply (cong_true_2pi r v k e H)|].
  pose proof M_PI64_err as E. rewrite (Rabs_left (Pd - PI)) by lra.
  assert (0 <= IZR (Z.abs k) <= 2) by (split; [apply IZR_le; lia|apply IZR_le in Hk; exact Hk]).
  nra.
Qed.

Lemma b02_64_reaches_2pi v : - bp (-51) < v < 0 -> b02_64 v = Td.
Proof.
  intros [Hl Hu]. pose proof M_2PI64_box as BT.
  assert (B51 : bp (-51) = / 2251799813685248) by (simpl; lra). rewrite B51 in Hl.
  rewrite b02_64_unf, Rfmod_small by (try rewrite Rabs_left; lra).
  rewrite (proj2 (Rltb_true _ _)) by exact Hu.
  rewrite (rnd64_near_2pi v 0); [simpl; ring|lra|].
  replace (bp 50) with 1125899906842624 by (simpl; lra). rewrite Rabs_left by lra. lra.
Qed.

(* betweenMinusPiAndPi in binary64: both conditional operations are exact (Sterbenz) *)
Lemma bpi_64_spec v : b64 v ->
  exists k : Z,
    - Pd <= bpi_64 v <= Pd /\ b64 (bpi_64 v) /\
    bpi_64 v = v - IZR k * Td /\
    (Rabs v < 2 * Td -> (-2 <= k <= 2)%Z).
Proof.
  intros Fv. pose proof M_PI64_box as BP. assert (HTP : Td = 2 * Pd) by reflexivity.
  destruct (fmod_2pi_64 v Fv) as (k0 & Ek & Fm & Habs & Hk0).
  rewrite bpi_64_unf. set (value := Rfmod v Td) in *.
  destruct (Rltb value (- Pd)) eqn:E.
  - apply Rltb_true in E. exists (k0 - 1)%Z.
    assert (Ex : v - IZR (k0 - 1) * Td = value + Td) by (rewrite minus_IZR, Ek; ring).
    assert (Fx : b64 (value + Td)) by (apply plus_2pi_exact; [exact Fm|lra]).
    rewrite Ex, (rnd64_id _ Fx). split; [split; lra|split; [exact Fx|split; [reflexivity|]]].
    intros Hd. specialize (Hk0 Hd). lia.
  - apply Rltb_false in E. destruct (Rltb Pd value) eqn:E2.
    + apply Rltb_true in E2. exists (k0 + 1)%Z.
      assert (Ex : v - IZR (k0 + 1) * Td = value - Td) by (rewrite plus_IZR, Ek; ring).
      assert (Fx : b64 (value - Td)).
      { refine (sterbenz radix2 fexp64 value Td Fm M_2PI64_b64 _). lra. }
      rewrite Ex, (rnd64_id _ Fx). split; [split; lra|split; [exact Fx|split; [reflexivity|]]].
      intros Hd. specialize (Hk0 Hd). lia.
    + apply Rltb_false in E2. exists k0.
      assert (Ex : v - IZR k0 * Td = value) by (rewrite Ek; ring).
      rewrite Ex. split; [split; lra|split; [exact Fm|split; [reflexivity|]]].
      intros Hd. specialize (Hk0 Hd). lia.
Qed.

Lemma b64_m1 : b64 (-1).
Proof. apply (b64_int (-1)). lia. Qed.
Lemma b64_7 : b64 7.
Proof. apply (b64_int 7). lia. Qed.
Lemma b64_4 : b64 4.
Proof. apply (b64_int 4). lia. Qed.
Lemma b64_tiny : b64 (- bp (-70)).
Proof. apply (fmt_dyadic 53 (-1074) _ (-1) (-70)); [simpl; lra|simpl; lia|lia]. Qed.

Lemma b02_64_ex_m1 : b02_64 (-1) = Td - 1.
Proof.
  pose proof M_2PI64_box. rewrite b02_64_unf, Rfmod_small by (try rewrite Rabs_left; lra).
  rewrite (proj2 (Rltb_true _ _)) by lra.
  rewrite (rnd64_near_2pi (-1) (- 2 ^ 50)); [simpl; lra|lra|].
  replace (-1 * bp 50 - IZR (- 2 ^ 50)) with 0 by (simpl; lra). rewrite Rabs_R0. lra.
Qed.

Lemma b02_64_ex_7 : b02_64 7 = 7 - Td.
Proof.
  pose proof M_2PI64_box. rewrite b02_64_unf, Rfmod_one by lra.
  rewrite (proj2 (Rltb_false _ _)) by lra. reflexivity.
Qed.

Lemma b02_64_ex_tiny : b02_64 (- bp (-70)) = Td.
Proof.
  apply b02_64_reaches_2pi. split.
  - apply Ropp_lt_contravar. apply bpow_lt. lia.
  - pose proof (bpow_gt_0 radix2 (-70)). lra.
Qed.

(* the sum is rounded (to the predecessor of M_2PI), the error is exactly 2^-52, half of the bound *)
Lemma b02_64_ex_rounded :
  b02_64 (- 3 * bp (-52)) = Td - bp (-50) /\ b02_64 (- 3 * bp (-52)) - (- 3 * bp (-52) + Td) = - bp (-52).
Proof.
  pose proof M_2PI64_box.
  assert (B52 : bp (-52) = / 4503599627370496) by (simpl; lra).
  assert (B50 : bp (-50) = / 1125899906842624) by (simpl; lra).
  assert (E : b02_64 (- 3 * bp (-52)) = Td - bp (-50)).
  { rewrite b02_64_unf, Rfmod_small by (try rewrite Rabs_left; rewrite ?B52; lra).
    rewrite (proj2 (Rltb_true _ _)) by (rewrite B52; lra).
    rewrite (rnd64_near_2pi _ (-1)); [simpl; lra|rewrite B52; lra|].
    replace (- 3 * bp (-52) * bp 50 - IZR (-1)) with (/ 4) by (simpl; lra). rewrite Rabs_pos_eq by lra. lra. }
  split; [exact E|]. rewrite E, B52, B50. lra.
Qed.

(* both sums are exact by Sterbenz' lemma *)
Lemma bpi_64_ex_4 : bpi_64 4 = 4 - Td /\ bpi_64 (-4) = Td - 4.
Proof.
  pose proof M_2PI64_box. pose proof M_PI64_box. split.
  - rewrite bpi_64_unf, Rfmod_small by (try rewrite Rabs_pos_eq; lra).
    rewrite (proj2 (Rltb_false _ _)), (proj2 (Rltb_true _ _)) by lra. apply rnd64_id.
    refine (sterbenz radix2 fexp64 4 Td b64_4 M_2PI64_b64 _). lra.
  - rewrite bpi_64_unf, Rfmod_small by (try rewrite Rabs_left; lra).
    rewrite (proj2 (Rltb_true _ _)) by lra. rewrite rnd64_id; [ring|].
    apply plus_2pi_exact; [apply (b64_int (-4)); lia|lra].
Qed.

(* both ends of [-M_PI, M_PI] are attained *)
Lemma bpi_64_ex_ends : bpi_64 Pd = Pd /\ bpi_64 (- Pd) = - Pd.
Proof.
  pose proof M_2PI64_box. pose proof M_PI64_box. assert (Td = 2 * Pd) by reflexivity. split.
  - rewrite bpi_64_unf, Rfmod_small by (try rewrite Rabs_pos_eq; lra).
    rewrite (proj2 (Rltb_false _ _)), (proj2 (Rltb_false _ _)) by lra. reflexivity.
  - rewrite bpi_64_unf, Rfmod_small by (try rewrite Rabs_left; lra).
    rewrite (proj2 (Rltb_false _ _)), (proj2 (Rltb_false _ _)) by lra. reflexivity.
Qed.

(* Scalar = float: the computation is the same (in double), only the RETURN rounds to binary32;
   the float nearest to M_2PI is 13176795 * 2^-21 = 6.2831855, which is ABOVE the real 2*pi *)
Definition b02_32 (v : R) : R := between0And2Pi B64Ops idR rnd32 v.

Lemma b02_32_unf v : b02_32 v = rnd32 (b02_64 v).
Proof. reflexivity. Qed.

Lemma M_2PI32_val : rnd32 Td = 13176795 / 2097152.
Proof.
  pose proof M_2PI64_box.
  replace (13176795 / 2097152) with (IZR 13176795 * bp (-21)) by (simpl; lra).
  unfold rnd32. apply rnd_near; [|lia|].
  - rewrite Rabs_pos_eq by lra. simpl. lra.
  - rewrite M_2PI64_dyadic.
    replace (IZR 884279719003555 * bp (-47) * bp (- -21) - IZR 13176795)
      with (- (24607325 / 67108864)) by (simpl; lra).
    rewrite Rabs_left by lra. lra.
Qed.

Lemma b02_32_range v : b64 v -> 0 <= b02_32 v <= 13176795 / 2097152.
Proof.
  intros Fv. destruct (b02_64_spec v Fv) as (k & [H0 H1] & _). rewrite b02_32_unf, <- M_2PI32_val.
  split.
  - rewrite <- (rnd_0 24 (-149)). apply (rnd_le 24 (-149)), H0.
  - apply (rnd_le 24 (-149)), H1.
Qed.

Lemma b02_32_exceeds_2pi v : - bp (-51) < v < 0 ->
  b02_32 v = 13176795 / 2097152 /\ 2 * PI + 17 / 100000000 < b02_32 v.
Proof.
  intros Hv. rewrite b02_32_unf, (b02_64_reaches_2pi v Hv), M_2PI32_val. split; [reflexivity|].
  interval with (i_prec 60).
Qed.
