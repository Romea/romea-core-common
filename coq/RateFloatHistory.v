(* RateFloatHistory.v — C17 end to end in binary64: the rate PUBLISHED by the monitor executed with the rounded dictionary
   B64Ops (every C++ double operation followed by one rounding to nearest-even, GridMapFloat.v) after ANY history of data
   stamps and heartbeats.  RateProofs.v describes the state after a history for every dictionary (the queue and the sum
   are integers: no rounding there); RateFloat.v bounds the two roundings of 1e9 / (sum / W).  Together: with strictly
   increasing stamps, more than W of them, no time-out pending and a window span below 2^53 ns (104 days), the double
   the monitor publishes is W / (span in seconds) up to a relative error of 3 * 2^-53, and it is the correctly rounded
   value (one rounding, 2^-53) when the window size is a power of two (expected rate < 2.5 Hz: W = 4; >= 32 Hz: W = 64). *)
From Coq Require Import Reals ZArith List Bool Lra Lia.
From Flocq Require Import Core.
From Romea Require Import Num NumR DiagModel RateModel RateProofs GridMapFloat RateFloat.
From Romea.gen Require Import RepoConstants.
Import ListNotations.
Local Open Scope R_scope.

Lemma ideal_form (w s : R) : 0 < s -> w * 1000000000 / s = w / (s / 1000000000).
Proof. intros H. field. lra. Qed.

Theorem rate_b64_history r evs :
  let W := window_size B64Ops r in let ds := data_stamps evs in
  increasing ds -> (W < Z.of_nat (length ds))%Z -> snd (hist B64Ops evs) = false ->
  let span := (last ds 0 - nth (length ds - Z.to_nat W - 1) ds 0)%Z in
  (span < 2 ^ 53)%Z ->
  (0 < span)%Z /\
  exists d, Rabs d <= 3 * bpow radix2 (-53) /\
            rm_rate (rm_run B64Ops (rm_init B64Ops r) evs) = IZR W / (IZR span / 1000000000) * (1 + d).
Proof.
  cbv zeta. intros Hinc Hk Hst Hlt.
  destruct (rate_of_span B64Ops r evs Hinc Hk Hst) as (Hpos & HW & E).
  split; [exact Hpos|].
  destruct (rate_b64_rel_error _ _ (conj Hpos Hlt) HW) as (d & Hd & Ed).
  exists d. split; [exact Hd|]. rewrite E, Ed. rewrite ideal_form; [reflexivity|].
  apply IZR_lt. exact Hpos.
Qed.

Theorem rate_b64_history_pow2 r evs :
  let W := window_size B64Ops r in let ds := data_stamps evs in
  increasing ds -> (W < Z.of_nat (length ds))%Z -> snd (hist B64Ops evs) = false ->
  let span := (last ds 0 - nth (length ds - Z.to_nat W - 1) ds 0)%Z in
  (span < 2 ^ 53)%Z -> (exists k, (2 <= k <= 6)%Z /\ W = (2 ^ k)%Z) ->
  rm_rate (rm_run B64Ops (rm_init B64Ops r) evs) = rnd64 (IZR W / (IZR span / 1000000000)).
Proof.
  cbv zeta. intros Hinc Hk Hst Hlt Hp.
  destruct (rate_of_span B64Ops r evs Hinc Hk Hst) as (Hpos & HW & E).
  rewrite E, (rate_b64_pow2_window _ _ (conj Hpos Hlt) Hp). rewrite ideal_form; [reflexivity|].
  apply IZR_lt. exact Hpos.
Qed.

(* non-vacuity: the history of Properties_C17.v (1 Hz source, five stamps one second apart, an early heartbeat): W = 4,
   span = 4 s, the double published is exactly 1 *)
Definition ex_evs64 : list event :=
  [Data 1000000000; Data 2000000000; Heartbeat 2400000000; Data 3000000000; Data 4000000000; Data 5000000000]%Z.

Example ex_window64 : window_size B64Ops 1 = 4%Z.
Proof.
  rewrite (window_b64_eq_real 1) by (apply (b64_int 1); lia). rewrite window_size_R by lra.
  replace (2 * 1) with (IZR 2) by (simpl; lra). rewrite Zfloor_IZR. reflexivity.
Qed.

Example ex_rate64 : rm_rate (rm_run B64Ops (rm_init B64Ops 1) ex_evs64) = 1.
Proof.
  rewrite rate_follows_history. rewrite ex_window64.
  assert (Hst : snd (hist B64Ops ex_evs64) = false).
  { unfold hist, ex_evs64. cbn [fold_left hstep fst snd]. reflexivity. }
  rewrite Hst. unfold spec_rate. cbn [ex_evs64 data_stamps length].
  replace (Z.of_nat 5 <=? 4)%Z with false by reflexivity.
  replace (last _ 0 - nth _ _ 0)%Z with 4000000000%Z by reflexivity.
  exact rate_b64_4s_window4.
Qed.
