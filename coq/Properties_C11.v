(* Properties_C11.v — C11: pose and twist conversions keep means and covariances consistent.
   Real-number instance of PoseCovModel.v / AnglesModel.v.
   Notation: gsym n c = symmetric on indices < n; quad n c x = x^T c x; gpsd n c = forall x, 0 <= x^T c x;
             act_mean l t pos ori = mean part of operator*(Affine3d (l,t), Pose3D);  rot_of e = Rz*Ry*Rx of the angles e. *)
From Coq Require Import Reals ZArith Lra Bool.
From Romea Require Import Num NumR AnglesModel AnglesProofs AnglesRoundtrip PoseCovModel PoseCovProofs.
Local Open Scope R_scope.

(* --- the 6x6 -> 3x3 reduction keeps exactly rows/columns 0, 1, 5 --- *)
Theorem C11_se2_selects_0_1_5 : forall c : mat R,
  (forall i j, toSe2Covariance c i j = c (sel3 i) (sel3 j)) /\
  sel3 0 = 0%nat /\ sel3 1 = 1%nat /\ sel3 2 = 5%nat /\
  toSe2Covariance c 0%nat 2%nat = c 0%nat 5%nat /\ toSe2Covariance c 2%nat 1%nat = c 5%nat 1%nat /\
  toSe2Covariance c 2%nat 2%nat = c 5%nat 5%nat.
Proof. intros c. repeat split. Qed.
Print Assumptions C11_se2_selects_0_1_5.

(* --- embedding then reducing is the identity; the embedding writes the nine entries back and zero elsewhere --- *)
Theorem C11_se2_of_se3_id : forall c : mat R,
  (forall i j, (i < 3)%nat -> (j < 3)%nat -> toSe2Covariance (toSe3Covariance ROps c) i j = c i j) /\
  (forall i j, (i < 3)%nat -> (j < 3)%nat -> toSe3Covariance ROps c (sel3 i) (sel3 j) = c i j) /\
  (forall i j, (i < 6)%nat -> (j < 6)%nat -> is_planar i && is_planar j = false -> toSe3Covariance ROps c i j = 0).
Proof.
  intros c. split; [exact (se2_of_se3_id c)|split; [exact (se2_of_se3_id c)|]].
  intros i j _ _ H. unfold toSe3Covariance. rewrite H. reflexivity.
Qed.
Print Assumptions C11_se2_of_se3_id.

(* --- symmetry and positive semi-definiteness are preserved (reduction, embedding, position block) --- *)
Theorem C11_se2_sym_psd : forall c : mat R,
  (gsym 6 c -> gsym 3 (toSe2Covariance c)) /\ (gpsd 6 c -> gpsd 3 (toSe2Covariance c)) /\
  (forall x, quad 3 (toSe2Covariance c) x = quad 6 c (embed3 x)).
Proof. intros c. split; [exact (se2_sym c)|split; [exact (se2_psd c)|exact (se2_quad c)]]. Qed.
Print Assumptions C11_se2_sym_psd.

Theorem C11_se3_sym_psd : forall c : mat R,
  (gsym 3 c -> gsym 6 (toSe3Covariance ROps c)) /\ (gpsd 3 c -> gpsd 6 (toSe3Covariance ROps c)).
Proof. intros c. split; [exact (se3_sym c)|exact (se3_psd c)]. Qed.
Print Assumptions C11_se3_sym_psd.

(* --- the 3D -> 2D reductions keep exactly x, y, yaw / vx, vy, yaw rate and the selected covariance --- *)
Theorem C11_reductions_keep_planar : forall (p : pose3 (T:=R)) (t : twist3 (T:=R)),
  p2_x (toPose2D p) = v0 (p3_pos p) /\ p2_y (toPose2D p) = v1 (p3_pos p) /\ p2_yaw (toPose2D p) = v2 (p3_ori p) /\
  p2_cov (toPose2D p) = toSe2Covariance (p3_cov p) /\
  t2_vx (toTwist2D t) = v0 (t3_lin t) /\ t2_vy (toTwist2D t) = v1 (t3_lin t) /\ t2_w (toTwist2D t) = v2 (t3_ang t) /\
  t2_cov (toTwist2D t) = toSe2Covariance (t3_cov t) /\
  toPoseAndTwist2D (p, t) = (toPose2D p, toTwist2D t) /\
  q3_pos (toPosition3D p) = p3_pos p /\ (forall i j, q3_cov (toPosition3D p) i j = p3_cov p i j).
Proof. repeat split. Qed.

Theorem C11_position3_sym_psd : forall p : pose3 (T:=R),
  (gsym 6 (p3_cov p) -> gsym 3 (q3_cov (toPosition3D p))) /\ (gpsd 6 (p3_cov p) -> gpsd 3 (q3_cov (toPosition3D p))).
Proof. exact position3_sym_psd. Qed.
Print Assumptions C11_position3_sym_psd.

(* --- SE(3) action, position: identity neutral, successive transforms compose --- *)
Theorem C11_pose_action_position : forall l t l' t' pos ori ori',
  fst (act_mean (mid3 ROps) (mkV3 0 0 0) pos ori) = pos /\
  fst (act_mean l' t' (fst (act_mean l t pos ori)) ori') =
  fst (act_mean (mmul3 ROps l' l) (vadd3 ROps (mvmul3 ROps l' t) t') pos ori).
Proof.
  intros. destruct pos as [x y z], t as [a b c], t' as [a' b' c'].
  unfold act_mean, pose_transform_mean, vadd3, mvmul3, mmul3, mid3. cbn [fst]. rcbn. split; f_equal; ring.
Qed.
Print Assumptions C11_pose_action_position.

(* --- SE(3) action, attitude compared as a rotation (off gimbal lock): the reported angles describe l*R(angles);
       identity neutral; successive transforms compose --- *)
Theorem C11_pose_action_attitude : forall l t pos ori,
  proper_rotation l -> Rabs (m20 (mmul3 ROps l (rot_of ori))) < 1 ->
  exists e, snd (act_mean l t pos ori) = Some e /\ rot_of e = mmul3 ROps l (rot_of ori).
Proof. exact action_attitude. Qed.
Print Assumptions C11_pose_action_attitude.

Theorem C11_pose_action_identity : forall t pos ori, Rabs (m20 (rot_of ori)) < 1 ->
  exists e, snd (act_mean (mid3 ROps) t pos ori) = Some e /\ rot_of e = rot_of ori.
Proof.
  intros t pos ori H. destruct (action_attitude (mid3 ROps) t pos ori proper_id) as [e [E1 E2]].
  - rewrite mmul3_id_l. exact H.
  - exists e. split; [exact E1|]. rewrite E2. apply mmul3_id_l.
Qed.
Print Assumptions C11_pose_action_identity.

Theorem C11_pose_action_compose : forall l t l' t' pos ori,
  proper_rotation l -> proper_rotation l' ->
  Rabs (m20 (mmul3 ROps l (rot_of ori))) < 1 -> Rabs (m20 (mmul3 ROps (mmul3 ROps l' l) (rot_of ori))) < 1 ->
  exists e1 e2 e3,
    snd (act_mean l t pos ori) = Some e1 /\
    snd (act_mean l' t' (fst (act_mean l t pos ori)) e1) = Some e2 /\
    snd (act_mean (mmul3 ROps l' l) (vadd3 ROps (mvmul3 ROps l' t) t') pos ori) = Some e3 /\
    rot_of e2 = rot_of e3 /\ rot_of e3 = mmul3 ROps (mmul3 ROps l' l) (rot_of ori).
Proof. exact action_attitude_compose. Qed.
Print Assumptions C11_pose_action_compose.

(* --- the ellipse: under the contract of the SVD oracle (U orthogonal, s0 >= s1 >= 0, cov = U diag(s) U^T — what
       JacobiSVD returns for a symmetric PSD matrix; rank-deficient allowed), major >= minor >= 0 and
       R(theta) diag(major^2, minor^2) R(theta)^T / sigma^2 is the covariance, entry by entry --- *)
Theorem C11_ellipse_reconstructs : forall svd c sigma, 0 < sigma -> svd2_contract c (svd c) ->
  let e := ellipse_of_cov ROps svd c sigma in
  let th := e_orientation e in let mj := e_major e in let mn := e_minor e in
  0 <= mn <= mj /\
  (cos th * cos th * (mj * mj) + sin th * sin th * (mn * mn)) / (sigma * sigma) = a00 c /\
  (cos th * sin th * (mj * mj - mn * mn)) / (sigma * sigma) = a01 c /\
  (cos th * sin th * (mj * mj - mn * mn)) / (sigma * sigma) = a10 c /\
  (sin th * sin th * (mj * mj) + cos th * cos th * (mn * mn)) / (sigma * sigma) = a11 c.
Proof. exact ellipse_reconstructs. Qed.
Print Assumptions C11_ellipse_reconstructs.

(* --- non-vacuity --- *)
Example C11_ex_svd_contract :   (* a rank-1 covariance and its decomposition *)
  svd2_contract (mkM2 4 0 0 0) ((4, 0), mkM2 1 0 0 1).
Proof. unfold svd2_contract. cbn. repeat split; lra. Qed.
Example C11_ex_psd : gpsd 6 (fun i j => if Nat.eqb i j then 1 else 0) /\ gsym 6 (fun i j => if Nat.eqb i j then 1 else 0).
Proof.
  split.
  - intros x. unfold quad. cbn. nra.
  - intros i j _ _. rewrite (Nat.eqb_sym i j). reflexivity.
Qed.
Example C11_ex_action_hyp : proper_rotation (mid3 ROps) /\ Rabs (m20 (rot_of (mkV3 0 0 0))) < 1.
Proof.
  split; [exact proper_id|]. unfold rot_of. rewrite rot_zyx_entries. cbn [v0 v1 v2 m20].
  rewrite sin_0, Ropp_0, Rabs_R0. lra.
Qed.

(* ================= SYNTACTIC SOURCE TIE (translate/eigensym.py, translate/tr_C11_eigensym.py -> gen/SrcEigenC11.v) =================
   The reductions of Matrix.hpp (templates instantiated at double) and the value-returning 3D -> 2D conversions of
   src/geometry/Pose3D.cpp / Twist3D.cpp (default constructors of the 2D types and the two-argument overloads inlined) are
   regenerated from the clang AST on every run by the symbolic Eigen evaluator; the generated terms equal the models above. *)
From Romea Require Import SrcTieC11.
From Romea.gen Require Import SrcEigenC11.
From Coq Require Import List String.
Import ListNotations.

Theorem C11_source_tie_reductions : forall (c : mat R) (m : mat3 R),
  (forall i j, (i < 3)%nat -> (j < 3)%nat -> mget3 (src_toSe2Covariance ROps c) i j = toSe2Covariance c i j) /\
  (forall i j, (i < 6)%nat -> (j < 6)%nat -> src_toSe3Covariance ROps m i j = toSe3Covariance ROps (mget3 m) i j).
Proof. intros c m. split; intros i j; [apply tie_toSe2Covariance|apply tie_toSe3Covariance]. Qed.
Print Assumptions C11_source_tie_reductions.

Theorem C11_source_tie_toPose2D : forall p : pose3 (T:=R),
  src_toPose2D_inputs = ["arg0.covariance"; "arg0.orientation"; "arg0.position"]%string /\
  src_toPose2D_outputs = ["position"; "yaw"; "covariance"]%string /\
  let q := toPose2D p in
  src_toPose2D_position ROps (p3_cov p) (p3_ori p) (p3_pos p) = (p2_x q, p2_y q) /\
  src_toPose2D_yaw ROps (p3_cov p) (p3_ori p) (p3_pos p) = p2_yaw q /\
  forall i j, (i < 3)%nat -> (j < 3)%nat -> mget3 (src_toPose2D_covariance ROps (p3_cov p) (p3_ori p) (p3_pos p)) i j = p2_cov q i j.
Proof. exact tie_toPose2D. Qed.

Theorem C11_source_tie_toPosition3D : forall p : pose3 (T:=R),
  src_toPosition3D_inputs = ["arg0.covariance"; "arg0.position"]%string /\
  src_toPosition3D_outputs = ["position"; "covariance"]%string /\
  let q := toPosition3D p in
  (v0 (src_toPosition3D_position ROps (p3_cov p) (p3_pos p)) = v0 (q3_pos q) /\
   v1 (src_toPosition3D_position ROps (p3_cov p) (p3_pos p)) = v1 (q3_pos q) /\
   v2 (src_toPosition3D_position ROps (p3_cov p) (p3_pos p)) = v2 (q3_pos q)) /\
  forall i j, (i < 3)%nat -> (j < 3)%nat -> mget3 (src_toPosition3D_covariance ROps (p3_cov p) (p3_pos p)) i j = q3_cov q i j.
Proof. exact tie_toPosition3D. Qed.

Theorem C11_source_tie_toTwist2D : forall w : twist3 (T:=R),
  src_toTwist2D_inputs = ["arg0.angularSpeeds"; "arg0.covariance"; "arg0.linearSpeeds"]%string /\
  src_toTwist2D_outputs = ["linearSpeeds"; "angularSpeed"; "covariance"]%string /\
  let q := toTwist2D w in
  src_toTwist2D_linearSpeeds ROps (t3_ang w) (t3_cov w) (t3_lin w) = (t2_vx q, t2_vy q) /\
  src_toTwist2D_angularSpeed ROps (t3_ang w) (t3_cov w) (t3_lin w) = t2_w q /\
  forall i j, (i < 3)%nat -> (j < 3)%nat -> mget3 (src_toTwist2D_covariance ROps (t3_ang w) (t3_cov w) (t3_lin w)) i j = t2_cov q i j.
Proof. exact tie_toTwist2D. Qed.
Print Assumptions C11_source_tie_toTwist2D.

Theorem C11_source_tie_toPoseAndTwist2D : forall (p : pose3 (T:=R)) (w : twist3 (T:=R)),
  src_toPoseAndTwist2D_inputs = ["arg0.pose.covariance"; "arg0.pose.orientation"; "arg0.pose.position";
                                 "arg0.twist.angularSpeeds"; "arg0.twist.covariance"; "arg0.twist.linearSpeeds"]%string /\
  src_toPoseAndTwist2D_outputs = ["pose_position"; "pose_yaw"; "pose_covariance";
                                  "twist_linearSpeeds"; "twist_angularSpeed"; "twist_covariance"]%string /\
  src_toPoseAndTwist2D ROps (p3_cov p) (p3_ori p) (p3_pos p) (t3_ang w) (t3_cov w) (t3_lin w) =
  (src_toPose2D_position ROps (p3_cov p) (p3_ori p) (p3_pos p), src_toPose2D_yaw ROps (p3_cov p) (p3_ori p) (p3_pos p),
   src_toPose2D_covariance ROps (p3_cov p) (p3_ori p) (p3_pos p),
   src_toTwist2D_linearSpeeds ROps (t3_ang w) (t3_cov w) (t3_lin w), src_toTwist2D_angularSpeed ROps (t3_ang w) (t3_cov w) (t3_lin w),
   src_toTwist2D_covariance ROps (t3_ang w) (t3_cov w) (t3_lin w)) /\
  let q := toPoseAndTwist2D (p, w) in
  src_toPoseAndTwist2D_pose_position ROps (p3_cov p) (p3_ori p) (p3_pos p) (t3_ang w) (t3_cov w) (t3_lin w) = (p2_x (fst q), p2_y (fst q)) /\
  src_toPoseAndTwist2D_pose_yaw ROps (p3_cov p) (p3_ori p) (p3_pos p) (t3_ang w) (t3_cov w) (t3_lin w) = p2_yaw (fst q) /\
  src_toPoseAndTwist2D_twist_linearSpeeds ROps (p3_cov p) (p3_ori p) (p3_pos p) (t3_ang w) (t3_cov w) (t3_lin w) = (t2_vx (snd q), t2_vy (snd q)) /\
  src_toPoseAndTwist2D_twist_angularSpeed ROps (p3_cov p) (p3_ori p) (p3_pos p) (t3_ang w) (t3_cov w) (t3_lin w) = t2_w (snd q) /\
  forall i j, (i < 3)%nat -> (j < 3)%nat ->
    mget3 (src_toPoseAndTwist2D_pose_covariance ROps (p3_cov p) (p3_ori p) (p3_pos p) (t3_ang w) (t3_cov w) (t3_lin w)) i j = p2_cov (fst q) i j /\
    mget3 (src_toPoseAndTwist2D_twist_covariance ROps (p3_cov p) (p3_ori p) (p3_pos p) (t3_ang w) (t3_cov w) (t3_lin w)) i j = t2_cov (snd q) i j.
Proof. exact tie_toPoseAndTwist2D. Qed.
