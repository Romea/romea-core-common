(* DerivProofs.v — C12, rotation part: the true derivatives of Rz*Ry*Rx (Coquelicot), and what the
   faithful model of SmartRotation3D's derivative members is instead.  Read after Atan2Deriv, before PoseJacProofs. *)
From Coq Require Import Reals ZArith Lra Lia Psatz Nsatz.
From Coquelicot Require Import Coquelicot.
From Romea Require Import Num NumR AnglesModel AnglesProofs.
Local Open Scope R_scope.

(* derivatives of the elementary rotations: no identity entry left behind *)
Definition dRX (x : R) : mat3 R := mkM3 0 0 0  0 (- sin x) (- cos x)  0 (cos x) (- sin x).
Definition dRY (y : R) : mat3 R := mkM3 (- sin y) 0 (cos y)  0 0 0  (- cos y) 0 (- sin y).
Definition dRZ (z : R) : mat3 R := mkM3 (- sin z) (- cos z) 0  (cos z) (- sin z) 0  0 0 0.

Definition dRdX_true (x y z : R) : mat3 R := mmul3 ROps (mmul3 ROps (RZ z) (RY y)) (dRX x).
Definition dRdY_true (x y z : R) : mat3 R := mmul3 ROps (mmul3 ROps (RZ z) (dRY y)) (RX x).
Definition dRdZ_true (x y z : R) : mat3 R := mmul3 ROps (mmul3 ROps (dRZ z) (RY y)) (RX x).

(* single-entry matrices *)
Definition E00 : mat3 R := mkM3 1 0 0  0 0 0  0 0 0.
Definition E11 : mat3 R := mkM3 0 0 0  0 1 0  0 0 0.
Definition E22 : mat3 R := mkM3 0 0 0  0 0 0  0 0 1.
Definition extraX (x y z : R) : mat3 R := mmul3 ROps (mmul3 ROps (RZ z) (RY y)) E00.
Definition extraY (x y z : R) : mat3 R := mmul3 ROps (mmul3 ROps (RZ z) E11) (RX x).
Definition extraZ (x y z : R) : mat3 R := mmul3 ROps (mmul3 ROps E22 (RY y)) (RX x).

Ltac unfold_rot := unfold rot_zyx, dRdX_true, dRdY_true, dRdZ_true, extraX, extraY, extraZ, RX, RY, RZ, dRX, dRY, dRZ,
  E00, E11, E22, mmul3, madd3, mvmul3, Rx_of, Ry_of, Rz_of, dRx_of, dRy_of, dRz_of; rcbn.

Ltac entry_cases i j :=
  destruct i as [|[|i]]; destruct j as [|[|j]]; cbn [mget3 m00 m01 m02 m10 m11 m12 m20 m21 m22].

(* --- entries of products, and the products are additive --- *)
Lemma mget3_mmul3 (a b : mat3 R) i j :
  mget3 (mmul3 ROps a b) i j = mget3 a i 0 * mget3 b 0 j + mget3 a i 1 * mget3 b 1 j + mget3 a i 2 * mget3 b 2 j.
Proof. entry_cases i j; reflexivity. Qed.

Lemma mget3_mmul3_r (a b : mat3 R) i j :
  mget3 (mmul3 ROps a b) i j = mget3 b 0 j * mget3 a i 0 + mget3 b 1 j * mget3 a i 1 + mget3 b 2 j * mget3 a i 2.
Proof. rewrite mget3_mmul3. ring. Qed.

Lemma vget3_mvmul3 (a : mat3 R) (v : vec3 R) i :
  vget3 (mvmul3 ROps a v) i = v0 v * mget3 a i 0 + v1 v * mget3 a i 1 + v2 v * mget3 a i 2.
Proof. destruct i as [|[|i]]; cbn [vget3 mget3 mvmul3 v0 v1 v2]; rcbn; ring. Qed.

Lemma mmul3_madd3_r (a b c : mat3 R) : mmul3 ROps a (madd3 ROps b c) = madd3 ROps (mmul3 ROps a b) (mmul3 ROps a c).
Proof. unfold mmul3, madd3. rcbn. f_equal; ring. Qed.
Lemma mmul3_madd3_l (a b c : mat3 R) : mmul3 ROps (madd3 ROps a b) c = madd3 ROps (mmul3 ROps a c) (mmul3 ROps b c).
Proof. unfold mmul3, madd3. rcbn. f_equal; ring. Qed.
Lemma mvmul3_madd3 (a b : mat3 R) (t : vec3 R) :
  mvmul3 ROps (madd3 ROps a b) t = vadd3 ROps (mvmul3 ROps a t) (mvmul3 ROps b t).
Proof. unfold mvmul3, madd3, vadd3. rcbn. f_equal; ring. Qed.

(* --- entry-wise derivative of a matrix-valued function; multiplying by a constant matrix or vector is linear --- *)
Definition mderive (f : R -> mat3 R) (t : R) (d : mat3 R) : Prop :=
  forall i j, is_derive (fun s => mget3 (f s) i j) t (mget3 d i j).

Lemma is_derive_lin3 (a b c : R) (f g h : R -> R) t df dg dh :
  is_derive f t df -> is_derive g t dg -> is_derive h t dh ->
  is_derive (fun s => a * f s + b * g s + c * h s) t (a * df + b * dg + c * dh).
Proof.
  intros Hf Hg Hh.
  exact (is_derive_plus _ _ _ _ _ (is_derive_plus _ _ _ _ _ (is_derive_scal _ _ a _ Hf) (is_derive_scal _ _ b _ Hg))
                        (is_derive_scal _ _ c _ Hh)).
Qed.

Lemma mderive_mul_l a f t d : mderive f t d -> mderive (fun s => mmul3 ROps a (f s)) t (mmul3 ROps a d).
Proof.
  intros H i j. rewrite mget3_mmul3.
  apply (is_derive_ext (fun s => mget3 a i 0 * mget3 (f s) 0 j + mget3 a i 1 * mget3 (f s) 1 j + mget3 a i 2 * mget3 (f s) 2 j)).
  - intros s. symmetry. apply mget3_mmul3.
  - apply is_derive_lin3; apply H.
Qed.

Lemma mderive_mul_r b f t d : mderive f t d -> mderive (fun s => mmul3 ROps (f s) b) t (mmul3 ROps d b).
Proof.
  intros H i j. rewrite mget3_mmul3_r.
  apply (is_derive_ext (fun s => mget3 b 0 j * mget3 (f s) i 0 + mget3 b 1 j * mget3 (f s) i 1 + mget3 b 2 j * mget3 (f s) i 2)).
  - intros s. symmetry. apply mget3_mmul3_r.
  - apply is_derive_lin3; apply H.
Qed.

Lemma mderive_mvmul f t d (v : vec3 R) i : mderive f t d ->
  is_derive (fun s => vget3 (mvmul3 ROps (f s) v) i) t (vget3 (mvmul3 ROps d v) i).
Proof.
  intros H. rewrite vget3_mvmul3.
  apply (is_derive_ext (fun s => v0 v * mget3 (f s) i 0 + v1 v * mget3 (f s) i 1 + v2 v * mget3 (f s) i 2)).
  - intros s. symmetry. apply vget3_mvmul3.
  - apply is_derive_lin3; apply H.
Qed.

Lemma dRX_derive x : mderive RX x (dRX x).
Proof. intros i j. entry_cases i j; unfold RX, dRX, Rx_of; rcbn; auto_derive; trivial; ring. Qed.
Lemma dRY_derive y : mderive RY y (dRY y).
Proof. intros i j. entry_cases i j; unfold RY, dRY, Ry_of; rcbn; auto_derive; trivial; ring. Qed.
Lemma dRZ_derive z : mderive RZ z (dRZ z).
Proof. intros i j. entry_cases i j; unfold RZ, dRZ, Rz_of; rcbn; auto_derive; trivial; ring. Qed.

(* --- dR_true: entry-wise derivatives of the reported rotation matrix in each angle --- *)
Lemma dR_true_x x y z : mderive (fun t => rot_zyx t y z) x (dRdX_true x y z).
Proof. apply mderive_mul_l, dRX_derive. Qed.
Lemma dR_true_y x y z : mderive (fun t => rot_zyx x t z) y (dRdY_true x y z).
Proof. apply mderive_mul_r. apply (mderive_mul_l (RZ z) RY), dRY_derive. Qed.
Lemma dR_true_z x y z : mderive (fun t => rot_zyx x y t) z (dRdZ_true x y z).
Proof. apply mderive_mul_r. apply (mderive_mul_r (RY y) RZ), dRZ_derive. Qed.

(* --- characterisation of the model of the code: true derivative + the identity entry left behind --- *)
Lemma dRdX_model_char x y z :
  sdX (smart_init ROps x y z) = madd3 ROps (dRdX_true x y z) (extraX x y z) /\
  sdY (smart_init ROps x y z) = madd3 ROps (dRdY_true x y z) (extraY x y z) /\
  sdZ (smart_init ROps x y z) = madd3 ROps (dRdZ_true x y z) (extraZ x y z).
Proof.
  assert (EX : dRx_of ROps (cos x) (sin x) = madd3 ROps (dRX x) E00) by (unfold dRx_of, dRX, E00, madd3; rcbn; f_equal; ring).
  assert (EY : dRy_of ROps (cos y) (sin y) = madd3 ROps (dRY y) E11) by (unfold dRy_of, dRY, E11, madd3; rcbn; f_equal; ring).
  assert (EZ : dRz_of ROps (cos z) (sin z) = madd3 ROps (dRZ z) E22) by (unfold dRz_of, dRZ, E22, madd3; rcbn; f_equal; ring).
  unfold dRdX_true, dRdY_true, dRdZ_true, extraX, extraY, extraZ.
  rewrite <- mmul3_madd3_r, <- EX, <- !mmul3_madd3_l, <- mmul3_madd3_r, <- EY, <- EZ. repeat split.
Qed.

(* the extra terms: a column of Rz*Ry, an outer product, a row of Ry*Rx *)
Lemma extra_entries x y z :
  extraX x y z = mkM3 (cos z * cos y) 0 0  (sin z * cos y) 0 0  (- sin y) 0 0 /\
  extraY x y z = mkM3 0 (- sin z * cos x) (sin z * sin x)  0 (cos z * cos x) (- (cos z * sin x))  0 0 0 /\
  extraZ x y z = mkM3 0 0 0  0 0 0  (- sin y) (cos y * sin x) (cos y * cos x).
Proof. repeat split; unfold_rot; f_equal; ring. Qed.

Lemma mat3_eq_entries (a b : mat3 R) : a = b ->
  m00 a = m00 b /\ m01 a = m01 b /\ m02 a = m02 b /\ m10 a = m10 b /\ m11 a = m11 b /\ m12 a = m12 b /\
  m20 a = m20 b /\ m21 a = m21 b /\ m22 a = m22 b.
Proof. intros ->. repeat split. Qed.

(* --- refutation: the extra term is never the zero matrix, so the members are never the derivatives --- *)
Lemma extra_never_zero x y z :
  extraX x y z <> mzero3 ROps /\ extraY x y z <> mzero3 ROps /\ extraZ x y z <> mzero3 ROps.
Proof.
  destruct (extra_entries x y z) as [EX [EY EZ]]. rewrite EX, EY, EZ. unfold mzero3. rcbn.
  pose proof (sc1 x) as Hx. pose proof (sc1 y) as Hy. pose proof (sc1 z) as Hz.
  repeat split; intros H; apply mat3_eq_entries in H; cbn [m00 m01 m02 m10 m11 m12 m20 m21 m22] in H;
    decompose [and] H; clear H.
  - assert (sin y = 0) by lra. assert (cos y * cos y = 1) by nra.
    assert ((cos z * cos y) * (cos z * cos y) + (sin z * cos y) * (sin z * cos y) = 1) by nra. nra.
  - assert ((sin z * cos x) * (sin z * cos x) + (sin z * sin x) * (sin z * sin x)
            + (cos z * cos x) * (cos z * cos x) + (cos z * sin x) * (cos z * sin x) = 1) by nra.
    assert (sin z * cos x = 0) by lra. assert (cos z * sin x = 0) by lra. nra.
  - assert (sin y = 0) by lra. assert (cos y * cos y = 1) by nra.
    assert ((cos y * sin x) * (cos y * sin x) + (cos y * cos x) * (cos y * cos x) = 1) by nra. nra.
Qed.

Lemma madd3_cancel (a e : mat3 R) : madd3 ROps a e = a -> e = mzero3 ROps.
Proof.
  destruct a as [a0 a1 a2 a3 a4 a5 a6 a7 a8], e as [e0 e1 e2 e3 e4 e5 e6 e7 e8]. unfold madd3, mzero3. rcbn. intros H. apply mat3_eq_entries in H.
  cbn [m00 m01 m02 m10 m11 m12 m20 m21 m22] in H. decompose [and] H. f_equal; lra.
Qed.

Lemma dRdX_never_derivative x y z :
  sdX (smart_init ROps x y z) <> dRdX_true x y z /\
  sdY (smart_init ROps x y z) <> dRdY_true x y z /\
  sdZ (smart_init ROps x y z) <> dRdZ_true x y z.
Proof.
  destruct (dRdX_model_char x y z) as [CX [CY CZ]]. destruct (extra_never_zero x y z) as [NX [NY NZ]].
  rewrite CX, CY, CZ. repeat split; intros H; apply madd3_cancel in H; contradiction.
Qed.

(* --- dRTdAngles: columns (true_k + extra_k) * T --- *)
Lemma dRT_model_char x y z (t : vec3 R) :
  smart_dRTdAngles ROps (smart_init ROps x y z) t =
  mcols3 (vadd3 ROps (mvmul3 ROps (dRdX_true x y z) t) (mvmul3 ROps (extraX x y z) t))
         (vadd3 ROps (mvmul3 ROps (dRdY_true x y z) t) (mvmul3 ROps (extraY x y z) t))
         (vadd3 ROps (mvmul3 ROps (dRdZ_true x y z) t) (mvmul3 ROps (extraZ x y z) t)).
Proof.
  unfold smart_dRTdAngles. destruct (dRdX_model_char x y z) as (-> & -> & ->). rewrite !mvmul3_madd3. reflexivity.
Qed.
