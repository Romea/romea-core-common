(* RansacProbability.v — C06: what the iteration bound of RansacIterations means.
   With q in (0,1) the probability that one random draw contains an outlier and p in (0,1) the requested confidence,
   L = ln(1-p)/ln q is the number of draws after which the probability q^L that *every* draw was contaminated has
   fallen to 1-p.  The code keeps K = trunc(L) = floor(L) (conversion of a positive double to size_t).  Hence
       q^(K+1) < 1 - p <= q^K :
   K draws leave a failure probability of at least 1-p (the confidence actually guaranteed is 1 - q^K, which lies in
   (1 - (1-p)/q, p]); K+1 draws would reach p.  Pure real analysis about the formula the source computes; the
   independence of the draws is the textbook idealisation, not something the code or this file establishes. *)
From Coq Require Import Reals ZArith Lra Lia.
From Flocq Require Import Core.Raux.
From Romea Require Import RansacProofs.
Local Open Scope R_scope.

Lemma iterations_bracket q p :
  0 < q < 1 -> 0 < p < 1 ->
  let L := ln (1 - p) / ln q in
  let K := Z.to_nat (Zfloor L) in
  0 < L /\ q ^ (S K) < 1 - p <= q ^ K.
Proof.
  intros Hq Hp L K. pose proof (ln_neg q Hq) as Hlq. pose proof (ln_ratio_pos p q Hp Hq) as HL. fold L in HL.
  split; [exact HL|].
  assert (HK : INR K = IZR (Zfloor L)).
  { unfold K. rewrite INR_IZR_INZ, Z2Nat.id; [reflexivity|]. apply Zfloor_lub. simpl. lra. }
  pose proof (Zfloor_lb L) as Hlb. pose proof (Zfloor_ub L) as Hub.
  (* q^n = exp (n ln q) decreases in n, and 1 - p = exp (L ln q) *)
  rewrite <- !Rpower_pow by lra. unfold Rpower. rewrite S_INR, HK.
  replace (1 - p) with (exp (L * ln q))
    by (unfold L; replace (ln (1 - p) / ln q * ln q) with (ln (1 - p)) by (field; lra); apply exp_ln; lra).
  split; [apply exp_increasing; nra|].
  destruct Hlb as [Hlt|Heq]; [left; apply exp_increasing; nra | right; rewrite Heq; reflexivity].
Qed.
