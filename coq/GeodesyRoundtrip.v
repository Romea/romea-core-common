(* GeodesyRoundtrip.v — accuracy and termination of toWGS84 near the Earth (C01): for every Cartesian point with
   |p| >= 0.98 a, then for the image of toECEF.  Uses the contraction lemmas of GeodesyContraction.v. *)
From Coq Require Import Reals ZArith List Bool Lra Lia Psatz.
From Coquelicot Require Import Coquelicot.
From Interval Require Import Tactic.
From Romea Require Import Num NumR GeodesyModel GeodesyProofs GeodesyContraction.
From Romea.gen Require Import RepoConstants.
Local Open Scope R_scope.

(* PI * 0.0104^6 <= 1e-11 *)
Lemma pi_q6_bound : PI * (104 / 10000) ^ 6 <= / 100000000000.
Proof.
  pose proof PI_4 as P4. pose proof PI_RGT_0 as P0.
  assert (X6 : 0 <= (104 / 10000) ^ 6 <= / 400000000000) by (cbn [pow]; lra).
  set (x := (104 / 10000) ^ 6) in *. clearbody x.
  apply Rle_trans with (4 * x); [apply Rmult_le_compat_r; lra|lra].
Qed.

Section SmallEccentricity.
Variable el : ellipsoid (T:=R).
Hypothesis He : 0 <= el_e2 el <= / 100.
Local Notation e2 := (el_e2 el).

Let He2 : 0 <= e2 < 1. Proof. lra. Qed.

Lemma sqrt_1me2_lower : 994 / 1000 <= sqrt (1 - e2).
Proof.
  assert (P : 0 < sqrt (1 - e2)) by (apply sqrt_lt_R0; lra).
  assert (S : sqrt (1 - e2) * sqrt (1 - e2) = 1 - e2) by (apply sqrt_sqrt; lra).
  nra.
Qed.

Lemma Wf_range x : 994 / 1000 <= Wf el x <= 1.
Proof. pose proof (Wf_ge el He2 x). pose proof sqrt_1me2_lower. pose proof (Wf_le_1 el He2 x). lra. Qed.

(* (W x - W y) (W x + W y) = e2 (sin y - sin x) (sin x + sin y) *)
Lemma Wf_lip x y : Rabs (Wf el x - Wf el y) <= 2 / 100 * Rabs (x - y).
Proof.
  pose proof (Wf_range x) as Rx. pose proof (Wf_range y) as Ry.
  pose proof (Wf_sq el He2 x) as Sx. pose proof (Wf_sq el He2 y) as Sy.
  pose proof (sin_lip y x) as Ls. rewrite (Rabs_minus_sym y x) in Ls.
  pose proof (SIN_bound x) as Bx. pose proof (SIN_bound y) as By.
  set (w := Wf el x) in *. set (w0 := Wf el y) in *. set (s := sin x) in *. set (s0 := sin y) in *.
  set (d := Rabs (x - y)) in *. clearbody w w0 s s0 d.
  replace (w - w0) with (e2 * ((s0 - s) * (s + s0)) / (w + w0)) by (field_simplify_eq; [nra|lra]).
  apply Rle_trans with (/ 100 * (d * 2) / 1); [|lra].
  apply Rabs_div_le; [|lra]. apply Rabs_mult_le; [rewrite Rabs_pos_eq; lra|].
  apply Rabs_mult_le; [exact Ls|apply Rabs_le; lra].
Qed.

Lemma cos_over_W_lip x y :
  Rabs (cos x / Wf el x - cos y / Wf el y) <= 105 / 100 * Rabs (x - y).
Proof.
  apply (lipschitz_of_derive (fun z => cos z / Wf el z)
           (fun z => - ((1 - e2) * sin z) / (Wf el z * Wf el z * Wf el z))).
  intros z _. split; [apply cos_over_Wf_derive; exact He2|].
  pose proof (Wf_range z) as Rw. pose proof (SIN_bound z).
  apply Rle_trans with (1 / (98 / 100)); [|lra].
  apply Rabs_div_le; [rewrite Rabs_Ropp; apply Rabs_le; nra|nra].
Qed.
End SmallEccentricity.

Section OnEllipsoid.
Variable el : ellipsoid (T:=R).
Hypothesis Ha : 0 < el_a el.
Hypothesis He2 : 0 <= el_e2 el < 1.
Local Notation a := (el_a el).
Local Notation e2 := (el_e2 el).

Lemma lat_den_pos_global rho x : a * e2 < rho -> 0 < lat_den el rho x.
Proof.
  intros Hr. assert (Pr : 0 < rho) by nra. apply (lat_den_pos el He2 rho Pr).
  pose proof (Wf_pos el He2 x) as Wp. pose proof (cos_le_Wf el He2 x) as Cw. apply Rabs_le_between in Cw.
  assert (a * e2 * cos x <= a * e2 * Wf el x) by (apply Rmult_le_compat_l; nra). nra.
Qed.

Lemma lat_body_contraction_global Z rho x y : a * e2 < rho ->
  Rabs (lat_body ROps el Z rho y - lat_body ROps el Z rho x) <= lat_q el Z rho * Rabs (y - x).
Proof.
  intros Hr. assert (Pr : 0 < rho) by nra.
  apply (lat_body_lipschitz el Ha He2 Z rho Pr).
  - pose proof (rnorm_ge_rho Z rho Pr). lra.
  - intros z _. pose proof (lat_den_pos_global rho z Hr). lra.
Qed.

Section Point.
Variable p : vec3 (T:=R).
Local Notation Z := (vz p).
Local Notation rho := (hnorm ROps (vx p) (vy p)).
Hypothesis Hrho : 0 < rho.
Hypothesis Hfar : e2 * a < rnorm Z rho.

Lemma first_guess_in_J : lat_J Z rho (lat_first_guess ROps el (vx p) (vy p) Z).
Proof.
  unfold lat_first_guess. cbn [natan ndiv nmul nsub nsqrt nadd n_one ROps].
  replace (sqrt (vx p * vx p + vy p * vy p + Z * Z)) with (rnorm Z rho).
  2:{ unfold rnorm, hnorm. cbn [nsqrt nadd nmul ROps]. rewrite sqrt_sqrt by nra. reflexivity. }
  set (r := rnorm Z rho) in *.
  assert (Pr : 0 < r) by nra.
  assert (Q0 : 0 <= a * e2 / r) by (apply Rdiv_le_0_compat; nra).
  assert (Q1 : a * e2 / r < 1) by (apply Rlt_div_l; lra).
  replace (Z / (rho * (1 - a * e2 / r))) with (Z / rho / (1 - a * e2 / r)) by (field; repeat split; lra).
  apply lat_J_of_quot; [exact Hrho|lra].
Qed.

Hypothesis HJ : (e2 * a) * (e2 * a) < rho * rho + (1 - e2) * (Z * Z).

(* what toWGS84 returns, with the invariant interval as the invariant *)
Lemma toWGS84_exit_J fuel gg : toWGS84 ROps fuel el p = Some gg ->
  g_lon gg = longitude_of ROps (vx p) (vy p) /\ g_alt gg = altitude_of ROps el rho (g_lat gg) /\
  exists prev, lat_J Z rho prev /\ g_lat gg = lat_body ROps el Z rho prev /\ Rabs (g_lat gg - prev) <= ecef_eps ROps.
Proof.
  exact (toWGS84_exit fuel el p gg (lat_J Z rho) (lat_J_body el Ha He2 Z rho Hrho HJ) first_guess_in_J).
Qed.

(* latitude returned by toWGS84 vs. a fixed point of the body in the invariant interval *)
Lemma toWGS84_latitude_accuracy fuel gg fx :
  lat_q el Z rho < 1 -> lat_J Z rho fx -> lat_body ROps el Z rho fx = fx ->
  toWGS84 ROps fuel el p = Some gg ->
  Rabs (g_lat gg - fx) <= lat_q el Z rho * ecef_eps ROps / (1 - lat_q el Z rho).
Proof.
  intros Hq Hfx Hfix H. destruct (toWGS84_exit_J fuel gg H) as [_ [_ [prev [Hp [-> Hs]]]]].
  apply (contraction_exit_error (lat_body ROps el Z rho) (lat_q el Z rho) (ecef_eps ROps) prev fx).
  - split; [apply (lat_q_nonneg el Ha He2 Z rho Hfar)|exact Hq].
  - exact Hfix.
  - apply (lat_body_contraction_J el Ha He2 Z rho Hrho Hfar HJ); assumption.
  - exact Hs.
Qed.

Lemma toWGS84_terminates n fuel :
  PI * lat_q el Z rho ^ n <= ecef_eps ROps -> (S n <= fuel)%nat ->
  exists gg, toWGS84 ROps fuel el p = Some gg.
Proof.
  intros Hn Hfu. unfold toWGS84.
  destruct (lat_loop_terminates el Ha He2 Z rho Hrho Hfar HJ n fuel _
              (nofDec ROps ecef_initial_delta_m ecef_initial_delta_e) first_guess_in_J Hn Hfu) as [r Er].
  rewrite Er. eexists; reflexivity.
Qed.
End Point.
End OnEllipsoid.

Section NearEarthPoint.
Variable el : ellipsoid (T:=R).
Hypothesis Ha : 0 < el_a el.
Hypothesis He : 0 <= el_e2 el <= / 100.
Variable p : vec3 (T:=R).
Local Notation a := (el_a el).
Local Notation e2 := (el_e2 el).
Local Notation Z := (vz p).
Local Notation rho := (hnorm ROps (vx p) (vy p)).
Hypothesis Hrho : 0 < rho.
Hypothesis Hr : 98 / 100 * a <= rnorm Z rho.

Let He2 : 0 <= e2 < 1. Proof. lra. Qed.

Lemma near_far : e2 * a < rnorm Z rho.
Proof. nra. Qed.

(* rho^2 + (1-e2) Z^2 >= (1-e2) |p|^2 >= 0.99 (0.98 a)^2 > (a/100)^2 *)
Lemma near_HJ : (e2 * a) * (e2 * a) < rho * rho + (1 - e2) * (Z * Z).
Proof.
  pose proof (rnorm_sq Z rho) as S. set (r := rnorm Z rho) in *. clearbody r.
  assert (E : 0 <= e2 * a <= a / 100) by nra.
  assert (S1 : (e2 * a) * (e2 * a) <= (a / 100) * (a / 100)) by nra.
  assert (S2 : (98 / 100 * a) * (98 / 100 * a) <= r * r) by nra.
  assert (S3 : (1 - e2) * (r * r) <= rho * rho + (1 - e2) * (Z * Z)) by nra.
  nra.
Qed.

(* explicit contraction factor: 1.04 e2 <= 0.0104 *)
Lemma near_q_bound : 0 <= lat_q el Z rho <= 26 / 25 * e2.
Proof.
  split; [exact (lat_q_nonneg el Ha He2 Z rho near_far)|].
  pose proof (sqrt_1me2_lower el He) as K.
  unfold lat_q. set (r := rnorm Z rho) in *. set (k := sqrt (1 - e2)) in *. clearbody r k.
  assert (D1 : 97 / 100 * a <= r - e2 * a) by nra.
  assert (D2 : 25 / 26 * a <= k * (r - e2 * a)) by nra.
  apply Rle_div_l; nra.
Qed.

(* the step shrinks from at most PI by 0.0104 per pass, and PI * 0.0104^6 <= EPSILON *)
Lemma near_terminates fuel : (7 <= fuel)%nat -> exists gg, toWGS84 ROps fuel el p = Some gg.
Proof.
  apply (toWGS84_terminates el Ha He2 p Hrho near_far near_HJ 6).
  pose proof near_q_bound as Q. set (q := lat_q el Z rho) in *. clearbody q.
  rewrite ecef_eps_eq. apply Rle_trans with (PI * (104 / 10000) ^ 6); [|exact pi_q6_bound].
  apply Rmult_le_compat_l; [pose proof PI_RGT_0; lra|]. apply pow_incr. lra.
Qed.

(* a returned latitude is within 1.1e-13 rad of any fixed point of the body in the invariant interval *)
Lemma near_latitude_accuracy fuel gg fx :
  lat_J Z rho fx -> lat_body ROps el Z rho fx = fx -> toWGS84 ROps fuel el p = Some gg ->
  let q := 26 / 25 * e2 in
  Rabs (g_lat gg - fx) <= q * ecef_eps ROps / (1 - q) /\
  q * ecef_eps ROps / (1 - q) <= 11 / 100 * / 1000000000000.
Proof.
  intros Hfx Hfix H q. pose proof near_q_bound as Q. fold q in Q.
  assert (Q1 : q <= 104 / 10000) by (unfold q; lra). clearbody q.
  split.
  - apply Rle_trans with (lat_q el Z rho * ecef_eps ROps / (1 - lat_q el Z rho)).
    + apply (toWGS84_latitude_accuracy el Ha He2 p Hrho near_far near_HJ fuel); [lra|assumption..].
    + apply exit_error_mono; [exact Q|lra|rewrite ecef_eps_eq; lra].
  - rewrite ecef_eps_eq. apply Rle_trans with (104 / 10000 * / 100000000000 / (1 - 104 / 10000)); [|lra].
    apply exit_error_mono; lra.
Qed.
End NearEarthPoint.

(* the image of toECEF near the Earth *)
Section NearEarth.
Variable el : ellipsoid (T:=R).
Hypothesis Ha : 0 < el_a el.
Hypothesis He : 0 <= el_e2 el <= / 100.
Variables lat lon h : R.
Hypothesis Hlat : - PI / 2 < lat < PI / 2.
Hypothesis Hh : - el_a el / 100 <= h.
Local Notation a := (el_a el).
Local Notation e2 := (el_e2 el).

Let He2 : 0 <= e2 < 1. Proof. lra. Qed.

Local Notation N0 := (primeVertical ROps el lat).
Local Notation Pp := (N0 + h).
Local Notation mm := (N0 * (1 - e2) + h).
Local Notation rhoP := (Pp * cos lat).
Local Notation ZP := (mm * sin lat).
Local Notation p := (toECEF ROps el (mkGeo lat lon h)).

Lemma ne_m_lower : 98 / 100 * a <= mm.
Proof.
  pose proof (primeVertical_ge_a el Ha He2 lat) as G.
  assert (S1 : a * (1 - e2) <= N0 * (1 - e2)) by (apply Rmult_le_compat_r; lra).
  assert (S2 : a * (99 / 100) <= a * (1 - e2)) by (apply Rmult_le_compat_l; lra).
  lra.
Qed.

Lemma ne_P_ge_m : mm <= Pp.
Proof. pose proof (primeVertical_pos el Ha He2 lat). nra. Qed.

Lemma ne_rho_pos : 0 < rhoP.
Proof. pose proof ne_m_lower. pose proof ne_P_ge_m. pose proof (cos_pos_lat lat Hlat). nra. Qed.

(* the point and its cylindrical coordinates *)
Lemma ne_point : vz p = ZP /\ hnorm ROps (vx p) (vy p) = rhoP.
Proof. split; [reflexivity|]. apply (hnorm_toECEF el Ha He2 lat lon h Hlat). nra. Qed.

(* it is farther than 0.98 a from the centre: |p|^2 = P^2 cos^2 + m^2 sin^2 >= m^2 *)
Lemma ne_rnorm_lower : 98 / 100 * a <= rnorm ZP rhoP.
Proof.
  pose proof ne_m_lower as M. pose proof ne_P_ge_m as PM.
  apply Rle_trans with (1 := M).
  unfold rnorm. rewrite <- (sqrt_square mm) at 1 by lra. apply sqrt_le_1_alt.
  pose proof (cos_sq_eq lat) as C.
  replace (rhoP * rhoP + ZP * ZP) with (Pp * Pp * (cos lat * cos lat) + mm * mm * (sin lat * sin lat)) by ring.
  rewrite C. assert (0 <= sin lat * sin lat) by nra. pose proof (sin_sq_le_1 lat).
  assert (mm * mm <= Pp * Pp) by nra. nra.
Qed.

Lemma ne_near : 0 < hnorm ROps (vx p) (vy p) /\ 98 / 100 * a <= rnorm (vz p) (hnorm ROps (vx p) (vy p)).
Proof. destruct ne_point as [-> ->]. exact (conj ne_rho_pos ne_rnorm_lower). Qed.

Lemma ne_fixed : lat_body ROps el ZP rhoP lat = lat.
Proof. apply (lat_body_fixed_point el Ha He2 lat h Hlat). nra. Qed.

(* at the true latitude the denominator is (N (1-e2) + h) / (N + h) *)
Lemma ne_den_fixed : 0 < lat_den el rhoP lat.
Proof.
  pose proof (Wf_pos el He2 lat) as Wp. pose proof (cos_pos_lat lat Hlat) as Cp.
  pose proof ne_m_lower as M. pose proof ne_P_ge_m as PM.
  replace (lat_den el rhoP lat) with (mm / Pp); [apply Rdiv_lt_0_compat; lra|].
  unfold lat_den. rewrite (primeVertical_eq el lat) in *. fold (Wf el lat) in *.
  assert (Pw : 0 < a + h * Wf el lat).
  { replace (a + h * Wf el lat) with ((a / Wf el lat + h) * Wf el lat) by (field; lra). apply Rmult_lt_0_compat; lra. }
  field. repeat split; lra.
Qed.

Lemma ne_fixed_in_J : lat_J ZP rhoP lat.
Proof.
  pose proof (lat_J_body_pos el Ha He2 ZP rhoP ne_rho_pos lat Hlat ne_den_fixed) as H.
  rewrite ne_fixed in H. exact H.
Qed.

Lemma ne_terminates fuel : (7 <= fuel)%nat -> exists gg, toWGS84 ROps fuel el p = Some gg.
Proof. exact (near_terminates el Ha He p (proj1 ne_near) (proj2 ne_near) fuel). Qed.

Lemma ne_latitude_accuracy fuel gg : toWGS84 ROps fuel el p = Some gg ->
  let q := 26 / 25 * e2 in
  Rabs (g_lat gg - lat) <= q * ecef_eps ROps / (1 - q) /\
  q * ecef_eps ROps / (1 - q) <= 11 / 100 * / 1000000000000.
Proof.
  apply (near_latitude_accuracy el Ha He p (proj1 ne_near) (proj2 ne_near));
    destruct ne_point as [-> ->]; [exact ne_fixed_in_J|exact ne_fixed].
Qed.

(* the contraction statement on the image of toECEF, with the explicit factor *)
Lemma ne_contraction :
  let Z := vz p in let norm := hnorm ROps (vx p) (vy p) in
  let g := lat_body ROps el Z norm in
  let q := 26 / 25 * e2 in
  q <= 13 / 1250 /\
  lat_J Z norm lat /\ g lat = lat /\
  lat_J Z norm (lat_first_guess ROps el (vx p) (vy p) Z) /\
  (forall x, lat_J Z norm x -> lat_J Z norm (g x)) /\
  (forall x, lat_J Z norm x -> 0 < lat_den el norm x <= 1) /\
  (forall x y, lat_J Z norm x -> lat_J Z norm y -> Rabs (g y - g x) <= q * Rabs (y - x)).
Proof.
  intros Z norm g q. destruct ne_near as [Hrho Hr].
  pose proof (near_far el Ha He p Hr) as Hfar. pose proof (near_HJ el Ha He p Hrho Hr) as HJ.
  split; [unfold q; lra|].
  split; [unfold Z, norm; destruct ne_point as [-> ->]; exact ne_fixed_in_J|].
  split; [unfold g, Z, norm; destruct ne_point as [-> ->]; exact ne_fixed|].
  split; [apply (first_guess_in_J el Ha He2 p Hrho Hfar)|].
  split; [intros x; apply (lat_J_body el Ha He2 Z norm Hrho HJ)|].
  split; [intros x; apply (lat_J_den el Ha He2 Z norm Hrho HJ)|].
  intros x y Hx Hy. apply Rle_trans with (lat_q el Z norm * Rabs (y - x)).
  - apply (lat_body_contraction_J el Ha He2 Z norm Hrho Hfar HJ); assumption.
  - apply Rmult_le_compat_r; [apply Rabs_pos|apply (near_q_bound el Ha He p Hr)].
Qed.

(* away from the poles (cos lat >= 1/97, |lat| <= 89.4 deg) the bound is global in the iterate *)
Lemma ne_contraction_global : / 97 <= cos lat ->
  let Z := vz p in let norm := hnorm ROps (vx p) (vy p) in
  let g := lat_body ROps el Z norm in
  a * e2 < norm /\
  (forall x, 0 < lat_den el norm x) /\
  forall x y, Rabs (g y - g x) <= 26 / 25 * e2 * Rabs (y - x).
Proof.
  intros Hc Z norm g. destruct ne_near as [Hrho Hr].
  assert (Hn : a * e2 < norm).
  { unfold norm. rewrite (proj2 ne_point). pose proof ne_m_lower as M. pose proof ne_P_ge_m as PM.
    assert (S1 : 98 / 100 * a * / 97 <= Pp * cos lat) by (apply Rmult_le_compat; nra).
    assert (S2 : a * e2 <= a * / 100) by (apply Rmult_le_compat_l; lra). lra. }
  split; [exact Hn|]. split; [intros x; apply (lat_den_pos_global el Ha He2 norm x Hn)|].
  intros x y. apply Rle_trans with (lat_q el Z norm * Rabs (y - x)).
  - apply (lat_body_contraction_global el Ha He2). exact Hn.
  - apply Rmult_le_compat_r; [apply Rabs_pos|apply (near_q_bound el Ha He p Hr)].
Qed.

(* height: sensitivity of norm/cos(lat) - N(lat) to the latitude error *)
Hypothesis Ha7 : a <= 7000000.
Hypothesis Hh5 : h <= 100000.
Hypothesis Hcos : / 600 <= cos lat.

Lemma ne_P_upper : Pp <= 7150000.
Proof.
  pose proof (Wf_range el He lat) as Rw.
  assert (N0 <= 7050000); [|lra].
  rewrite (primeVertical_eq el lat). fold (Wf el lat). apply Rle_div_l; nra.
Qed.

Lemma ne_height_sensitivity x d :
  Rabs (x - lat) <= d -> d <= 11 / 100 * / 1000000000000 ->
  Rabs (altitude_of ROps el rhoP x - h) <= / 1000.
Proof.
  intros Hx Hd.
  rewrite <- (height_recovered el He2 lat h Hlat) at 2. rewrite !altitude_of_eq.
  pose proof (Wf_range el He x) as Rw. pose proof (Wf_range el He lat) as Rw0.
  pose proof (Wf_lip el He lat x) as Lw. pose proof (cos_lip lat x) as Lc. rewrite (Rabs_minus_sym lat x) in Lw, Lc.
  pose proof (Rabs_pos (x - lat)) as D0.
  pose proof ne_P_upper as PU. pose proof ne_m_lower as M. pose proof ne_P_ge_m as PM.
  set (w := Wf el x) in *. set (w0 := Wf el lat) in *. set (c := cos x) in *. set (c0 := cos lat) in *.
  assert (Cl : / 601 <= c) by (apply Rabs_le_between' in Lc; lra).
  clearbody w w0 c c0.
  replace (Pp * c0 / c - a / w - (Pp * c0 / c0 - a / w0))
    with (Pp * (c0 - c) / c - a * (w0 - w) / (w * w0)) by (field; repeat split; lra).
  assert (T1 : Rabs (Pp * (c0 - c) / c) <= 7150000 * d / (/ 601)).
  { apply Rabs_div_le; [|lra]. apply Rabs_mult_le; [rewrite Rabs_pos_eq; lra|lra]. }
  assert (T2 : Rabs (a * (w0 - w) / (w * w0)) <= 7000000 * (2 / 100 * d) / (98 / 100)).
  { apply Rabs_div_le; [|nra]. apply Rabs_mult_le; [rewrite Rabs_pos_eq; lra|lra]. }
  apply Rabs_le_between in T1. apply Rabs_le_between in T2. apply Rabs_le. lra.
Qed.

Lemma ne_roundtrip_accuracy fuel gg : - PI < lon <= PI ->
  toWGS84 ROps fuel el p = Some gg ->
  g_lon gg = lon /\ Rabs (g_lat gg - lat) <= / 1000000000 /\ Rabs (g_alt gg - h) <= / 1000.
Proof.
  intros Hlon H. destruct (ne_latitude_accuracy fuel gg H) as [L B].
  destruct (toWGS84_exit fuel el p gg (fun _ => True) (fun _ _ => I) I H) as [Elon [Ealt _]].
  rewrite (proj2 ne_point) in Ealt. assert (Hh' : - a < h) by nra.
  split; [rewrite Elon; exact (longitude_recovered el Ha He2 lat lon h Hlat Hlon Hh')|]. split; [lra|].
  rewrite Ealt. apply (ne_height_sensitivity _ _ L B).
Qed.

End NearEarth.

(* non-vacuity: GRS80 at 89.9 deg, height -11 km *)
Lemma grs80_in_domain :
  let el := grs80 ROps in
  0 < el_a el <= 7000000 /\ 0 <= el_e2 el <= / 100 /\
  - PI / 2 < 899 / 1800 * PI < PI / 2 /\ / 600 <= cos (899 / 1800 * PI) /\
  - el_a el / 100 <= -11000 <= 100000.
Proof.
  cbv zeta. rewrite grs80_eq. cbn [make_ellipsoid el_a el_e2 nmul nsub ndiv ROps].
  pose proof PI_RGT_0.
  split; [lra|]. split; [split; interval|]. split; [lra|]. split; [interval|lra].
Qed.
