(* KabschProofs.v — lemmas about the closed-form rigid registration model (KabschModel.v), real-number instance.
   Eigen::JacobiSVD is the function argument [svd_of]; its contract is [svd_contract] of LsProofs.v
   (M = U diag(sigma) V^T, U and V orthogonal, sigma >= 0 non-increasing). *)
From Coq Require Import Reals List Arith Lia Lra Bool Psatz Permutation.
From Romea Require Import Num NumR LinAlgBModel LinAlgBProofs LsProofs KabschModel.
Import ListNotations.
Local Open Scope R_scope.

Local Notation mg := (mget ROps).
Local Notation vg := (vget ROps).

(* the columns of the d x d block of Q are orthonormal; for the rows: [is_orth d (fun a i => Q i a)] *)
Section Orthonormal.
Variable d : nat.
Definition is_orth (Q : nat -> nat -> R) : Prop :=
  forall a b, (a < d)%nat -> (b < d)%nat -> Rsum d (fun l => Q l a * Q l b) = delta a b.
End Orthonormal.

(* sum_a sum_b alpha_a beta_b (sum_l W l a W l b) collapses when the columns of W are orthonormal *)
Lemma collapse d (W : nat -> nat -> R) (al be : nat -> R) : is_orth d W ->
  Rsum d (fun l => Rsum d (fun a => W l a * al a) * Rsum d (fun b => W l b * be b)) = Rsum d (fun a => al a * be a).
Proof.
  intros HW.
  transitivity (Rsum d (fun l => Rsum d (fun a => Rsum d (fun b => (al a * be b) * (W l a * W l b))))).
  { apply Rsum_ext. intros l _. rewrite <- Rsum_scal_r. apply Rsum_ext. intros a _. rewrite <- Rsum_scal_l.
    apply Rsum_ext. intros b _. ring. }
  rewrite Rsum_swap. apply Rsum_ext. intros a Ha. rewrite Rsum_swap.
  rewrite (Rsum_ext d _ (fun b => (al a * be b) * delta a b)).
  - now rewrite Rsum_delta_r'.
  - intros b Hb. rewrite Rsum_scal_l. now rewrite HW.
Qed.

Section Abstract.
Variable d : nat.
Variables U V : nat -> nat -> R.
Variable sg : nat -> R.
Hypothesis HUtU : is_orth d U.
Hypothesis HUUt : is_orth d (fun a i => U i a).
Hypothesis HVtV : is_orth d V.
Hypothesis Hsg : forall a, (a < d)%nat -> 0 <= sg a.

(* R_e = V diag(e) U^T *)
Definition Re (e : nat -> R) (i j : nat) : R := Rsum d (fun a => V i a * e a * U j a).

Lemma Re_orthogonal e : (forall a, (a < d)%nat -> e a * e a = 1) ->
  forall i j, (i < d)%nat -> (j < d)%nat -> Rsum d (fun l => Re e l i * Re e l j) = delta i j.
Proof.
  intros He i j Hi Hj. unfold Re.
  rewrite (Rsum_ext d _ (fun l => Rsum d (fun a => V l a * (e a * U i a)) * Rsum d (fun b => V l b * (e b * U j b)))).
  2:{ intros l _. f_equal; apply Rsum_ext; intros; ring. }
  rewrite (collapse d V _ _ HVtV). rewrite <- (HUUt i j Hi Hj). apply Rsum_ext. intros a Ha.
  transitivity ((e a * e a) * (U i a * U j a)); [ring|]. rewrite He by exact Ha. ring.
Qed.

(* the cross covariance as the SVD gives it *)
Definition Cm (i j : nat) : R := Rsum d (fun a => U i a * sg a * V j a).

(* trace(Q C) = sum_a sigma_a (V^T Q U)_aa *)
Definition trQC (Q : nat -> nat -> R) : R := Rsum d (fun i => Rsum d (fun j => Q i j * Cm j i)).
Definition Zdiag (Q : nat -> nat -> R) (a : nat) : R := Rsum d (fun i => V i a * Rsum d (fun j => Q i j * U j a)).

Lemma trQC_diag Q : trQC Q = Rsum d (fun a => sg a * Zdiag Q a).
Proof.
  unfold trQC, Cm, Zdiag.
  transitivity (Rsum d (fun i => Rsum d (fun a => Rsum d (fun j => sg a * (V i a * (Q i j * U j a)))))).
  { apply Rsum_ext. intros i _. rewrite Rsum_swap. apply Rsum_ext. intros j _.
    rewrite <- Rsum_scal_l. apply Rsum_ext. intros a _. ring. }
  rewrite Rsum_swap. apply Rsum_ext. intros a _. rewrite <- Rsum_scal_l. apply Rsum_ext. intros i _.
  rewrite Rsum_scal_l. f_equal. now rewrite Rsum_scal_l.
Qed.

(* an orthogonal Q keeps lengths: |Q u|^2 = |u|^2 *)
Lemma orth_norm Q (u : nat -> R) : is_orth d Q ->
  Rsum d (fun i => Rsum d (fun j => Q i j * u j) * Rsum d (fun j => Q i j * u j)) = Rsum d (fun j => u j * u j).
Proof. intros HQ. exact (collapse d Q u u HQ). Qed.

Lemma Zdiag_le_1 Q a : (a < d)%nat -> is_orth d Q -> Zdiag Q a <= 1.
Proof.
  intros Ha HQ. unfold Zdiag.
  set (w := fun i => Rsum d (fun j => Q i j * U j a)).
  assert (Hw : Rsum d (fun i => w i * w i) = 1).
  { unfold w. rewrite (orth_norm Q (fun j => U j a) HQ). rewrite HUtU by exact Ha. apply delta_same. }
  assert (Hv : Rsum d (fun i => V i a * V i a) = 1) by (rewrite HVtV by exact Ha; apply delta_same).
  assert (Hsq : 0 <= Rsum d (fun i => (V i a - w i) * (V i a - w i))) by (apply Rsum_nonneg; intros; apply Rle_0_sqr).
  rewrite (Rsum_ext d _ (fun i => V i a * V i a + w i * w i - 2 * (V i a * w i))) in Hsq by (intros; ring).
  rewrite Rsum_minus, Rsum_plus, Rsum_scal_l, Hv, Hw in Hsq. change (Rsum d (fun i => V i a * w i) <= 1). lra.
Qed.

Lemma Zdiag_Re e a : (a < d)%nat -> Zdiag (Re e) a = e a.
Proof.
  intros Ha. unfold Zdiag, Re.
  transitivity (Rsum d (fun i => V i a * (V i a * e a))).
  - apply Rsum_ext; intros i _. f_equal.
    transitivity (Rsum d (fun b => V i b * e b * delta b a)).
    + transitivity (Rsum d (fun j => Rsum d (fun b => V i b * e b * (U j b * U j a)))).
      { apply Rsum_ext. intros j _. rewrite <- Rsum_scal_r. apply Rsum_ext. intros; ring. }
      rewrite Rsum_swap. apply Rsum_ext. intros b Hb. rewrite Rsum_scal_l, HUtU by assumption. ring.
    + now rewrite Rsum_delta_r.
  - transitivity (Rsum d (fun i => e a * (V i a * V i a))); [apply Rsum_ext; intros; ring|].
    rewrite Rsum_scal_l, HVtV, delta_same by exact Ha. ring.
Qed.

(* optimality: R = V U^T maximises trace(Q C) over all orthogonal Q *)
Lemma trace_optimal Q : is_orth d Q -> trQC Q <= trQC (Re (fun _ => 1)).
Proof.
  intros HQ. rewrite !trQC_diag. apply Rsum_le. intros a Ha.
  rewrite Zdiag_Re by exact Ha. pose proof (Zdiag_le_1 Q a Ha HQ). pose proof (Hsg a Ha). nra.
Qed.

(* the trace for any column signs e; with e_last = -1 (the flipped last direction) it is 2 sigma_last below the maximum *)
Lemma trace_Re e : trQC (Re e) = Rsum d (fun a => sg a * e a).
Proof. rewrite trQC_diag. apply Rsum_ext. intros a Ha. now rewrite Zdiag_Re. Qed.

End Abstract.

(* ---- registration cost of N centred pairs: sum_n |Q s_n - t_n|^2 = sum|s|^2 + sum|t|^2 - 2 trace(Q C) ---- *)
Section Cost.
Variables (d N : nat) (S T : nat -> nat -> R).     (* S n i, T n i: centred source / target coordinates *)
Definition Ccov (j i : nat) : R := Rsum N (fun n => S n j * T n i).
Definition rcost (Q : nat -> nat -> R) : R :=
  Rsum N (fun n => Rsum d (fun i => (Rsum d (fun j => Q i j * S n j) - T n i) * (Rsum d (fun j => Q i j * S n j) - T n i))).

Lemma rcost_expand Q : is_orth d Q ->
  rcost Q = Rsum N (fun n => Rsum d (fun j => S n j * S n j)) + Rsum N (fun n => Rsum d (fun i => T n i * T n i))
            - 2 * Rsum d (fun i => Rsum d (fun j => Q i j * Ccov j i)).
Proof.
  intros HQ. unfold rcost, Ccov.
  rewrite (Rsum_ext N _ (fun n => Rsum d (fun j => S n j * S n j) + Rsum d (fun i => T n i * T n i)
                                  - 2 * Rsum d (fun i => Rsum d (fun j => Q i j * (S n j * T n i))))).
  - rewrite Rsum_minus, Rsum_plus, Rsum_scal_l. f_equal. f_equal.
    rewrite Rsum_swap. apply Rsum_ext. intros i _. rewrite Rsum_swap. apply Rsum_ext. intros j _.
    now rewrite Rsum_scal_l.
  - intros n _. rewrite <- (orth_norm d Q (fun j => S n j) HQ).
    rewrite <- Rsum_scal_l, <- Rsum_plus, <- Rsum_minus. apply Rsum_ext. intros i _.
    rewrite (Rsum_ext d (fun j => Q i j * (S n j * T n i)) (fun j => Q i j * S n j * T n i)) by (intros; ring).
    rewrite Rsum_scal_r. ring.
Qed.

Lemma rcost_exact Q : (forall n i, (n < N)%nat -> (i < d)%nat -> T n i = Rsum d (fun j => Q i j * S n j)) -> rcost Q = 0.
Proof. intros Hex. apply Rsum_zero. intros n Hn. apply Rsum_zero. intros i Hi. rewrite (Hex n i Hn Hi). ring. Qed.
End Cost.

(* a closed fact about concrete matrices, for all indices below a bound: every index is enumerated, the sums are computed *)
Ltac enumerate_indices :=
  repeat match goal with i : nat |- _ => destruct i as [|i]; [|try lia] end; try lia; cbn; unfold delta; cbn; try lra.

(* ---- the model's rotation block ---- *)
Section Model.
Variable svd_of : nat -> list (list R) -> (list (list R) * list R) * list (list R).

Definition elast (d : nat) (a : nat) : R := if Nat.eqb (S a) d then -1 else 1.

Lemma elast_sq d a : elast d a * elast d a = 1.
Proof. unfold elast. destruct (Nat.eqb (S a) d); lra. Qed.

Lemma R0_get d U V i j : (i < d)%nat -> (j < d)%nat ->
  mg (mmul ROps d d d V (mtrans ROps d d U)) i j = Re d (mg U) (mg V) (fun _ => 1) i j.
Proof.
  intros Hi Hj. unfold mmul, mtrans, Re. rewrite mget_mtab by assumption. unfold fmmul. rsimpl.
  apply Rsum_ext. intros a Ha. rewrite mget_mtab by assumption. unfold ftr. ring.
Qed.

Lemma R1_get d U V i j : (i < d)%nat -> (j < d)%nat ->
  mg (mmul ROps d d d (negate_last_col ROps d V) (mtrans ROps d d U)) i j = Re d (mg U) (mg V) (elast d) i j.
Proof.
  intros Hi Hj. unfold mmul, mtrans, Re, negate_last_col. rewrite mget_mtab by assumption. unfold fmmul. rsimpl.
  apply Rsum_ext. intros a Ha. rewrite !mget_mtab by assumption. unfold ftr, elast. rsimpl.
  destruct (Nat.eqb (S a) d); ring.
Qed.

Definition is_orthogonal (d : nat) (R : list (list R)) : Prop :=
  forall i j, (i < d)%nat -> (j < d)%nat -> Rsum d (fun l => mg R l i * mg R l j) = delta i j.

Lemma det_delta d : (d = 2 \/ d = 3)%nat -> fdet ROps d delta = 1.
Proof. intros [->| ->]; cbn; unfold fdet2, fdet3, delta; cbn; ring. Qed.

Lemma fdet_ext d A B : (d = 2 \/ d = 3)%nat ->
  (forall i j, (i < d)%nat -> (j < d)%nat -> A i j = B i j) -> fdet ROps d A = fdet ROps d B.
Proof. intros [->| ->] H; cbn; [now apply fdet2_ext|now apply fdet3_ext]. Qed.

Lemma fdet_mul d A B : (d = 2 \/ d = 3)%nat ->
  fdet ROps d (fun i j => Rsum d (fun l => A i l * B l j)) = fdet ROps d A * fdet ROps d B.
Proof. intros [->| ->]; cbn; [exact (fdet2_mul A B)|exact (fdet3_mul A B)]. Qed.

Lemma fdet_tr d A : (d = 2 \/ d = 3)%nat -> fdet ROps d (fun i j => A j i) = fdet ROps d A.
Proof. intros [->| ->]; cbn; [exact (fdet2_tr A)|exact (fdet3_tr A)]. Qed.

(* an orthogonal matrix has determinant +1 or -1 *)
Lemma orthogonal_det_sq d (Rm : nat -> nat -> R) : (d = 2 \/ d = 3)%nat -> is_orth d Rm ->
  fdet ROps d Rm * fdet ROps d Rm = 1.
Proof.
  intros Hd H. rewrite <- (det_delta d Hd). rewrite <- (fdet_tr d Rm Hd) at 1.
  rewrite <- fdet_mul by exact Hd. apply fdet_ext; [exact Hd|]. intros i j Hi Hj. now apply H.
Qed.

(* flipping the last column of V flips the determinant of V diag(e) U^T *)
Lemma det_Re_flip d U V : (d = 2 \/ d = 3)%nat ->
  fdet ROps d (Re d U V (elast d)) = - fdet ROps d (Re d U V (fun _ => 1)).
Proof.
  intros [->| ->]; cbn; unfold fdet2, fdet3, Re, elast; cbn [sumn Nat.eqb]; rsimpl; ring.
Qed.

Section WithContract.
Variables (d : nat) (cov : list (list R)).
Hypothesis Hd : (d = 2 \/ d = 3)%nat.
Hypothesis Hc : svd_contract d cov (svd_of d cov).

Lemma rotation_cases fixed :
  exists e, (e = (fun _ => 1) \/ e = elast d) /\
    let '(U, _, V) := svd_of d cov in
    forall i j, (i < d)%nat -> (j < d)%nat -> mg (rotation_of ROps svd_of fixed d cov) i j = Re d (mg U) (mg V) e i j.
Proof.
  unfold rotation_of. destruct (svd_of d cov) as [[U sg] V].
  destruct (andb fixed _).
  - exists (elast d). split; [now right|]. intros. now apply R1_get.
  - exists (fun _ => 1). split; [now left|]. intros. now apply R0_get.
Qed.

(* R^T R = I, original and repaired code *)
Theorem rotation_orthogonal fixed : is_orthogonal d (rotation_of ROps svd_of fixed d cov).
Proof.
  destruct (rotation_cases fixed) as (e & He & Hget). unfold svd_contract in Hc.
  destruct (svd_of d cov) as [[U sg] V]. destruct Hc as (_ & HUtU & HUUt & HVtV & HVVt & _ & _).
  intros i j Hi Hj.
  rewrite (Rsum_ext d _ (fun l => Re d (mg U) (mg V) e l i * Re d (mg U) (mg V) e l j))
    by (intros l Hl; now rewrite !Hget).
  apply (Re_orthogonal d (mg U) (mg V) HUUt HVtV); [|assumption|assumption].
  intros a _. destruct He as [-> | ->]; [lra|apply elast_sq].
Qed.

(* det R = +1 for the repaired code *)
Theorem rotation_proper : fdet ROps d (mg (rotation_of ROps svd_of true d cov)) = 1.
Proof.
  pose proof (rotation_orthogonal true) as Horth.
  pose proof (orthogonal_det_sq d (mg (rotation_of ROps svd_of true d cov)) Hd Horth) as Hsq.
  assert (Hpos : 0 <= fdet ROps d (mg (rotation_of ROps svd_of true d cov))).
  { unfold rotation_of in *. destruct (svd_of d cov) as [[U sg] V]. cbn [andb].
    set (R0 := mmul ROps d d d V (mtrans ROps d d U)) in *. rsimpl.
    destruct (Rltb (fdet ROps d (mg R0)) 0) eqn:E.
    - apply Rltb_true in E.
      rewrite (fdet_ext d _ (Re d (mg U) (mg V) (elast d)) Hd) by (intros; now apply R1_get).
      rewrite det_Re_flip by exact Hd.
      rewrite <- (fdet_ext d (mg R0) (Re d (mg U) (mg V) (fun _ => 1)) Hd) by (intros; now apply R0_get). lra.
    - apply Rltb_false in E. exact E. }
  nra.
Qed.

End WithContract.

(* ---- the original code returns a reflection on a coplanar set ---- *)
Definition cop_cov : list (list R) := [[1;0;0];[0;1;0];[0;0;0]].
Definition cop_svd (k : nat) (M : list (list R)) : (list (list R) * list R) * list (list R) :=
  (([[1;0;0];[0;1;0];[0;0;1]], [1;1;0]), [[1;0;0];[0;1;0];[0;0;-1]]).

Lemma cop_contract : svd_contract 3 cop_cov (cop_svd 3 cop_cov).
Proof.
  unfold svd_contract, cop_svd, cop_cov. repeat split; intros; enumerate_indices.
Qed.

End Model.

(* ---- order of the correspondences ---- *)
Lemma sum_list_acc {A} (f : A -> R) l acc : fold_left (fun a x => a + f x) l acc = acc + fold_left (fun a x => a + f x) l 0.
Proof.
  revert acc. induction l as [|x l IH]; intros acc; cbn; [lra|]. rewrite IH. rewrite (IH (0 + f x)). lra.
Qed.

Lemma sum_list_cons {A} (f : A -> R) x l : sum_list ROps f (x :: l) = f x + sum_list ROps f l.
Proof. unfold sum_list. cbn. rsimpl. rewrite sum_list_acc. lra. Qed.

Lemma sum_list_perm {A} (f : A -> R) l l' : Permutation l l' -> sum_list ROps f l = sum_list ROps f l'.
Proof.
  induction 1.
  - reflexivity.
  - rewrite !sum_list_cons. now rewrite IHPermutation.
  - rewrite !sum_list_cons. lra.
  - congruence.
Qed.

Lemma mean_of_perm ps (l l' : list (list R)) : Permutation l l' -> mean_of ROps ps l = mean_of ROps ps l'.
Proof.
  intros HP. unfold mean_of. rewrite (Permutation_length HP). apply tab_ext. intros c _. f_equal. now apply sum_list_perm.
Qed.

Theorem estimate_pairs_perm svd_of fixed d ps (l l' : list (list R * list R)) :
  Permutation l l' -> estimate_pairs ROps svd_of fixed d ps l = estimate_pairs ROps svd_of fixed d ps l'.
Proof.
  intros HP. unfold estimate_pairs.
  rewrite (mean_of_perm ps _ _ (Permutation_map fst HP)), (mean_of_perm ps _ _ (Permutation_map snd HP)).
  f_equal. f_equal. unfold cross_cov. apply mtab_ext. intros i j _ _. now apply sum_list_perm.
Qed.

(* ---- least-squares optimality and exact data (N centred pairs S n, T n; C = sum_n S_n T_n^T = U diag(sg) V^T) ---- *)
Section Optimal.
Variables (d N : nat) (S T : nat -> nat -> R) (U V : nat -> nat -> R) (sg : nat -> R).
Hypothesis HUtU : is_orth d U.
Hypothesis HUUt : is_orth d (fun a i => U i a).
Hypothesis HVtV : is_orth d V.
Hypothesis Hsg : forall a, (a < d)%nat -> 0 <= sg a.
Hypothesis HC : forall j i, (j < d)%nat -> (i < d)%nat -> Ccov N S T j i = Cm d U V sg j i.

Lemma Re_is_orth e : (forall a, (a < d)%nat -> e a * e a = 1) -> is_orth d (Re d U V e).
Proof. intros He a b Ha Hb. now apply (Re_orthogonal d U V HUUt HVtV). Qed.

Lemma rcost_trace Q : is_orth d Q ->
  rcost d N S T Q = Rsum N (fun n => Rsum d (fun j => S n j * S n j)) + Rsum N (fun n => Rsum d (fun i => T n i * T n i))
                    - 2 * trQC d U V sg Q.
Proof.
  intros HQ. rewrite (rcost_expand d N S T Q HQ). f_equal. f_equal. unfold trQC.
  apply Rsum_ext. intros i Hi. apply Rsum_ext. intros j Hj. now rewrite HC.
Qed.

(* R = V U^T is a least-squares optimal orthogonal matrix *)
Theorem kabsch_optimal Q : is_orth d Q -> rcost d N S T (Re d U V (fun _ => 1)) <= rcost d N S T Q.
Proof.
  intros HQ. rewrite (rcost_trace Q HQ), (rcost_trace _ (Re_is_orth _ (fun _ _ => Rmult_1_r 1))).
  pose proof (trace_optimal d U V sg HUtU HVtV Hsg Q HQ). lra.
Qed.

Lemma rcost_zero_maps Q : rcost d N S T Q <= 0 ->
  forall n i, (n < N)%nat -> (i < d)%nat -> Rsum d (fun j => Q i j * S n j) = T n i.
Proof.
  intros H n i Hn Hi.
  assert (Hnn : forall n, (n < N)%nat -> 0 <= Rsum d (fun i => (Rsum d (fun j => Q i j * S n j) - T n i) * (Rsum d (fun j => Q i j * S n j) - T n i)))
    by (intros; apply Rsum_nonneg; intros; apply Rle_0_sqr).
  assert (H0 : rcost d N S T Q = 0).
  { assert (0 <= rcost d N S T Q) by (unfold rcost; now apply Rsum_nonneg). lra. }
  pose proof (Rsum_nonneg_zero N _ Hnn H0 n Hn) as Hz.
  pose proof (Rsum_sq_zero d _ Hz i Hi) as E. cbv beta in E. lra.
Qed.

(* the repaired code flips the last direction when det < 0; if the last singular value is 0 (coplanar data) the
   flipped matrix is still optimal, hence still maps exact data exactly *)
Theorem kabsch_exact_maps_flipped R0 : is_orth d R0 -> (1 <= d)%nat -> sg (d - 1)%nat = 0 ->
  (forall n i, (n < N)%nat -> (i < d)%nat -> T n i = Rsum d (fun j => R0 i j * S n j)) ->
  forall n i, (n < N)%nat -> (i < d)%nat -> Rsum d (fun j => Re d U V (elast d) i j * S n j) = T n i.
Proof.
  intros H0 Hd1 Hs Hex. apply rcost_zero_maps.
  pose proof (rcost_exact d N S T R0 Hex) as E.
  rewrite (rcost_trace _ (Re_is_orth _ (fun a _ => elast_sq d a))).
  pose proof (kabsch_optimal R0 H0) as Hopt. rewrite (rcost_trace _ (Re_is_orth _ (fun _ _ => Rmult_1_r 1))), E in Hopt.
  rewrite (trace_Re d U V sg HUtU HVtV) in *.
  assert (Rsum d (fun a => sg a * elast d a) = Rsum d (fun a => sg a * 1)).
  { apply Rsum_ext. intros a Ha. unfold elast. destruct (Nat.eqb _ d) eqn:Ea; [|reflexivity].
    apply Nat.eqb_eq in Ea. replace a with (d - 1)%nat by lia. rewrite Hs. ring. }
  rewrite (rcost_trace _ H0) in E. lra.
Qed.

End Optimal.

(* translation: t = tm - R sm maps s onto R (s - sm) + tm *)
Lemma translation_maps d (Rm : nat -> nat -> R) (s sm tm : nat -> R) i :
  Rsum d (fun j => Rm i j * s j) + (tm i - Rsum d (fun j => Rm i j * sm j)) = Rsum d (fun j => Rm i j * (s j - sm j)) + tm i.
Proof.
  rewrite (Rsum_ext d (fun j => Rm i j * (s j - sm j)) (fun j => Rm i j * s j - Rm i j * sm j)) by (intros; ring).
  rewrite Rsum_minus. ring.
Qed.
