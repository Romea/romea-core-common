(* NumR.v — the real-number instance of the numeric dictionary.  All theorems are about it. *)
From Coq Require Import Reals ZArith Lra Lia.
From Flocq Require Import Core.Raux.
From Romea Require Import Num.
Local Open Scope R_scope.

Definition Rltb (a b : R) : bool := if Rlt_dec a b then true else false.
Definition Rleb (a b : R) : bool := if Rle_dec a b then true else false.
Definition Reqb (a b : R) : bool := if Req_EM_T a b then true else false.

Lemma Rltb_true a b : Rltb a b = true <-> a < b.
Proof. unfold Rltb; destruct (Rlt_dec a b); split; intros; try discriminate; tauto. Qed.
Lemma Rltb_false a b : Rltb a b = false <-> b <= a.
Proof. unfold Rltb; destruct (Rlt_dec a b); split; intros; try discriminate; try reflexivity; lra. Qed.
Lemma Rltb_spec a b : BoolSpec (a < b) (b <= a) (Rltb a b).
Proof. destruct (Rltb a b) eqn:E; constructor; [apply Rltb_true|apply Rltb_false]; exact E. Qed.
Lemma Rleb_true a b : Rleb a b = true <-> a <= b.
Proof. unfold Rleb; destruct (Rle_dec a b); split; intros; try discriminate; tauto. Qed.
Lemma Rleb_false a b : Rleb a b = false <-> b < a.
Proof. unfold Rleb; destruct (Rle_dec a b); split; intros; try discriminate; try reflexivity; lra. Qed.
Lemma Reqb_true a b : Reqb a b = true <-> a = b.
Proof. unfold Reqb; destruct (Req_EM_T a b); split; intros; try discriminate; tauto. Qed.

(* atan2 and fmod are not in the installed libraries; defined here. *)
Definition Ratan2 (y x : R) : R :=
  if Rlt_dec 0 x then atan (y / x)
  else if Rlt_dec x 0 then (if Rle_dec 0 y then atan (y / x) + PI else atan (y / x) - PI)
  else if Rlt_dec 0 y then PI / 2
  else if Rlt_dec y 0 then - PI / 2
  else 0.

Definition Rfmod (x y : R) : R := x - y * IZR (Ztrunc (x / y)).

Definition ROps : NumOps R := {|
  nzero := 0; n_one := 1;
  nadd := Rplus; nsub := Rminus; nmul := Rmult; ndiv := Rdiv;
  nneg := Ropp; nabs := Rabs; nsqrt := sqrt;
  nsin := sin; ncos := cos; ntan := fun x => sin x / cos x;
  natan := atan; nasin := asin; nacos := acos;
  nexp := exp; nln := ln;
  natan2 := Ratan2; npow := Rpower; nfmod := Rfmod;
  nfloor := fun x => IZR (Zfloor x); nceil := fun x => IZR (Zceil x);
  ntruncZ := Ztrunc; nofZ := IZR;
  nofDec := fun m e => IZR m * powerRZ 10 e;
  npi := PI;
  nmaxval := (2 - powerRZ 2 (-52)) * powerRZ 2 1023;
  nminpos := powerRZ 2 (-1022);
  nepsilon := powerRZ 2 (-52);
  nltb := Rltb; nleb := Rleb; neqb := Reqb
|}.

(* ---- atan2 characterisation:  r > 0, -PI < a <= PI  ->  atan2 (r sin a) (r cos a) = a ---- *)
Lemma atan_tan_quot a : - PI / 2 < a < PI / 2 -> atan (sin a / cos a) = a.
Proof. intros H. change (sin a / cos a) with (tan a). apply atan_tan. lra. Qed.

Lemma Ratan2_spec r a : 0 < r -> - PI < a <= PI -> Ratan2 (r * sin a) (r * cos a) = a.
Proof.
  intros Hr [Hlo Hhi]. unfold Ratan2.
  assert (Hq : forall c, c <> 0 -> (r * sin a) / (r * c) = sin a / c) by (intros; field; lra).
  destruct (Rlt_dec 0 (r * cos a)) as [Hc|Hc].
  - (* cos a > 0 : a in (-PI/2, PI/2) *)
    assert (Hcos : 0 < cos a) by nra.
    assert (Ha : - PI / 2 < a < PI / 2).
    { split.
      - destruct (Rlt_dec (- PI / 2) a) as [|N]; [assumption|exfalso].
        assert (cos a <= 0); [|lra].
        rewrite <- cos_neg. apply cos_le_0; lra.
      - destruct (Rlt_dec a (PI / 2)) as [|N]; [assumption|exfalso].
        assert (cos a <= 0); [|lra]. apply cos_le_0; lra. }
    rewrite Hq by lra. apply atan_tan_quot. exact Ha.
  - destruct (Rlt_dec (r * cos a) 0) as [Hc2|Hc2].
    + assert (Hcos : cos a < 0) by nra.
      destruct (Rle_dec 0 (r * sin a)) as [Hs|Hs].
      * (* sin a >= 0, cos a < 0 : a in (PI/2, PI] *)
        assert (Hsin : 0 <= sin a) by nra.
        assert (Ha : PI / 2 < a).
        { destruct (Rlt_dec (PI / 2) a) as [|N]; [assumption|exfalso].
          destruct (Rle_dec 0 a) as [P|P].
          - assert (0 <= cos a); [apply cos_ge_0; lra|lra].
          - assert (sin a < 0); [apply sin_lt_0_var; lra|lra]. }
        rewrite Hq by lra.
        replace (sin a / cos a) with (sin (a - PI) / cos (a - PI)).
        2:{ unfold Rminus. rewrite sin_plus, cos_plus, sin_neg, cos_neg, sin_PI, cos_PI. field. lra. }
        rewrite atan_tan_quot by lra. lra.
      * assert (Hsin : sin a < 0) by nra.
        assert (Ha : a < - PI / 2).
        { destruct (Rlt_dec a (- PI / 2)) as [|N]; [assumption|exfalso].
          destruct (Rle_dec a 0) as [P|P].
          - assert (0 <= cos a); [rewrite <- cos_neg; apply cos_ge_0; lra|lra].
          - assert (0 <= sin a); [apply sin_ge_0; lra|lra]. }
        rewrite Hq by lra.
        replace (sin a / cos a) with (sin (a + PI) / cos (a + PI)).
        2:{ rewrite sin_plus, cos_plus, sin_PI, cos_PI. field. lra. }
        rewrite atan_tan_quot by lra. lra.
    + assert (Hcos : cos a = 0) by nra.
      destruct (Rlt_dec 0 (r * sin a)) as [Hs|Hs].
      * assert (Hsin : 0 < sin a) by nra.
        (* cos a = 0, sin a > 0, a in (-PI,PI] -> a = PI/2 *)
        destruct (Rtotal_order a (PI / 2)) as [L|[E|G]]; [|exact (eq_sym E)|]; exfalso.
        -- destruct (Rle_dec a 0) as [P|P].
           ++ destruct (Req_dec a 0) as [->|]; [rewrite sin_0 in Hsin; lra|].
              assert (sin a < 0); [apply sin_lt_0_var; lra|lra].
           ++ assert (0 < cos a); [apply cos_gt_0; lra|lra].
        -- assert (cos a < 0); [apply cos_lt_0; lra|lra].
      * destruct (Rlt_dec (r * sin a) 0) as [Hs2|Hs2].
        -- assert (Hsin : sin a < 0) by nra.
           destruct (Rtotal_order a (- PI / 2)) as [L|[E|G]]; [|lra|]; exfalso.
           ++ assert (cos a < 0); [|lra].
              rewrite <- cos_neg. apply cos_lt_0; lra.
           ++ destruct (Rle_dec 0 a) as [P|P].
              ** assert (0 <= sin a); [apply sin_ge_0; lra|lra].
              ** assert (0 < cos a); [apply cos_gt_0; lra|lra].
        -- exfalso. assert (sin a = 0) by nra.
           pose proof (sin2_cos2 a) as E. unfold Rsqr in E. nra.
Qed.

Lemma Ratan2_range y x : - PI <= Ratan2 y x <= PI.
Proof.
  unfold Ratan2. pose proof (atan_bound (y / x)) as B. pose proof PI_RGT_0.
  destruct (Rlt_dec 0 x); [lra|].
  destruct (Rlt_dec x 0).
  - destruct (Rle_dec 0 y) as [Hy|Hy].
    + assert (y / x <= 0).
      { unfold Rdiv. assert (/ x < 0) by (apply Rinv_lt_0_compat; lra). nra. }
      assert (atan (y / x) <= 0).
      { rewrite <- atan_0. destruct (Req_dec (y/x) 0) as [->|]; [lra|]. left. apply atan_increasing. lra. }
      lra.
    + assert (0 < y / x).
      { unfold Rdiv. assert (/ x < 0) by (apply Rinv_lt_0_compat; lra). nra. }
      assert (0 < atan (y / x)) by (rewrite <- atan_0; apply atan_increasing; lra).
      lra.
  - destruct (Rlt_dec 0 y); [lra|]. destruct (Rlt_dec y 0); lra.
Qed.

(* atan2 is the polar angle of any vector of length r > 0 *)
Lemma div_abs_le_1 a r : 0 < r -> a * a <= r * r -> -1 <= a / r <= 1.
Proof.
  intros Hr H. assert (- r <= a <= r) by nra.
  split; apply Rmult_le_reg_r with r; try lra; unfold Rdiv; rewrite Rmult_assoc, Rinv_l by lra; lra.
Qed.

Lemma polar_angle_exists a b r : 0 < r -> a * a + b * b = r * r ->
  exists t, - PI < t <= PI /\ a = r * cos t /\ b = r * sin t.
Proof.
  intros Hr H. pose proof PI_RGT_0 as Hpi.
  assert (Hq : -1 <= a / r <= 1) by (apply div_abs_le_1; nra).
  pose proof (acos_bound (a / r)) as Hb.
  assert (Hc : cos (acos (a / r)) = a / r) by (apply cos_acos; lra).
  assert (Hs : sin (acos (a / r)) = sqrt (1 - (a / r)²)) by (apply sin_acos; lra).
  assert (Hsq : 1 - (a / r)² = (b / r)²).
  { unfold Rsqr. field_simplify; [|lra|lra]. f_equal. nra. }
  rewrite Hsq, sqrt_Rsqr_abs in Hs.
  assert (Hir : 0 < / r) by (apply Rinv_0_lt_compat; lra).
  destruct (Rle_dec 0 b) as [Hb0|Hb0].
  - exists (acos (a / r)). split; [lra|]. rewrite Hc, Hs, Rabs_pos_eq by (unfold Rdiv; nra). split; field; lra.
  - exists (- acos (a / r)). split.
    + split; [|lra]. destruct (Req_dec (acos (a / r)) PI) as [E|E]; [|lra]. exfalso.
      rewrite E, sin_PI in Hs. symmetry in Hs. apply Rabs_eq_R0 in Hs. unfold Rdiv in Hs. nra.
    + rewrite cos_neg, sin_neg, Hc, Hs, Rabs_left by (unfold Rdiv; nra). split; field; lra.
Qed.

Lemma atan2_polar a b r : 0 < r -> a * a + b * b = r * r ->
  - PI < Ratan2 b a <= PI /\ r * cos (Ratan2 b a) = a /\ r * sin (Ratan2 b a) = b.
Proof.
  intros Hr H. destruct (polar_angle_exists a b r Hr H) as [t [Ht [Ea Eb]]].
  rewrite Ea, Eb. rewrite Ratan2_spec by assumption. tauto.
Qed.
