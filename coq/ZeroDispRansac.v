(* ZeroDispRansac.v — C06, zero displacement, the RANSAC rigid-motion model (RansacModel.v): when every correspondence
   pairs a target point with an identical source point and the drawn candidate is the identity matrix (which is what the
   point-to-plane estimator returns on ANY sample of such correspondences, ZeroDispProofs.v), then
     - every residual is 0, so countInliers' consensus has the size of the whole correspondence list, its rmse is 0,
     - check_ accepts the sample, the consensus passes both gates (given enough correspondences) and is stored,
     - countInliers returns the number of correspondences, for a fresh object and for every later identity candidate,
   and, driven by Ransac::estimateModel: the first draw already raises the best count above the draw size, so
   estimateModel returns true and the refit is handed the full consensus. *)
From Coq Require Import Reals ZArith List Bool Lra Lia Permutation.
From Romea Require Import Num NumR LinAlgBModel RansacModel RansacProofs EstimateProofs RigidProofs.
From Romea.gen Require Import RepoConstants.
Import ListNotations.
Local Open Scope R_scope.

(* a stored point of a [dim]-dimensional set: dim Cartesian coordinates (+ the homogeneous one) *)
Definition point_ok (hom : bool) (dim : nat) (p : list R) : Prop := length p = (if hom then S dim else dim).

Lemma project_identity hom dim p : (dim = 2 \/ dim = 3)%nat -> point_ok hom dim p ->
  project ROps hom dim (midentity ROps (S dim)) p = p.
Proof.
  intros [->| ->] Hp; unfold point_ok in Hp; destruct hom;
    repeat (destruct p as [|? p]; [discriminate Hp|]); (destruct p; [|discriminate Hp]);
    cbn; repeat (f_equal; try ring).
Qed.

Lemma sq_dist_same (p : list R) : sq_dist ROps p p = 0.
Proof. apply sum_combine_same. intros a. cbn [fst snd nsq nsub nmul ROps]. ring. Qed.

Section Zero.
  Variables (hom : bool) (dim : nat) (src tgt : list (list R)) (sigma : R).
  Hypothesis Hdim : (dim = 2 \/ dim = 3)%nat.
  Hypothesis Hsigma : 0 < sigma.

  Notation Id := (midentity ROps (S dim)).

  (* the pair of a correspondence: identical, well-formed points *)
  Definition pair_zero (c : corr R) : Prop :=
    nth_point tgt (c_tgt c) = nth_point src (c_src c) /\ point_ok hom dim (nth_point src (c_src c)).

  Lemma residual_zero c : pair_zero c -> residual ROps hom dim Id src tgt c = 0.
  Proof. intros [E Hp]. unfold residual. rewrite project_identity by assumption. rewrite E. apply sq_dist_same. Qed.

  Lemma gate_pos : 0 < gate ROps sigma.
  Proof.
    unfold gate. cbn [nmul nofZ ROps]. assert (0 < IZR rigid_gate_factor) by (apply IZR_lt; reflexivity).
    apply Rmult_lt_0_compat; [apply Rmult_lt_0_compat|]; assumption.
  Qed.

  Definition zeroed (c : corr R) : corr R := mkCorr (c_src c) (c_tgt c) 0.

  Lemma inliers_all sorted : Forall pair_zero sorted ->
    inliers ROps hom dim Id src tgt sigma sorted = map zeroed sorted.
  Proof.
    intros H. unfold inliers, gate_filter, with_residuals. induction H as [|c r Hc Hr IH]; [reflexivity|].
    cbn [map filter c_sq]. rewrite residual_zero by exact Hc. cbn [nltb ROps].
    replace (Rltb 0 (gate ROps sigma)) with true by (symmetry; apply Rltb_true; exact gate_pos).
    unfold zeroed at 1. f_equal. exact IH.
  Qed.

  (* the consensus countInliers builds: as many entries as correspondences, all with residual 0, rmse 0 *)
  Lemma consensus_all sorted : Forall pair_zero sorted ->
    let cs := consensus ROps hom dim Id src tgt sigma sorted in
    length cs = length sorted /\ Forall (fun c => c_sq c = 0) cs /\ rmse_of ROps cs = 0.
  Proof.
    intros H cs. unfold cs, consensus. rewrite (inliers_all sorted H).
    assert (Hall : Forall (fun c => c_sq c = 0) (unique_inplace (eq_tgt (T:=R)) (map zeroed sorted))).
    { apply Forall_forall. intros c Hc. apply unique_inplace_incl in Hc. apply in_map_iff in Hc.
      destruct Hc as (c0 & <- & _). reflexivity. }
    split; [rewrite unique_inplace_length; apply map_length|]. split; [exact Hall|].
    unfold rmse_of. cbn [nsqrt ndiv ROps]. rewrite sum_list_zero by (rewrite Forall_map; exact Hall).
    unfold Rdiv. rewrite Rmult_0_l. apply sqrt_0.
  Qed.

  (* check_ accepts every sample of such correspondences *)
  Lemma check_sample_zero sample : Forall pair_zero sample -> check_sample ROps hom dim Id src tgt sigma sample = true.
  Proof.
    intros H. unfold check_sample.
    assert (E : forall acc, fold_left (fun a c => nadd ROps a (residual ROps hom dim Id src tgt c)) sample acc = acc).
    { cbn [nadd ROps]. induction H as [|c r Hc Hr IH]; intros acc; cbn [fold_left]; [reflexivity|].
      rewrite IH, residual_zero by assumption. lra. }
    rewrite E. cbn [nltb ndiv nmul nzero ROps]. apply Rltb_true. unfold Rdiv. rewrite Rmult_0_l. nra.
  Qed.

  (* countInliers with the identity candidate, on a fresh object and on one that already stored such a consensus:
     returns the number of correspondences; the stored consensus has that many entries and rmse 0 *)
  Lemma rigid_count_zero mininl sorted st :
    Forall pair_zero sorted -> (1 <= mininl <= Z.of_nat (length sorted))%Z ->
    st = rigid_init ROps \/ (length (rs_best st) = length sorted /\ rs_rmse st = 0) ->
    let r := rigid_count ROps hom dim mininl src tgt sigma sorted Id st in
    snd r = Z.of_nat (length sorted) /\ length (rs_best (fst r)) = length sorted /\ rs_rmse (fst r) = 0 /\
    (st = rigid_init ROps -> rs_best (fst r) = consensus ROps hom dim Id src tgt sigma sorted).
  Proof.
    intros H Hm Hst r. unfold r, rigid_count.
    destruct (consensus_all sorted H) as (Hl & _ & Hr). cbv zeta in Hl, Hr. rewrite Hr.
    set (cs := consensus ROps hom dim Id src tgt sigma sorted) in *.
    assert (Hp : passes mininl sigma (cs, 0)) by (split; cbn [fst snd]; [unfold lenZ; lia | exact Hsigma]).
    destruct (rigid_store_cases mininl sigma st cs 0) as [(_ & _ & ->)|(Hn & ->)]; cbn [fst snd rs_best rs_rmse].
    - rewrite Hl. auto.
    - destruct Hst as [->|[Hb Hz]].
      + exfalso. apply Hn. split; [exact Hp|]. left. unfold lenZ. cbn. lia.
      + rewrite Hb. repeat split; try assumption. intros ->. cbn in Hb. lia.
  Qed.
End Zero.

Section ZeroRansac.
  Variables (hom : bool) (dim : nat) (src tgt : list (list R)) (sigma : R).
  Hypothesis Hdim : (dim = 2 \/ dim = 3)%nat.
  Hypothesis Hsigma : 0 < sigma.
  Notation Id := (midentity ROps (S dim)).
  Notation pz := (pair_zero hom dim src tgt).

  Theorem zero_disp_ransac_succeeds corrs npoints p maxit sample script :
    Forall pz corrs -> Forall pz sample ->
    Forall (fun e : list (list R) * list (corr R) => fst e = Id /\ Forall pz (snd e)) script ->
    (rigid_min_inliers (Z.of_nat dim) <= npoints)%Z ->
    (rigid_min_inliers (Z.of_nat dim) <= Z.of_nat (length corrs) < 2 ^ 24)%Z -> (1 <= maxit)%Z ->
    exists r, estimate_rigid ROps hom dim src tgt sigma corrs npoints p maxit ((Id, sample) :: script) = Some r /\
      er_ok r = true /\ rs_rmse (ro_st (er_state r)) = 0 /\
      length (rs_best (ro_st (er_state r))) = length corrs /\
      ro_refit (er_state r) = Some (rs_best (ro_st (er_state r))).
  Proof.
    intros Hc Hs Hscr Hnp Hlen Hm. unfold estimate_rigid. cbv zeta.
    set (d := Z.of_nat dim) in *. set (sorted := sort_by (tgt_dist_lt ROps) corrs).
    pose proof (sort_by_perm (tgt_dist_lt ROps) corrs) as Hp. fold sorted in Hp.
    assert (Hsorted : Forall pz sorted) by (now rewrite <- Hp). pose proof (Permutation_length Hp) as Hl.
    assert (Hds : (rigid_draw_size d = 3 \/ rigid_draw_size d = 4)%Z /\ (rigid_min_inliers d = 2 * rigid_draw_size d)%Z).
    { unfold d. destruct Hdim as [->| ->]; vm_compute; auto. }
    destruct Hds as [Hds Hmi].
    (* invariant of the object after the first successful draw + count *)
    set (I := fun o : rigid_obj R =>
                ro_M o = Id /\ ro_refit o = None /\ length (rs_best (ro_st o)) = length sorted /\ rs_rmse (ro_st o) = 0 /\
                Forall (fun e : list (list R) * list (corr R) => fst e = Id /\ Forall pz (snd e)) (ro_script o)).
    assert (Hcnt : forall o, I o -> I (fst (obj_count ROps hom dim (rigid_min_inliers d) src tgt sigma sorted o)) /\
                                   snd (obj_count ROps hom dim (rigid_min_inliers d) src tgt sigma sorted o) = Z.of_nat (length sorted)).
    { intros o (HM & Hrf & Hb & Hr & Hsc). unfold obj_count. rewrite HM.
      pose proof (rigid_count_zero hom dim src tgt sigma Hdim Hsigma (rigid_min_inliers d) sorted (ro_st o) Hsorted
                    ltac:(lia) (or_intror (conj Hb Hr))) as X. cbv zeta in X.
      destruct (rigid_count ROps hom dim (rigid_min_inliers d) src tgt sigma sorted Id (ro_st o)) as [st' n].
      cbn [fst snd] in *. destruct X as (X1 & X2 & X3 & _). split; [|exact X1]. unfold I. cbn [ro_M ro_refit ro_st ro_script]. auto. }
    assert (Hdrw : forall o, I o -> I (fst (obj_draw ROps hom dim src tgt sigma o))).
    { intros o (HM & Hrf & Hb & Hr & Hsc). unfold obj_draw. destruct (ro_script o) as [|[M smp] rest] eqn:E; cbn [fst].
      - unfold I. rewrite E. auto.
      - inversion Hsc as [|? ? [HM' _] Hrest]; subst. cbn [fst] in HM'. unfold I. cbn [ro_M ro_refit ro_st ro_script]. auto. }
    pose (o0 := mkObj ((Id, sample) :: script) [] (rigid_init ROps) None : rigid_obj R).
    pose (o1 := mkObj script Id (rigid_init ROps) None : rigid_obj R).
    pose proof (rigid_count_zero hom dim src tgt sigma Hdim Hsigma (rigid_min_inliers d) sorted (rigid_init ROps) Hsorted
                  ltac:(lia) (or_introl eq_refl)) as X. cbv zeta in X.
    destruct (rigid_count ROps hom dim (rigid_min_inliers d) src tgt sigma sorted Id (rigid_init ROps)) as [st1 n1] eqn:Ec.
    cbn [fst snd] in X. destruct X as (X1 & X2 & X3 & _).
    assert (Hd0 : obj_draw ROps hom dim src tgt sigma o0 = (o1, true)).
    { unfold obj_draw, o0, o1. cbn [ro_script ro_st ro_refit]. now rewrite (check_sample_zero hom dim src tgt sigma Hdim Hsigma sample Hs). }
    assert (Hc0 : obj_count ROps hom dim (rigid_min_inliers d) src tgt sigma sorted o1 = (mkObj script Id st1 None, n1)).
    { unfold obj_count, o1. cbn [ro_M ro_st ro_script ro_refit]. now rewrite Ec. }
    assert (HI1 : I (mkObj script Id st1 None)).
    { unfold I. cbn [ro_M ro_refit ro_st ro_script]. auto. }
    destruct (estimate_first_draw_succeeds ROps (obj_draw ROps hom dim src tgt sigma)
                (obj_count ROps hom dim (rigid_min_inliers d) src tgt sigma sorted) (obj_refine (T:=R)) (rigid_draw_size d)
                I Hdrw (fun o Ho => proj1 (Hcnt o Ho))
                npoints (rigid_min_inliers d) p maxit o0 o1 (mkObj script Id st1 None) n1 Hnp Hm Hd0 Hc0)
      as (r & sl & E & Hok & Hst & (_ & Hrf & Hb & Hr & _)); [|exact HI1|].
    { subst n1. rewrite f32round_small by lia. lia. }
    exists r. split; [exact E|]. split; [exact Hok|]. rewrite Hst. unfold obj_refine. cbn [ro_st ro_refit].
    split; [exact Hr|]. split; [congruence | reflexivity].
  Qed.
End ZeroRansac.
