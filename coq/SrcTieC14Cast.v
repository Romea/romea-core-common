(* SrcTieC14Cast.v — source tie of RayCasting::cast() (the loop), cast(end) and cast(origin, end).
   gen/SrcRayCast.v contains src_cast_2 / src_cast_3: cast() with computeRayNumberOfCells and next inlined (next is taken
   from the explicit specialisation of the instantiation at hand), the `while (++n != rayNumberOfCells)` loop as a local fix
   on a fuel argument, the returned std::vector as (size, function of the index).  Proved here, for every numeric
   dictionary: with fuel >= number of cells the generated term returns
     - the size [ncells c],
     - an array whose first [ncells c] entries are exactly [cast_cells N c], and
     - rayTMax_ = rc_tmax (after_cast N c)
   — [cast_cells] and [after_cast] being the functions of RayCastModel.v that C14_cast_walk etc. are about.
   cast(end) / cast(origin, end) are, definitionally, setEndPoint / setOriginPoint followed by that. *)
From Coq Require Import ZArith List Bool Lia.
From Romea Require Import Num GridMapModel RayCastModel SrcEigen SrcTieC14.
From Romea.gen Require Import SrcRayCast.
Import ListNotations.

Section Tie.
Context {T : Type} (N : NumOps T).

Definition cast_result (c : caster (T:=T)) (out : option ((Z * (Z -> list Z)) * list T)) : Prop :=
  match out with
  | None => False
  | Some ((k, ray), tmax) =>
      k = ncells c /\ tmax = rc_tmax (after_cast N c) /\
      forall j, (j < length (cast_cells N c))%nat -> ray (Z.of_nat j) = nth j (cast_cells N c) []
  end.

Lemma ncells_ge_1 (c : caster (T:=T)) : (1 <= ncells c)%Z.
Proof.
  unfold ncells. assert (H : forall l a, (a <= fold_left (fun s '(e, o) => s + Z.abs (e - o)) l a)%Z).
  { induction l as [|[e o] l IH]; intros a; cbn [fold_left]; [lia|]. specialize (IH (a + Z.abs (e - o))%Z). lia. }
  specialize (H (combine (rc_eidx c) (rc_oidx c)) 0%Z). lia.
Qed.

Lemma iter_cast_length : forall n E S D st, length (iter_cast N n E S D st) = n.
Proof. induction n as [|n IH]; intros; cbn [iter_cast length]; [reflexivity|rewrite IH; reflexivity]. Qed.

(* ---------------------------------------------------------------- the loop of cast(), on the model's state
   `while (++n != K) { next(cur); ray[n] = cur; }` with fuel; the generated loops are this one with the state spread
   over their arguments. *)
Section Loop.
Variables (K : Z) (eidx step : list Z) (tdelta : list T).

Fixpoint cast_loop (fu : nat) (n : Z) (st : list Z * list T) (ray : Z -> list Z)
  : option (Z * (list Z * list T) * (Z -> list Z)) :=
  match fu with
  | O => None
  | S f => if negb (Z.eqb (n + 1) K)
           then let st' := next N eidx step tdelta st in cast_loop f (n + 1)%Z st' (arr_set ray (n + 1)%Z (fst st'))
           else Some ((n + 1)%Z, st, ray)
  end.

(* with enough fuel it runs K - 1 - n times: iter_state, writing the cells of iter_cast at n + 1, n + 2, ... *)
Lemma cast_loop_spec : forall m fu n st ray, (n + 1 + Z.of_nat m = K)%Z -> (m < fu)%nat ->
  exists ray', cast_loop fu n st ray = Some (K, iter_state N m eidx step tdelta st, ray') /\
    (forall j, (j < m)%nat -> ray' (n + 1 + Z.of_nat j)%Z = nth j (iter_cast N m eidx step tdelta st) []) /\
    (forall k, (k <= n)%Z -> ray' k = ray k).
Proof.
  induction m as [|m IH]; intros fu n st ray Hn Hfu; (destruct fu as [|f]; [lia|]); cbn [cast_loop iter_state iter_cast].
  - replace (Z.eqb (n + 1) K) with true by (symmetry; apply Z.eqb_eq; lia). cbn [negb].
    exists ray. replace (n + 1)%Z with K by lia. repeat split. intros j Hj. lia.
  - replace (Z.eqb (n + 1) K) with false by (symmetry; apply Z.eqb_neq; lia). cbn [negb]. cbv zeta.
    set (st' := next N eidx step tdelta st).
    destruct (IH f (n + 1)%Z st' (arr_set ray (n + 1)%Z (fst st'))) as (ray' & E & HC & HR); [lia|lia|].
    exists ray'. split; [exact E|]. split.
    + intros [|j] Hj; cbn [nth].
      * rewrite Z.add_0_r, HR by lia. apply arr_set_same.
      * replace (n + 1 + Z.of_nat (S j))%Z with (n + 1 + 1 + Z.of_nat j)%Z by lia. apply HC. lia.
    + intros k Hk. rewrite HR by lia. apply arr_set_other. lia.
Qed.
End Loop.

(* started as cast() starts it, the loop returns what cast_result asks for *)
Lemma cast_loop_result (c : caster (T:=T)) fuel : (Z.to_nat (ncells c) <= fuel)%nat ->
  exists st ray, cast_loop (ncells c) (rc_eidx c) (rc_step c) (rc_tdelta c) fuel 0%Z (rc_oidx c, rc_tmax c)
                   (arr_set arr_new 0%Z (rc_oidx c)) = Some (ncells c, st, ray) /\
    snd st = rc_tmax (after_cast N c) /\
    forall j, (j < length (cast_cells N c))%nat -> ray (Z.of_nat j) = nth j (cast_cells N c) [].
Proof.
  intros Hf. pose proof (ncells_ge_1 c) as H1.
  destruct (cast_loop_spec (ncells c) (rc_eidx c) (rc_step c) (rc_tdelta c) (Z.to_nat (ncells c - 1)) fuel 0%Z
              (rc_oidx c, rc_tmax c) (arr_set arr_new 0%Z (rc_oidx c))) as (ray & E & HC & HR); [lia|lia|].
  eexists. exists ray. split; [exact E|]. split; [reflexivity|].
  unfold cast_cells. cbn [length]. rewrite iter_cast_length. intros [|j] Hj; cbn [nth].
  - rewrite HR by lia. apply arr_set_same.
  - replace (Z.of_nat (S j)) with (0 + 1 + Z.of_nat j)%Z by lia. apply HC. lia.
Qed.

Definition pack2 (x : Z * Z * Z * T * T * (Z -> list Z)) : Z * (list Z * list T) * (Z -> list Z) :=
  let '(k, a0, a1, b0, b1, r) := x in (k, ([a0; a1], [b0; b1]), r).

Lemma tie_cast_2 (c : caster (T:=T)) e0 e1 o0 o1 s0 s1 d0 d1 t0 t1 fuel :
  rc_eidx c = [e0; e1] -> rc_oidx c = [o0; o1] -> rc_step c = [s0; s1] -> rc_tdelta c = [d0; d1] -> rc_tmax c = [t0; t1] ->
  (Z.to_nat (ncells c) <= fuel)%nat ->
  cast_result c (src_cast_2 N IdealInt fuel e0 e1 o0 o1 s0 s1 d0 d1 t0 t1).
Proof.
  intros He Ho Hs Hd Ht Hf.
  destruct (cast_loop_result c fuel Hf) as (st & ray & E & HT & HC). rewrite He, Ho, Hs, Hd, Ht in E.
  pose proof (tie_ncells_2 c e0 e1 o0 o1 He Ho) as HK. unfold src_ncells_2 in HK.
  unfold cast_result, src_cast_2. cbv zeta. rewrite HK. cbn [cu64 IdealInt].
  match goal with |- match match ?F fuel 0%Z o0 o1 t0 t1 ?R with _ => _ end with _ => _ end =>
    assert (HF : forall fu n c0 c1 u0 u1 r, option_map pack2 (F fu n c0 c1 u0 u1 r)
              = cast_loop (ncells c) [e0; e1] [s0; s1] [d0; d1] fu n ([c0; c1], [u0; u1]) r)
  end.
  { induction fu as [|f IH]; intros; [reflexivity|]. cbn [cast_loop]. cbv beta iota fix zeta.
    destruct (Z.eqb (n + 1) (ncells c)); cbn [negb option_map]; [reflexivity|].
    rewrite <- (tie_next_d2 N IdealInt c0 c1 e0 e1 s0 s1 d0 d1 u0 u1 eq_refl eq_refl). apply IH. }
  specialize (HF fuel 0%Z o0 o1 t0 t1 (arr_set arr_new 0%Z [o0; o1])). rewrite E in HF.
  match type of HF with option_map _ ?X = _ => destruct X as [[[[[[k a0] a1] b0] b1] r]|]; [|discriminate HF] end.
  injection HF as <- <- <-. cbn [snd] in HT. split; [reflexivity|]. split; assumption.
Qed.

Definition pack3 (x : Z * Z * Z * Z * T * T * T * (Z -> list Z)) : Z * (list Z * list T) * (Z -> list Z) :=
  let '(k, a0, a1, a2, b0, b1, b2, r) := x in (k, ([a0; a1; a2], [b0; b1; b2]), r).

Lemma tie_cast_3 (c : caster (T:=T)) e0 e1 e2 o0 o1 o2 s0 s1 s2 d0 d1 d2 t0 t1 t2 fuel :
  rc_eidx c = [e0; e1; e2] -> rc_oidx c = [o0; o1; o2] -> rc_step c = [s0; s1; s2] -> rc_tdelta c = [d0; d1; d2] ->
  rc_tmax c = [t0; t1; t2] -> (Z.to_nat (ncells c) <= fuel)%nat ->
  cast_result c (src_cast_3 N IdealInt fuel e0 e1 e2 o0 o1 o2 s0 s1 s2 d0 d1 d2 t0 t1 t2).
Proof.
  intros He Ho Hs Hd Ht Hf.
  destruct (cast_loop_result c fuel Hf) as (st & ray & E & HT & HC). rewrite He, Ho, Hs, Hd, Ht in E.
  pose proof (tie_ncells_3 c e0 e1 e2 o0 o1 o2 He Ho) as HK. unfold src_ncells_3 in HK.
  unfold cast_result, src_cast_3. cbv zeta. rewrite HK. cbn [cu64 IdealInt].
  match goal with |- match match ?F fuel 0%Z o0 o1 o2 t0 t1 t2 ?R with _ => _ end with _ => _ end =>
    assert (HF : forall fu n c0 c1 c2 u0 u1 u2 r, option_map pack3 (F fu n c0 c1 c2 u0 u1 u2 r)
              = cast_loop (ncells c) [e0; e1; e2] [s0; s1; s2] [d0; d1; d2] fu n ([c0; c1; c2], [u0; u1; u2]) r)
  end.
  { induction fu as [|f IH]; intros; [reflexivity|]. cbn [cast_loop]. cbv beta iota fix zeta.
    destruct (Z.eqb (n + 1) (ncells c)); cbn [negb option_map]; [reflexivity|].
    rewrite <- (tie_next_d3 N IdealInt c0 c1 c2 e0 e1 e2 s0 s1 s2 d0 d1 d2 u0 u1 u2 eq_refl eq_refl eq_refl). apply IH. }
  specialize (HF fuel 0%Z o0 o1 o2 t0 t1 t2 (arr_set arr_new 0%Z [o0; o1; o2])). rewrite E in HF.
  match type of HF with option_map _ ?X = _ => destruct X as [[[[[[[[k a0] a1] a2] b0] b1] b2] r]|]; [|discriminate HF] end.
  injection HF as <- <- <-. cbn [snd] in HT. split; [reflexivity|]. split; assumption.
Qed.

(* ---------------------------------------------------------------- cast(end) and cast(origin, end)
   cast(end) = setEndPoint(end); cast()  and  cast(origin, end) = setOriginPoint(origin); cast(end).  The two compositions
   are written once, on lists; the generated terms of the overloads ARE these compositions of the generated members
   (the deleg lemmas), and a composition of members tied to the model is tied to the model
   (castE_composed, castOE_composed). *)
Definition castE_result (c' : caster (T:=T))
  (out : option ((Z * (Z -> list Z)) * list T * list Z * list T * list Z * list T * list T)) : Prop :=
  match out with
  | None => False
  | Some (ret, dir, eidx, ep, step, td, tm) =>
      cast_result c' (Some (ret, tm)) /\ eidx = rc_eidx c' /\ step = rc_step c' /\ td = rc_tdelta c'
  end.

Definition castOE_result (c' : caster (T:=T))
  (out : option ((Z * (Z -> list Z)) * list T * list Z * list T * list Z * list T * list Z * list T * list T)) : Prop :=
  match out with
  | None => False
  | Some (ret, dir, eidx, ep, oidx, op, step, td, tm) =>
      cast_result c' (Some (ret, tm)) /\ oidx = rc_oidx c' /\ op = rc_origin c' /\ eidx = rc_eidx c' /\
      step = rc_step c' /\ td = rc_tdelta c'
  end.

Definition castE_via (se : list T * list Z * list T * list Z * list T * list T)
  (cast : list Z -> list Z -> list T -> list T -> option ((Z * (Z -> list Z)) * list T)) :=
  let '(dir, eidx, ep, step, td, tm) := se in
  match cast eidx step td tm with
  | None => None
  | Some (ret, tm') => Some (ret, dir, eidx, ep, step, td, tm')
  end.

Definition castOE_via (so : list Z * list T)
  (castE : list Z -> list T -> option ((Z * (Z -> list Z)) * list T * list Z * list T * list Z * list T * list T)) :=
  let '(oidx, op) := so in
  match castE oidx op with
  | None => None
  | Some (ret, dir, eidx, ep, step, td, tm) => Some (ret, dir, eidx, ep, oidx, op, step, td, tm)
  end.

Lemma castE_composed (c' : caster (T:=T)) e se cast :
  setEnd_outputs c' e se -> cast_result c' (cast (rc_eidx c') (rc_step c') (rc_tdelta c') (rc_tmax c')) ->
  castE_result c' (castE_via se cast).
Proof.
  destruct se as [[[[[dir eidx] ep] step] td] tm]. intros (-> & _ & -> & -> & ->) HC. unfold castE_via.
  destruct (cast (rc_eidx c') (rc_step c') (rc_tdelta c') (rc_tmax c')) as [[ret tm]|]; [|exact HC].
  repeat split; try reflexivity; apply HC.
Qed.

Lemma castOE_composed (c' : caster (T:=T)) so castE :
  so = (rc_oidx c', rc_origin c') -> castE_result c' (castE (rc_oidx c') (rc_origin c')) ->
  castOE_result c' (castOE_via so castE).
Proof.
  intros -> HE. unfold castOE_via. destruct (castE (rc_oidx c') (rc_origin c')) as [[[[[[[ret dir] eidx] ep] step] td] tm]|];
    [|exact HE].
  destruct HE as (H1 & H2 & H3 & H4). repeat split; try reflexivity; try assumption; apply H1.
Qed.

(* the generated members, taking their vector arguments as lists *)
Definition cast_l2 (I : IntConv) fuel (eidx oidx step : list Z) (td tm : list T) :=
  src_cast_2 N I fuel (nth 0 eidx 0%Z) (nth 1 eidx 0%Z) (nth 0 oidx 0%Z) (nth 1 oidx 0%Z) (nth 0 step 0%Z) (nth 1 step 0%Z)
    (nth 0 td (nzero N)) (nth 1 td (nzero N)) (nth 0 tm (nzero N)) (nth 1 tm (nzero N)).

Definition cast_l3 (I : IntConv) fuel (eidx oidx step : list Z) (td tm : list T) :=
  src_cast_3 N I fuel (nth 0 eidx 0%Z) (nth 1 eidx 0%Z) (nth 2 eidx 0%Z) (nth 0 oidx 0%Z) (nth 1 oidx 0%Z) (nth 2 oidx 0%Z)
    (nth 0 step 0%Z) (nth 1 step 0%Z) (nth 2 step 0%Z) (nth 0 td (nzero N)) (nth 1 td (nzero N)) (nth 2 td (nzero N))
    (nth 0 tm (nzero N)) (nth 1 tm (nzero N)) (nth 2 tm (nzero N)).

Section Deleg.
Context (I : IntConv).

Lemma castE_deleg_2 fuel e0 e1 tab0 tab1 r g0 g1 oi0 oi1 o0 o1 :
  src_castE_2 N I fuel e0 e1 tab0 tab1 r g0 g1 oi0 oi1 o0 o1
  = castE_via (src_setEnd_2 N e0 e1 tab0 tab1 r g0 g1 oi0 oi1 o0 o1) (fun ei => cast_l2 I fuel ei [oi0; oi1]).
Proof.
  unfold castE_via, cast_l2, src_castE_2, src_setEnd_2, src_cast_2. cbv zeta. cbn [nth].
  match goal with |- match ?X with _ => _ end = _ => destruct X as [[[[[[? ?] ?] ?] ?] ?]|]; reflexivity end.
Qed.

Lemma castE_deleg_3 fuel e0 e1 e2 tab0 tab1 tab2 r g0 g1 g2 oi0 oi1 oi2 o0 o1 o2 :
  src_castE_3 N I fuel e0 e1 e2 tab0 tab1 tab2 r g0 g1 g2 oi0 oi1 oi2 o0 o1 o2
  = castE_via (src_setEnd_3 N e0 e1 e2 tab0 tab1 tab2 r g0 g1 g2 oi0 oi1 oi2 o0 o1 o2)
      (fun ei => cast_l3 I fuel ei [oi0; oi1; oi2]).
Proof.
  unfold castE_via, cast_l3, src_castE_3, src_setEnd_3, src_cast_3. cbv zeta. cbn [nth].
  match goal with |- match ?X with _ => _ end = _ => destruct X as [[[[[[[[? ?] ?] ?] ?] ?] ?] ?]|]; reflexivity end.
Qed.

Lemma castOE_deleg_2 fuel p0 p1 e0 e1 tab0 tab1 r g0 g1 :
  src_castOE_2 N I fuel p0 p1 e0 e1 tab0 tab1 r g0 g1
  = castOE_via (src_setOrigin_2 N p0 p1 r g0 g1)
      (fun oi o => src_castE_2 N I fuel e0 e1 tab0 tab1 r g0 g1 (nth 0 oi 0%Z) (nth 1 oi 0%Z) (nth 0 o (nzero N)) (nth 1 o (nzero N))).
Proof.
  unfold castOE_via, src_castOE_2, src_setOrigin_2, src_castE_2. cbv zeta. cbn [nth].
  match goal with |- match ?X with _ => _ end = _ => destruct X as [[[[[[? ?] ?] ?] ?] ?]|]; reflexivity end.
Qed.

Lemma castOE_deleg_3 fuel p0 p1 p2 e0 e1 e2 tab0 tab1 tab2 r g0 g1 g2 :
  src_castOE_3 N I fuel p0 p1 p2 e0 e1 e2 tab0 tab1 tab2 r g0 g1 g2
  = castOE_via (src_setOrigin_3 N p0 p1 p2 r g0 g1 g2)
      (fun oi o => src_castE_3 N I fuel e0 e1 e2 tab0 tab1 tab2 r g0 g1 g2 (nth 0 oi 0%Z) (nth 1 oi 0%Z) (nth 2 oi 0%Z)
                     (nth 0 o (nzero N)) (nth 1 o (nzero N)) (nth 2 o (nzero N))).
Proof.
  unfold castOE_via, src_castOE_3, src_setOrigin_3, src_castE_3. cbv zeta. cbn [nth].
  match goal with |- match ?X with _ => _ end = _ => destruct X as [[[[[[[[? ?] ?] ?] ?] ?] ?] ?]|]; reflexivity end.
Qed.
End Deleg.

(* ---------------------------------------------------------------- cast(end): the model's operation OpCastEnd *)
Lemma tie_castE_2 (L : LitOK N) (c : caster (T:=T)) a0 a1 r o0 o1 oi0 oi1 e0 e1 (tab0 tab1 : Z -> T) fuel :
  rc_axes c = [a0; a1] -> rc_origin c = [o0; o1] -> rc_oidx c = [oi0; oi1] -> ax_r a0 = r -> ax_r a1 = r ->
  tab0 oi0 = gm_centre N r (ax_org a0) oi0 -> tab1 oi1 = gm_centre N r (ax_org a1) oi1 ->
  (Z.to_nat (ncells (set_end N c [e0; e1])) <= fuel)%nat ->
  castE_result (set_end N c [e0; e1]) (src_castE_2 N IdealInt fuel e0 e1 tab0 tab1 r (ax_org a0) (ax_org a1) oi0 oi1 o0 o1).
Proof.
  intros Ha Ho Hi R0 R1 T0 T1 Hf. rewrite castE_deleg_2.
  apply castE_composed with (e := [e0; e1]); [apply tie_setEnd_2; assumption|].
  apply tie_cast_2; try exact Hf; unfold set_end; rewrite Ha, Ho, Hi; reflexivity.
Qed.

Lemma tie_castE_3 (L : LitOK N) (c : caster (T:=T)) a0 a1 a2 r o0 o1 o2 oi0 oi1 oi2 e0 e1 e2 (tab0 tab1 tab2 : Z -> T) fuel :
  rc_axes c = [a0; a1; a2] -> rc_origin c = [o0; o1; o2] -> rc_oidx c = [oi0; oi1; oi2] ->
  ax_r a0 = r -> ax_r a1 = r -> ax_r a2 = r ->
  tab0 oi0 = gm_centre N r (ax_org a0) oi0 -> tab1 oi1 = gm_centre N r (ax_org a1) oi1 ->
  tab2 oi2 = gm_centre N r (ax_org a2) oi2 ->
  (Z.to_nat (ncells (set_end N c [e0; e1; e2])) <= fuel)%nat ->
  castE_result (set_end N c [e0; e1; e2])
    (src_castE_3 N IdealInt fuel e0 e1 e2 tab0 tab1 tab2 r (ax_org a0) (ax_org a1) (ax_org a2) oi0 oi1 oi2 o0 o1 o2).
Proof.
  intros Ha Ho Hi R0 R1 R2 T0 T1 T2 Hf. rewrite castE_deleg_3.
  apply castE_composed with (e := [e0; e1; e2]); [apply tie_setEnd_3; assumption|].
  apply tie_cast_3; try exact Hf; unfold set_end; rewrite Ha, Ho, Hi; reflexivity.
Qed.

(* ---------------------------------------------------------------- cast(origin, end): the model's operation OpCastOE *)
Lemma tie_castOE_2 (L : LitOK N) (c : caster (T:=T)) a0 a1 r p0 p1 e0 e1 (tab0 tab1 : Z -> T) fuel :
  rc_axes c = [a0; a1] -> ax_r a0 = r -> ax_r a1 = r ->
  (forall k, tab0 k = gm_centre N r (ax_org a0) k) -> (forall k, tab1 k = gm_centre N r (ax_org a1) k) ->
  (Z.to_nat (ncells (set_end N (set_origin N c [p0; p1]) [e0; e1])) <= fuel)%nat ->
  castOE_result (set_end N (set_origin N c [p0; p1]) [e0; e1])
    (src_castOE_2 N IdealInt fuel p0 p1 e0 e1 tab0 tab1 r (ax_org a0) (ax_org a1)).
Proof.
  intros Ha R0 R1 T0 T1 Hf. rewrite castOE_deleg_2.
  apply castOE_composed; [exact (tie_setOrigin_2 N c a0 a1 r p0 p1 Ha R0 R1)|].
  apply tie_castE_2; auto; unfold set_end, set_origin; cbn [rc_axes rc_origin rc_oidx]; rewrite ?Ha; reflexivity.
Qed.

Lemma tie_castOE_3 (L : LitOK N) (c : caster (T:=T)) a0 a1 a2 r p0 p1 p2 e0 e1 e2 (tab0 tab1 tab2 : Z -> T) fuel :
  rc_axes c = [a0; a1; a2] -> ax_r a0 = r -> ax_r a1 = r -> ax_r a2 = r ->
  (forall k, tab0 k = gm_centre N r (ax_org a0) k) -> (forall k, tab1 k = gm_centre N r (ax_org a1) k) ->
  (forall k, tab2 k = gm_centre N r (ax_org a2) k) ->
  (Z.to_nat (ncells (set_end N (set_origin N c [p0; p1; p2]) [e0; e1; e2])) <= fuel)%nat ->
  castOE_result (set_end N (set_origin N c [p0; p1; p2]) [e0; e1; e2])
    (src_castOE_3 N IdealInt fuel p0 p1 p2 e0 e1 e2 tab0 tab1 tab2 r (ax_org a0) (ax_org a1) (ax_org a2)).
Proof.
  intros Ha R0 R1 R2 T0 T1 T2 Hf. rewrite castOE_deleg_3.
  apply castOE_composed; [exact (tie_setOrigin_3 N c a0 a1 a2 r p0 p1 p2 Ha R0 R1 R2)|].
  apply tie_castE_3; auto; unfold set_end, set_origin; cbn [rc_axes rc_origin rc_oidx]; rewrite ?Ha; reflexivity.
Qed.

End Tie.
