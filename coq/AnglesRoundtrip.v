(* AnglesRoundtrip.v — normalisers, atan2 as a polar angle, and the round-trip lemmas of C10. *)
From Coq Require Import Reals ZArith Lra Lia.
From Flocq Require Import Core.Raux.
From Romea Require Import Num NumR AnglesModel AnglesProofs.
Local Open Scope R_scope.

Definition idR (x : R) : R := x.
(* the real-number instances (Scalar = double = R, conversions are the identity) *)
Definition b02 (x : R) : R := between0And2Pi ROps idR idR x.
Definition bpi (x : R) : R := betweenMinusPiAndPi ROps idR idR x.
Definition cong2pi (a b : R) : Prop := exists k : Z, a = b + 2 * PI * IZR k.

Lemma cong2pi_refl a : cong2pi a a.
Proof. exists 0%Z. ring. Qed.
Lemma cong2pi_trans a b c : cong2pi a b -> cong2pi b c -> cong2pi a c.
Proof. intros [k Hk] [l Hl]. exists (k + l)%Z. rewrite plus_IZR. lra. Qed.
Lemma cong2pi_sym a b : cong2pi a b -> cong2pi b a.
Proof. intros [k Hk]. exists (- k)%Z. rewrite opp_IZR. lra. Qed.

Lemma Rfmod_spec x y : 0 < y ->
  (0 <= x -> 0 <= Rfmod x y < y) /\ (x <= 0 -> - y < Rfmod x y <= 0).
Proof.
  intros Hy. unfold Rfmod. set (q := x / y).
  assert (Hx : x = y * q) by (unfold q; field; lra).
  split; intros H.
  - assert (Hq : 0 <= q) by (unfold q; apply Rmult_le_pos; [lra|left; apply Rinv_0_lt_compat; lra]).
    rewrite (Ztrunc_floor q Hq). pose proof (Zfloor_lb q). pose proof (Zfloor_ub q).
    clearbody q. subst x. split; nra.
  - assert (Hq : q <= 0).
    { unfold q. assert (0 < / y) by (apply Rinv_0_lt_compat; lra). unfold Rdiv. nra. }
    rewrite (Ztrunc_ceil q Hq). pose proof (Zceil_ub q). pose proof (Zceil_lb q).
    clearbody q. subst x. split; nra.
Qed.

Lemma Rfmod_abs x y : 0 < y -> - y < Rfmod x y < y.
Proof.
  intros Hy. destruct (Rfmod_spec x y Hy) as [A B].
  destruct (Rle_dec 0 x) as [P|P]; [specialize (A P); lra|]. assert (Q : x <= 0) by lra. specialize (B Q). lra.
Qed.

Lemma b02_spec x : cong2pi (b02 x) x /\ 0 <= b02 x < 2 * PI.
Proof.
  pose proof PI_RGT_0 as Hpi. pose proof (Rfmod_abs x (2 * PI) ltac:(lra)) as Hr.
  unfold b02, between0And2Pi, m_2pi, idR. rcbn. replace (1 + 1) with 2 by lra.
  destruct (Rltb (Rfmod x (2 * PI)) 0) eqn:E; [apply Rltb_true in E|apply Rltb_false in E]; (split; [|lra]).
  - exists (1 - Ztrunc (x / (2 * PI)))%Z. unfold Rfmod. rewrite minus_IZR. ring.
  - exists (- Ztrunc (x / (2 * PI)))%Z. unfold Rfmod. rewrite opp_IZR. ring.
Qed.

Lemma bpi_spec x : cong2pi (bpi x) x /\ - PI <= bpi x <= PI.
Proof.
  pose proof PI_RGT_0 as Hpi. pose proof (Rfmod_abs x (2 * PI) ltac:(lra)) as Hr.
  unfold bpi, betweenMinusPiAndPi, m_2pi, idR. rcbn. replace (1 + 1) with 2 by lra.
  destruct (Rltb (Rfmod x (2 * PI)) (- PI)) eqn:E; [apply Rltb_true in E|apply Rltb_false in E].
  - split; [|lra]. exists (1 - Ztrunc (x / (2 * PI)))%Z. unfold Rfmod. rewrite minus_IZR. ring.
  - destruct (Rltb PI (Rfmod x (2 * PI))) eqn:E2; [apply Rltb_true in E2|apply Rltb_false in E2]; (split; [|lra]).
    + exists (- 1 - Ztrunc (x / (2 * PI)))%Z. unfold Rfmod. rewrite minus_IZR. ring.
    + exists (- Ztrunc (x / (2 * PI)))%Z. unfold Rfmod. rewrite opp_IZR. ring.
Qed.

Lemma b02_id x : 0 <= x < 2 * PI -> b02 x = x.
Proof.
  intros H. destruct (b02_spec x) as [[k Hk] Hr]. pose proof PI_RGT_0.
  assert (Hk1 : -1 < IZR k < 1) by (split; nra).
  assert (-1 < k < 1)%Z by (split; apply lt_IZR; apply Hk1).
  replace k with 0%Z in Hk by lia. lra.
Qed.

Lemma cong2pi_sincos a b : cong2pi a b -> sin a = sin b /\ cos a = cos b.
Proof.
  assert (P : forall x (n : nat), sin (x + 2 * PI * INR n) = sin x /\ cos (x + 2 * PI * INR n) = cos x).
  { intros x n. replace (x + 2 * PI * INR n) with (x + 2 * INR n * PI) by ring.
    split; [apply sin_period|apply cos_period]. }
  intros [k ->]. destruct k as [|p|p].
  - rewrite Rmult_0_r, Rplus_0_r. split; reflexivity.
  - rewrite <- (positive_nat_Z p), <- INR_IZR_INZ. apply P.
  - destruct (P (b + 2 * PI * IZR (Z.neg p)) (Pos.to_nat p)) as [S C]. rewrite <- S, <- C.
    replace (b + 2 * PI * IZR (Z.neg p) + 2 * PI * INR (Pos.to_nat p)) with b; [split; reflexivity|].
    rewrite INR_IZR_INZ, positive_nat_Z. change (Z.neg p) with (- Z.pos p)%Z. rewrite opp_IZR. ring.
Qed.

Lemma principal_rep x : exists t, - PI < t <= PI /\ cong2pi t x.
Proof.
  pose proof PI_RGT_0 as Hpi.
  destruct (bpi_spec x) as [C [Hlo Hhi]].
  destruct (Req_dec (bpi x) (- PI)) as [E|E].
  - exists PI. split; [lra|]. eapply cong2pi_trans; [|exact C]. exists 1%Z. rewrite E. ring.
  - exists (bpi x). split; [lra|exact C].
Qed.

Definition r2e (m : mat3 R) : option (vec3 R) := rotation3DToEulerAngles ROps ROps idR idR m.

Lemma r2e_of_rzyx_principal x y z :
  - PI < x <= PI -> - PI / 2 < y < PI / 2 -> - PI < z <= PI ->
  r2e (rot_zyx x y z) = Some (mkV3 (b02 x) (b02 y) (b02 z)).
Proof.
  intros Hx Hy Hz. pose proof PI_RGT_0 as Hpi.
  assert (Hc : 0 < cos y) by (apply cos_gt_0; lra).
  rewrite rot_zyx_entries. unfold r2e, rotation3DToEulerAngles. rcbn.
  assert (Hs : Rabs (- sin y) <= 1).
  { apply Rabs_le. pose proof (SIN_bound y). lra. }
  rewrite (proj2 (Rleb_true _ _) Hs).
  fold b02.
  rewrite (Ratan2_spec (cos y) x Hc Hx).
  replace (sin z * cos y) with (cos y * sin z) by ring.
  replace (cos z * cos y) with (cos y * cos z) by ring.
  rewrite (Ratan2_spec (cos y) z Hc Hz).
  rewrite <- sin_neg, asin_sin by lra. rewrite Ropp_involutive. reflexivity.
Qed.

Lemma rot_zyx_cong x y z x' y' z' :
  cong2pi x' x -> cong2pi y' y -> cong2pi z' z -> rot_zyx x' y' z' = rot_zyx x y z.
Proof.
  intros Cx Cy Cz. destruct (cong2pi_sincos _ _ Cx) as [Sx Kx]. destruct (cong2pi_sincos _ _ Cy) as [Sy Ky].
  destruct (cong2pi_sincos _ _ Cz) as [Sz Kz]. rewrite !rot_zyx_entries, Sx, Kx, Sy, Ky, Sz, Kz. reflexivity.
Qed.

(* angles -> rotation -> angles: the same angles modulo 2*pi, normalised to [0, 2*pi) *)
Lemma angles_roundtrip_rzyx x y z : - PI / 2 < y < PI / 2 ->
  exists a b c, r2e (rot_zyx x y z) = Some (mkV3 a b c) /\
    cong2pi a x /\ cong2pi b y /\ cong2pi c z /\
    0 <= a < 2 * PI /\ 0 <= b < 2 * PI /\ 0 <= c < 2 * PI.
Proof.
  intros Hy.
  destruct (principal_rep x) as [x' [Hx' Cx]]. destruct (principal_rep z) as [z' [Hz' Cz]].
  rewrite <- (rot_zyx_cong x y z x' y z' Cx (cong2pi_refl y) Cz).
  rewrite (r2e_of_rzyx_principal x' y z' Hx' Hy Hz').
  exists (b02 x'), (b02 y), (b02 z'). split; [reflexivity|].
  destruct (b02_spec x') as [C1 R1]. destruct (b02_spec y) as [C2 R2]. destruct (b02_spec z') as [C3 R3].
  repeat split; try lra; try assumption; eapply cong2pi_trans; eassumption.
Qed.

(* proper rotations: transpose = adjugate, so the rows are unit too *)
Definition adj3 (m : mat3 R) : mat3 R := mkM3
  (m11 m * m22 m - m12 m * m21 m) (m02 m * m21 m - m01 m * m22 m) (m01 m * m12 m - m02 m * m11 m)
  (m12 m * m20 m - m10 m * m22 m) (m00 m * m22 m - m02 m * m20 m) (m02 m * m10 m - m00 m * m12 m)
  (m10 m * m21 m - m11 m * m20 m) (m01 m * m20 m - m00 m * m21 m) (m00 m * m11 m - m01 m * m10 m).

Lemma mmul3_assoc (a b c : mat3 R) : mmul3 ROps (mmul3 ROps a b) c = mmul3 ROps a (mmul3 ROps b c).
Proof. unfold mmul3. rcbn. f_equal; ring. Qed.
Lemma mmul3_id_l (a : mat3 R) : mmul3 ROps (mid3 ROps) a = a.
Proof. destruct a. unfold mmul3, mid3. rcbn. f_equal; ring. Qed.
Lemma mmul3_id_r (a : mat3 R) : mmul3 ROps a (mid3 ROps) = a.
Proof. destruct a. unfold mmul3, mid3. rcbn. f_equal; ring. Qed.
Lemma mmul3_adj (m : mat3 R) : det3 ROps m = 1 -> mmul3 ROps m (adj3 m) = mid3 ROps.
Proof.
  intros H. unfold det3 in H. rcbn in H. unfold mmul3, adj3, mid3. rcbn.
  f_equal; try ring; rewrite <- H; ring.
Qed.

Lemma proper_transpose_is_adj m : proper_rotation m -> mtrans3 m = adj3 m.
Proof.
  intros [Ho Hd].
  rewrite <- (mmul3_id_r (mtrans3 m)), <- (mmul3_adj m Hd), <- mmul3_assoc, Ho, mmul3_id_l. reflexivity.
Qed.

Lemma proper_right_inverse m : proper_rotation m -> mmul3 ROps m (mtrans3 m) = mid3 ROps.
Proof. intros H. rewrite (proper_transpose_is_adj m H). apply mmul3_adj. apply H. Qed.

(* off gimbal lock a proper rotation is determined by its first column and last row: transpose = adjugate gives
   two linear equations for each of the pairs (m01, m12) and (m02, m11) *)
Lemma proper_rest m : proper_rotation m ->
  (1 - m20 m * m20 m) * m01 m = - m00 m * m21 m * m20 m - m10 m * m22 m /\
  (1 - m20 m * m20 m) * m12 m = - m10 m * m22 m * m20 m - m00 m * m21 m /\
  (1 - m20 m * m20 m) * m02 m = m10 m * m21 m - m00 m * m22 m * m20 m /\
  (1 - m20 m * m20 m) * m11 m = m00 m * m22 m - m10 m * m21 m * m20 m.
Proof.
  intros Hp. pose proof (proper_transpose_is_adj m Hp) as Hadj.
  pose proof (f_equal m10 Hadj) as Ab. pose proof (f_equal m21 Hadj) as Af.
  pose proof (f_equal m20 Hadj) as Ac. pose proof (f_equal m11 Hadj) as Ae.
  destruct m as [a b c d e f g h i]. unfold mtrans3, adj3 in *. cbn [m00 m01 m02 m10 m11 m12 m20 m21 m22] in *.
  repeat split; [rewrite Af in Ab|rewrite Ab in Af|rewrite Ae in Ac|rewrite Ac in Ae]; lra.
Qed.

Lemma proper_determined m m' : proper_rotation m -> proper_rotation m' -> Rabs (m20 m) < 1 ->
  m00 m = m00 m' -> m10 m = m10 m' -> m20 m = m20 m' -> m21 m = m21 m' -> m22 m = m22 m' -> m = m'.
Proof.
  intros Hp Hp' Hg E00 E10 E20 E21 E22.
  destruct (proper_rest m Hp) as (S1 & S2 & S3 & S4). destruct (proper_rest m' Hp') as (S1' & S2' & S3' & S4').
  rewrite <- E00, <- E10, <- E20, <- E21, <- E22 in S1', S2', S3', S4'.
  assert (Hn : 1 - m20 m * m20 m <> 0) by (apply Rabs_def2 in Hg; nra).
  apply mat3_ext; try assumption; apply Rmult_eq_reg_l with (1 - m20 m * m20 m); try assumption; congruence.
Qed.

(* rotation -> angles -> rotation *)
Lemma rotation_roundtrip_lemma m : proper_rotation m -> Rabs (m20 m) < 1 ->
  exists e, r2e m = Some e /\ rot_zyx (v0 e) (v1 e) (v2 e) = m.
Proof.
  intros Hp H20. pose proof PI_RGT_0 as Hpi.
  pose proof (f_equal m00 (proj1 Hp)) as Ucol. pose proof (f_equal m22 (proper_right_inverse m Hp)) as Urow.
  unfold mmul3, mtrans3, mid3 in Ucol, Urow. rcbn in Ucol. rcbn in Urow.
  pose proof (Rabs_def2 _ _ H20) as G.
  unfold r2e, rotation3DToEulerAngles. rcbn.
  rewrite (proj2 (Rleb_true _ _)) by (apply Rabs_le; lra).
  eexists. split; [reflexivity|]. cbn [v0 v1 v2].
  change (between0And2Pi ROps idR idR) with b02.
  set (p := - asin (m20 m)).
  assert (Hsp : sin p = - m20 m) by (unfold p; rewrite sin_neg, sin_asin by lra; reflexivity).
  assert (Hpr : - PI / 2 < p < PI / 2).
  { unfold p. pose proof (asin_bound_lt (m20 m)) as B. lra. }
  assert (Hcp : 0 < cos p) by (apply cos_gt_0; lra).
  pose proof (sc1 p) as Hsc. clearbody p.
  (* unit column 0 and unit row 2 give the yaw and roll as polar angles of radius cos p *)
  assert (Ecol : m00 m * m00 m + m10 m * m10 m = cos p * cos p) by nra.
  assert (Erow : m22 m * m22 m + m21 m * m21 m = cos p * cos p) by nra.
  destruct (atan2_polar _ _ (cos p) Hcp Ecol) as [_ [Hyc Hys]].
  destruct (atan2_polar _ _ (cos p) Hcp Erow) as [_ [Hrc Hrs]].
  rewrite (rot_zyx_cong _ _ _ _ _ _ (proj1 (b02_spec (Ratan2 (m21 m) (m22 m)))) (proj1 (b02_spec p))
             (proj1 (b02_spec (Ratan2 (m10 m) (m00 m))))).
  symmetry. apply proper_determined; [exact Hp|apply rzyx_proper|exact H20|..];
    rewrite rot_zyx_entries; cbn [m00 m10 m20 m21 m22]; lra.
Qed.
