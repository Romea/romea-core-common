(* BoxProofs.v — BoxModel.v over R (C20): boxes and intervals as coordinatewise conditions, the running min / max / mean of
   a point set (one Selection section serves min and max), the preconditioner, and the extent of an oriented box.  All at
   ROps except aabb_inside_nth, which holds in any dictionary over R and is what the rounded formats reuse. *)
From Coq Require Import Reals ZArith List Bool Lra Lia.
From Flocq Require Import Core.Raux.
From Romea Require Import Num NumR BoxModel.
Import ListNotations.
Local Open Scope R_scope.

Notation "v .[ i ]" := (nth i v 0) (at level 2, i at level 200, left associativity, format "v .[ i ]").

Lemma map2_length (f : R -> R -> R) a b : length a = length b -> length (map2 f a b) = length a.
Proof.
  revert b; induction a as [|x a IH]; intros [|y b] H; simpl in *; try discriminate; auto.
Qed.

Lemma map2_nth (f : R -> R -> R) a b i : length a = length b -> (i < length a)%nat ->
  (map2 f a b).[i] = f a.[i] b.[i].
Proof.
  revert b i; induction a as [|x a IH]; intros [|y b] i H Hi; simpl in *; try discriminate; try lia.
  destruct i; auto. apply IH; lia.
Qed.

Lemma all2_iff (f : R -> R -> bool) a b : length a = length b ->
  (all2 f a b = true <-> forall i, (i < length a)%nat -> f a.[i] b.[i] = true).
Proof.
  revert b; induction a as [|x a IH]; intros [|y b] H; simpl in *; try discriminate.
  - split; auto. intros _ i Hi; lia.
  - rewrite andb_true_iff, IH by lia. split.
    + intros [H0 HS] [|i] Hi; auto. apply HS; lia.
    + intros HA; split; [apply (HA 0%nat); lia|]. intros i Hi. apply (HA (S i)); lia.
Qed.

Lemma map_nth_in {A} (f : A -> R) l i d : (i < length l)%nat -> (map f l).[i] = f (nth i l d).
Proof. revert i; induction l; intros [|i] H; simpl in *; try lia; auto. apply IHl; lia. Qed.

Lemma map_nth0 (f : R -> R) l i : (i < length l)%nat -> (map f l).[i] = f l.[i].
Proof. apply map_nth_in. Qed.

Lemma repeat_nth0 (x : R) n i : (i < n)%nat -> (repeat x n).[i] = x.
Proof. revert i; induction n; intros [|i] H; simpl; try lia; auto. apply IHn; lia. Qed.

Lemma nmin2_Rmin a b : nmin2 ROps a b = Rmin a b.
Proof.
  unfold nmin2; cbn. unfold Rltb, Rmin. destruct (Rlt_dec b a), (Rle_dec a b); lra.
Qed.
Lemma nmax2_Rmax a b : nmax2 ROps a b = Rmax a b.
Proof.
  unfold nmax2; cbn. unfold Rltb, Rmax. destruct (Rlt_dec a b), (Rle_dec a b); lra.
Qed.

Lemma aabb_interval_roundtrip lo hi : length lo = length hi ->
  aabb_to_interval ROps (aabb_of_interval ROps {| i_lower := lo; i_upper := hi |}) = {| i_lower := lo; i_upper := hi |}.
Proof.
  intros H. unfold aabb_to_interval, aabb_of_interval, interval_center, interval_width, vhalf, vadd, vsub; cbn.
  revert hi H; induction lo as [|l lo IH]; intros [|h hi] H; simpl in *; try discriminate; auto.
  injection H as H. specialize (IH hi H). injection IH as IH1 IH2.
  f_equal; f_equal; auto; field.
Qed.

(* isInside coordinate by coordinate, in any dictionary over R (the reals and the rounded formats) *)
Lemma aabb_inside_nth (N : NumOps R) (c h p : list R) : length c = length h -> length p = length c ->
  (aabb_inside N {| a_center := c; a_half := h |} p = true <->
   forall i, (i < length c)%nat -> nleb N (nabs N (nsub N p.[i] c.[i])) h.[i] = true).
Proof.
  intros Hch Hpc. unfold aabb_inside, vabs, vsub; cbn [a_center a_half].
  rewrite all2_iff by (rewrite map_length, map2_length; lia).
  rewrite map_length, map2_length, Hpc by lia.
  split; intros H i Hi; specialize (H i Hi).
  - rewrite map_nth0, map2_nth in H by (rewrite ?map2_length; lia). exact H.
  - rewrite map_nth0, map2_nth by (rewrite ?map2_length; lia). exact H.
Qed.

Lemma aabb_inside_abs_iff (c h p : list R) : length c = length h -> length p = length c ->
  (aabb_inside ROps {| a_center := c; a_half := h |} p = true <->
   forall i, (i < length c)%nat -> Rabs (p.[i] - c.[i]) <= h.[i]).
Proof.
  intros Hch Hpc. rewrite aabb_inside_nth by assumption.
  split; intros H i Hi; apply Rleb_true, H, Hi.
Qed.

Lemma aabb_inside_iff (c h p : list R) : length c = length h -> length p = length c ->
  (aabb_inside ROps {| a_center := c; a_half := h |} p = true <->
   forall i, (i < length c)%nat -> c.[i] - h.[i] <= p.[i] <= c.[i] + h.[i]).
Proof.
  intros Hch Hpc. rewrite aabb_inside_abs_iff by assumption.
  split; intros H i Hi; specialize (H i Hi).
  - apply Rabs_le_inv in H. lra.
  - apply Rabs_le. lra.
Qed.

Lemma include_is_hull (lo1 hi1 lo2 hi2 : list R) i :
  length lo1 = length lo2 -> length hi1 = length hi2 -> (i < length lo1)%nat -> (i < length hi1)%nat ->
  let u := interval_include ROps {| i_lower := lo1; i_upper := hi1 |} {| i_lower := lo2; i_upper := hi2 |} in
  (i_lower u).[i] = Rmin lo1.[i] lo2.[i] /\ (i_upper u).[i] = Rmax hi1.[i] hi2.[i].
Proof.
  intros H1 H2 Hi1 Hi2; cbn. rewrite !map2_nth by auto. rewrite nmin2_Rmin, nmax2_Rmax. auto.
Qed.

Lemma interval_inside_iff (lo hi v : list R) : length lo = length v -> length hi = length v ->
  (interval_inside ROps {| i_lower := lo; i_upper := hi |} v = true <->
   forall i, (i < length v)%nat -> lo.[i] <= v.[i] <= hi.[i]).
Proof.
  intros H1 H2. unfold interval_inside; cbn. rewrite andb_true_iff, !all2_iff by lia.
  split.
  - intros [A B] i Hi. specialize (A i Hi); specialize (B i Hi). unfold ngeb in A; cbn in A, B.
    apply Rleb_true in A, B. lra.
  - intros H; split; intros i Hi; specialize (H i Hi); unfold ngeb; cbn; apply Rleb_true; lra.
Qed.

(* the union contains a value as soon as one of the two intervals does, and every interval that contains both
   (componentwise) contains the union: it is the smallest enclosing interval *)
Lemma include_encloses_minimal (lo1 hi1 lo2 hi2 : list R) :
  length lo1 = length lo2 -> length hi1 = length hi2 -> length lo1 = length hi1 ->
  let u := interval_include ROps {| i_lower := lo1; i_upper := hi1 |} {| i_lower := lo2; i_upper := hi2 |} in
  (forall v, length v = length lo1 ->
     interval_inside ROps {| i_lower := lo1; i_upper := hi1 |} v = true \/
     interval_inside ROps {| i_lower := lo2; i_upper := hi2 |} v = true -> interval_inside ROps u v = true) /\
  (forall lo hi, length lo = length lo1 -> length hi = length lo1 ->
     (forall i, (i < length lo1)%nat -> lo.[i] <= lo1.[i] /\ lo.[i] <= lo2.[i] /\ hi1.[i] <= hi.[i] /\ hi2.[i] <= hi.[i]) ->
     forall i, (i < length lo1)%nat -> lo.[i] <= (i_lower u).[i] /\ (i_upper u).[i] <= hi.[i]).
Proof.
  intros H1 H2 H3 u.
  assert (Hu : forall i, (i < length lo1)%nat ->
            (i_lower u).[i] = Rmin lo1.[i] lo2.[i] /\ (i_upper u).[i] = Rmax hi1.[i] hi2.[i])
    by (intros i Hi; apply include_is_hull; lia).
  split.
  - intros v Hv Hor. apply (interval_inside_iff (i_lower u) (i_upper u)); [cbn; rewrite map2_length; lia ..|].
    intros i Hi. destruct (Hu i) as [-> ->]; [lia|].
    pose proof (Rmin_l lo1.[i] lo2.[i]); pose proof (Rmin_r lo1.[i] lo2.[i]);
      pose proof (Rmax_l hi1.[i] hi2.[i]); pose proof (Rmax_r hi1.[i] hi2.[i]).
    destruct Hor as [Hin|Hin]; rewrite interval_inside_iff in Hin by lia; specialize (Hin i Hi); lra.
  - intros lo hi Hlo Hhi Hall i Hi. specialize (Hall i Hi). destruct (Hu i Hi) as [-> ->].
    split; [apply Rmin_glb|apply Rmax_lub]; lra.
Qed.

Definition coords (pts : list (list R)) (i : nat) : list R := map (fun p => p.[i]) pts.
Definition is_min (l : list R) (m : R) : Prop := In m l /\ forall x, In x l -> m <= x.
Definition is_max (l : list R) (m : R) : Prop := In m l /\ forall x, In x l -> x <= m.
Definition Rsum (l : list R) : R := fold_right Rplus 0 l.
Definition bounded (pts : list (list R)) : Prop :=
  forall p x, In p pts -> In x p -> Rabs x <= nmaxval ROps.

Lemma fold_map2_nth (f : R -> R -> R) n pts : forall acc, length acc = n -> Forall (fun p => length p = n) pts ->
  length (fold_left (fun a p => map2 f a p) pts acc) = n /\
  forall i, (i < n)%nat -> (fold_left (fun a p => map2 f a p) pts acc).[i] = fold_left f (coords pts i) acc.[i].
Proof.
  induction pts as [|p pts IH]; intros acc Ha Hf; simpl.
  - split; auto.
  - inversion Hf as [|? ? Hp Hr]; subst.
    destruct (IH (map2 f acc p)) as [L E]; [rewrite map2_length; lia|assumption|].
    split; [exact L|]. intros i Hi. rewrite E by assumption. rewrite map2_nth by lia. reflexivity.
Qed.

Lemma running_length (f : R -> R -> R) n pts m0 : Forall (fun p => length p = n) pts ->
  length (fold_left (fun a p => map2 f a p) pts (vconst n m0)) = n.
Proof. intros Hf. apply (fold_map2_nth f n pts); [apply repeat_length|assumption]. Qed.

Lemma running_fold (f : R -> R -> R) n pts i m0 : Forall (fun p => length p = n) pts -> (i < n)%nat ->
  (fold_left (fun a p => map2 f a p) pts (vconst n m0)).[i] = fold_left f (coords pts i) m0.
Proof.
  intros Hf Hi. destruct (fold_map2_nth f n pts (vconst n m0)) as [_ E]; [apply repeat_length|assumption|].
  rewrite E by assumption. unfold vconst. rewrite repeat_nth0 by assumption. reflexivity.
Qed.

Lemma coords_in pts i x : In x (coords pts i) -> exists p, In p pts /\ x = p.[i].
Proof. unfold coords. rewrite in_map_iff. intros (p & E & H). eauto. Qed.

Lemma coords_forall n pts i (P : R -> Prop) : Forall (fun p => length p = n) pts -> (i < n)%nat ->
  (forall p x, In p pts -> In x p -> P x) -> forall x, In x (coords pts i) -> P x.
Proof.
  intros Hf Hi Hb x Hx. apply coords_in in Hx as (p & Hp & ->).
  apply (Hb p _ Hp). apply nth_In. rewrite Forall_forall in Hf. rewrite (Hf p Hp). exact Hi.
Qed.

(* Minimum and maximum at once: [f] returns the [le]-smaller of its two arguments, for an order [le] on R;
   the instances are (<=, min) and (>=, max). *)
Section Selection.
Variables (le : R -> R -> Prop) (f : R -> R -> R).
Hypotheses (le_refl : forall a, le a a) (le_trans : forall a b c, le a b -> le b c -> le a c)
  (le_antisym : forall a b, le a b -> le b a -> a = b)
  (f_sel : forall a b, le (f a b) a /\ le (f a b) b /\ (f a b = a \/ f a b = b)).

Lemma fold_sel_spec l : forall a, le (fold_left f l a) a /\ (forall x, In x l -> le (fold_left f l a) x) /\
  (fold_left f l a = a \/ In (fold_left f l a) l).
Proof using le_refl le_trans f_sel.
  induction l as [|y l IH]; intros a; simpl.
  - split; [apply le_refl|]. split; [intros x []|left; reflexivity].
  - destruct (IH (f a y)) as (A & B & C). destruct (f_sel a y) as (Fa & Fy & S).
    split; [eapply le_trans; eassumption|]. split.
    + intros x [<-|Hx]; [eapply le_trans; eassumption|apply B, Hx].
    + destruct C as [C|C]; [|right; right; exact C]. rewrite C.
      destruct S as [-> | ->]; [left|right; left]; reflexivity.
Qed.

Lemma fold_sel_extremum l a : l <> [] -> (forall x, In x l -> le x a) ->
  In (fold_left f l a) l /\ forall x, In x l -> le (fold_left f l a) x.
Proof.
  intros Hne Hb. destruct (fold_sel_spec l a) as (A & B & C). split; [|exact B].
  destruct C as [C|C]; [|exact C].
  destruct l as [|y l]; [congruence|].
  assert (E : fold_left f (y :: l) a = y).
  { apply le_antisym; [apply B; left; reflexivity|rewrite C; apply Hb; left; reflexivity]. }
  rewrite E. left; reflexivity.
Qed.

Lemma running_extremum n pts i M : pts <> [] -> Forall (fun p => length p = n) pts -> (i < n)%nat ->
  (forall p x, In p pts -> In x p -> le x M) ->
  let m := (fold_left (fun a p => map2 f a p) pts (vconst n M)).[i] in
  In m (coords pts i) /\ forall x, In x (coords pts i) -> le m x.
Proof.
  intros Hne Hf Hi Hb m. unfold m. rewrite running_fold by assumption.
  apply fold_sel_extremum; [destruct pts; simpl; congruence|].
  apply (coords_forall n); assumption.
Qed.
End Selection.

Lemma nmin2_sel a b : nmin2 ROps a b <= a /\ nmin2 ROps a b <= b /\ (nmin2 ROps a b = a \/ nmin2 ROps a b = b).
Proof. rewrite nmin2_Rmin. unfold Rmin. destruct (Rle_dec a b); lra. Qed.
Lemma nmax2_sel a b : a <= nmax2 ROps a b /\ b <= nmax2 ROps a b /\ (nmax2 ROps a b = a \/ nmax2 ROps a b = b).
Proof. rewrite nmax2_Rmax. unfold Rmax. destruct (Rle_dec a b); lra. Qed.

Lemma Rle_trans_rev a b c : b <= a -> c <= b -> c <= a.
Proof. lra. Qed.

(* the running minimum / maximum of EigenContainers and PointSetPreconditioner: started from +M and -M they are the true
   extrema of every non-empty point list with coordinates of magnitude at most M *)
Lemma running_extents n pts i M : pts <> [] -> Forall (fun p => length p = n) pts -> (i < n)%nat ->
  (forall p x, In p pts -> In x p -> Rabs x <= M) ->
  is_min (coords pts i) (fold_left (fun a p => map2 (nmin2 ROps) a p) pts (vconst n M)).[i] /\
  is_max (coords pts i) (fold_left (fun a p => map2 (nmax2 ROps) a p) pts (vconst n (- M))).[i].
Proof.
  intros Hne Hf Hi Hb. split.
  - apply (running_extremum Rle (nmin2 ROps) Rle_refl Rle_trans Rle_antisym nmin2_sel); try assumption.
    intros p x Hp Hx. pose proof (Rabs_le_inv _ _ (Hb p x Hp Hx)). lra.
  - apply (running_extremum (fun a b => b <= a) (nmax2 ROps) Rle_refl Rle_trans_rev
             (fun a b H1 H2 => Rle_antisym a b H2 H1) nmax2_sel); try assumption.
    intros p x Hp Hx. pose proof (Rabs_le_inv _ _ (Hb p x Hp Hx)). lra.
Qed.

Lemma fold_nmax2 l a : fold_left (nmax2 ROps) l a = fold_left Rmax l a.
Proof. revert a; induction l; intros; simpl; auto. rewrite nmax2_Rmax. auto. Qed.

Lemma fold_Rplus l a : fold_left Rplus l a = a + Rsum l.
Proof. revert a; induction l as [|y l IH]; intros a; simpl; [lra|]. rewrite IH. lra. Qed.

Lemma mean_correct n pts i : Forall (fun p => length p = n) pts -> (i < n)%nat ->
  (map (fun x => x / IZR (Z.of_nat (length pts))) (vsum ROps n pts)).[i] = Rsum (coords pts i) / INR (length pts).
Proof.
  intros Hf Hi. unfold vsum, vadd. cbn [nadd nzero ROps].
  rewrite map_nth0 by (rewrite (running_length Rplus); assumption).
  rewrite (running_fold Rplus), fold_Rplus, <- INR_IZR_INZ by assumption. f_equal. lra.
Qed.

Lemma max_coeff_is_max v : v <> [] -> is_max v (max_coeff ROps v).
Proof.
  destruct v as [|x r]; [congruence|intros _]. unfold max_coeff.
  destruct (fold_sel_spec (fun a b => b <= a) (nmax2 ROps) Rle_refl Rle_trans_rev nmax2_sel r x) as (A & B & C). split.
  - destruct C as [C|C]; [left; auto|right; exact C].
  - intros y [<-|Hy]; auto.
Qed.

Lemma precond_fields m0 size cdim pts :
  let pc := precond_with ROps m0 size cdim pts in
  pc_min pc = fold_left (fun a p => map2 (nmin2 ROps) a p) pts (vconst size (nmaxval ROps)) /\
  pc_max pc = fold_left (fun a p => map2 (nmax2 ROps) a p) pts (vconst size m0) /\
  pc_mean pc = map (fun x => x / IZR (Z.of_nat (length pts))) (vsum ROps size pts) /\
  pc_scale pc = 1 / max_coeff ROps (vsub ROps (pc_max pc) (pc_min pc)) /\
  pc_translation pc = map (fun m => - m * pc_scale pc) (firstn cdim (pc_mean pc)).
Proof. cbn. repeat split. Qed.

Lemma firstn_nth0 (l : list R) k j : (j < k)%nat -> (firstn k l).[j] = l.[j].
Proof.
  revert l j; induction k; intros l j H; [lia|]. destruct l; simpl; [destruct j; reflexivity|].
  destruct j; auto. apply IHk; lia.
Qed.

Lemma map2_seq (f : R -> R -> R) a b n : length a = n -> length b = n ->
  map2 f a b = map (fun i => f a.[i] b.[i]) (seq 0 n).
Proof.
  intros La Lb. apply (nth_ext _ _ 0 0).
  - rewrite map2_length, map_length, seq_length; lia.
  - intros i Hi. rewrite map2_length in Hi by lia. rewrite map2_nth by lia.
    rewrite (map_nth_in _ _ _ 0%nat), seq_nth by (rewrite ?seq_length; lia). reflexivity.
Qed.

Lemma precond_lowest_correct size cdim pts :
  pts <> [] -> (0 < size)%nat -> (cdim <= size)%nat -> Forall (fun p => length p = size) pts -> bounded pts ->
  let pc := precond_compute_lowest ROps size cdim pts in
  (forall i, (i < size)%nat ->
     is_min (coords pts i) (pc_min pc).[i] /\ is_max (coords pts i) (pc_max pc).[i] /\
     (pc_mean pc).[i] = Rsum (coords pts i) / INR (length pts)) /\
  (exists L, is_max (map (fun i => (pc_max pc).[i] - (pc_min pc).[i]) (seq 0 size)) L /\
             (0 < L -> pc_scale pc = / L)) /\
  (forall j, (j < cdim)%nat -> (pc_translation pc).[j] = - (pc_mean pc).[j] * pc_scale pc).
Proof.
  intros Hne Hs Hc Hf Hb pc.
  destruct (precond_fields (- nmaxval ROps) size cdim pts) as (Emin & Emax & Emean & Escale & Etr).
  change (precond_with ROps (- nmaxval ROps) size cdim pts) with pc in *. clearbody pc.
  assert (Lmin : length (pc_min pc) = size) by (rewrite Emin; apply running_length; assumption).
  assert (Lmax : length (pc_max pc) = size) by (rewrite Emax; apply running_length; assumption).
  split; [|split].
  - intros i Hi. rewrite Emin, Emax, Emean. destruct (running_extents size pts i _ Hne Hf Hi Hb) as [A B].
    split; [exact A|]. split; [exact B|]. apply mean_correct; assumption.
  - exists (max_coeff ROps (vsub ROps (pc_max pc) (pc_min pc))). rewrite <- (map2_seq Rminus) by assumption. split.
    + apply max_coeff_is_max. intros E. apply (f_equal (@length R)) in E. unfold vsub in E.
      rewrite map2_length in E by lia. simpl in E. lia.
    + intros HL. rewrite Escale. unfold Rdiv. lra.
  - intros j Hj.
    assert (Lmean : length (pc_mean pc) = size)
      by (rewrite Emean, map_length; apply (running_length Rplus); assumption).
    rewrite Etr, map_nth0, firstn_nth0 by (rewrite ?firstn_length; lia). reflexivity.
Qed.

(* the code before commit 166c2e7 (running maximum started from the smallest positive normal number) is wrong on all-negative data *)
Lemma minpos_pos : 0 < powerRZ 2 (-1022).
Proof. apply powerRZ_lt. lra. Qed.

Lemma pow2_le e1 e2 : (e1 <= e2)%Z -> powerRZ 2 e1 <= powerRZ 2 e2.
Proof.
  intros H. change 2 with (IZR (Zaux.radix_val Zaux.radix2)). rewrite <- !bpow_powerRZ. apply bpow_le; assumption.
Qed.

Lemma maxval_ge_4 : 4 <= nmaxval ROps.
Proof.
  change (nmaxval ROps) with ((2 - powerRZ 2 (-52)) * powerRZ 2 1023).
  pose proof (pow2_le (-52) 0 ltac:(lia)) as A. pose proof (pow2_le 2 1023 ltac:(lia)) as B.
  change (powerRZ 2 0) with 1 in A. change (powerRZ 2 2) with (2 * (2 * 1)) in B.
  pose proof (powerRZ_lt 2 (-52) ltac:(lra)) as C. nra.
Qed.

Lemma bounded_Forall pts M : Forall (Forall (fun x => Rabs x <= M)) pts ->
  forall p x, In p pts -> In x p -> Rabs x <= M.
Proof.
  intros H p x Hp Hx. rewrite Forall_forall in H. specialize (H p Hp). rewrite Forall_forall in H. exact (H x Hx).
Qed.

Lemma sample_bounded : bounded [[-3; -4]; [-1; -2]].
Proof.
  pose proof maxval_ge_4. unfold bounded. apply bounded_Forall.
  repeat first [apply Forall_cons|apply Forall_nil]; apply Rabs_le; lra.
Qed.

Lemma precond_minpos_refuted :
  exists pts : list (list R), pts <> [] /\ Forall (fun p => length p = 2%nat) pts /\ bounded pts /\
    let pc := precond_compute_minpos ROps 2 2 pts in
    ~ is_max (coords pts 0) (pc_max pc).[0%nat] /\
    (exists L, is_max [ -1 - -3; -2 - -4 ] L /\ 0 < L /\ pc_scale pc <> / L).
Proof.
  exists [[-3; -4]; [-1; -2]].
  split; [discriminate|]. split; [repeat constructor|]. split; [exact sample_bounded|].
  pose proof minpos_pos as Hm. pose proof maxval_ge_4 as M4.
  assert (Emax : pc_max (precond_compute_minpos ROps 2 2 [[-3; -4]; [-1; -2]]) = [powerRZ 2 (-1022); powerRZ 2 (-1022)]).
  { unfold precond_compute_minpos, precond_with; cbn -[nmax2 nmin2 powerRZ].
    rewrite !nmax2_Rmax, !(Rmax_left (powerRZ 2 (-1022))) by lra. reflexivity. }
  assert (Emin : pc_min (precond_compute_minpos ROps 2 2 [[-3; -4]; [-1; -2]]) = [-3; -4]).
  { unfold precond_compute_minpos, precond_with; cbn -[nmax2 nmin2 ROps].
    rewrite !nmin2_Rmin, !(Rmin_right (nmaxval ROps)), !Rmin_left by lra. reflexivity. }
  cbv zeta. split.
  - rewrite Emax. cbn -[powerRZ]. intros [Hin _]. destruct Hin as [E|[E|[]]]; lra.
  - exists 2. split; [|split; [lra|]].
    + split; [left; lra|]. intros x [<-|[<-|[]]]; lra.
    + destruct (precond_fields (powerRZ 2 (-1022)) 2 2 [[-3; -4]; [-1; -2]]) as (_ & _ & _ & Escale & _).
      change (precond_with ROps (powerRZ 2 (-1022)) 2 2) with (precond_compute_minpos ROps 2 2) in Escale.
      rewrite Escale, Emax, Emin. cbn -[nmax2 powerRZ]. rewrite nmax2_Rmax.
      rewrite Rmax_right by lra. intros E.
      unfold Rdiv in E. rewrite Rmult_1_l in E. apply (f_equal Rinv) in E.
      rewrite !Rinv_inv in E. lra.
Qed.

(* Oriented box -> axis-aligned box in any dimension.  The oriented box is taken as the point set
   { c + R q : |q_j| <= h_j } (for 2D/3D rotations this is exactly what isInside accepts: obb2_inside_geometric,
   obb3_inside_geometric).  No orthogonality is needed here. *)
Lemma abs_term_le r q h : Rabs q <= h -> Rabs (r * q) <= Rabs (r * h).
Proof.
  intros H. assert (0 <= h) by (pose proof (Rabs_pos q); lra).
  rewrite !Rabs_mult, (Rabs_right h) by lra. pose proof (Rabs_pos r). nra.
Qed.

Lemma sign_attains r h : 0 <= h -> exists s, (s = 1 \/ s = -1) /\ r * (s * h) = Rabs (r * h).
Proof.
  intros Hh. destruct (Rle_dec 0 r) as [Hr|Hr].
  - exists 1. split; [auto|]. rewrite Rabs_right by nra. ring.
  - exists (-1). split; [auto|]. rewrite Rabs_left1 by nra. ring.
Qed.

Lemma fold_add_map {A} (g : A -> R) l : forall a, fold_left (fun acc x => acc + g x) l a = a + Rsum (map g l).
Proof. induction l as [|x l IH]; intros a; simpl; [lra|]. rewrite IH. lra. Qed.

Lemma dot_cons a r q0 q : dot ROps (a :: r) (q0 :: q) = a * q0 + dot ROps r q.
Proof. unfold dot. cbn [combine fold_left fst snd nadd nmul nzero ROps]. rewrite !fold_add_map. lra. Qed.

Lemma extent_cons a r h0 h : abs_row_extent ROps (a :: r) (h0 :: h) = Rabs (a * h0) + abs_row_extent ROps r h.
Proof. unfold abs_row_extent. cbn [combine fold_left fst snd nadd nmul nabs nzero ROps]. rewrite !fold_add_map. lra. Qed.

Lemma dot_nil_l q : dot ROps [] q = 0.  Proof. reflexivity. Qed.
Lemma dot_nil_r r : dot ROps r [] = 0.  Proof. destruct r; reflexivity. Qed.
Lemma extent_nil_l h : abs_row_extent ROps [] h = 0.  Proof. reflexivity. Qed.
Lemma extent_nil_r r : abs_row_extent ROps r [] = 0.  Proof. destruct r; reflexivity. Qed.

Lemma row_bound r : forall q h, Forall2 (fun q h => Rabs q <= h) q h -> Rabs (dot ROps r q) <= abs_row_extent ROps r h.
Proof.
  induction r as [|a r IH]; intros q h H.
  - rewrite dot_nil_l, extent_nil_l, Rabs_R0. lra.
  - destruct H as [|q0 h0 q h H0 H].
    + rewrite dot_nil_r, extent_nil_r, Rabs_R0. lra.
    + rewrite dot_cons, extent_cons. specialize (IH q h H).
      pose proof (abs_term_le a q0 h0 H0). pose proof (Rabs_triang (a * q0) (dot ROps r q)). lra.
Qed.

Lemma row_attained r : forall h, Forall (fun x => 0 <= x) h ->
  exists q, Forall2 (fun q h => q = h \/ q = - h) q h /\ dot ROps r q = abs_row_extent ROps r h.
Proof.
  induction r as [|a r IH]; intros h Hh.
  - exists h. split; [|reflexivity]. induction h; constructor; auto. inversion Hh; auto.
  - destruct h as [|h0 h].
    + exists []. split; [constructor|]. rewrite dot_nil_r, extent_nil_r. reflexivity.
    + inversion Hh as [|? ? H0 Hr]; subst. destruct (IH h Hr) as (q & Hq & E).
      destruct (sign_attains a h0 H0) as (s & Hs & Es).
      exists (s * h0 :: q). split.
      * constructor; [|exact Hq]. destruct Hs as [-> | ->]; [left|right]; ring.
      * rewrite dot_cons, extent_cons, E, Es. reflexivity.
Qed.

Lemma dot_opp r : forall q, dot ROps r (map Ropp q) = - dot ROps r q.
Proof.
  induction r as [|a r IH]; intros q; [rewrite !dot_nil_l; lra|].
  destruct q as [|q0 q]; [cbn [map]; rewrite !dot_nil_r; lra|].
  cbn [map]. rewrite !dot_cons, IH. ring.
Qed.

Lemma Forall2_length_eq {A B} (P : A -> B -> Prop) l1 l2 : Forall2 P l1 l2 -> length l1 = length l2.
Proof. induction 1; simpl; auto. Qed.

Lemma obb_point_nth (c : list R) (Rm : list (list R)) q i : length Rm = length c -> (i < length c)%nat ->
  (vadd ROps c (mul_vec ROps Rm q)).[i] = c.[i] + dot ROps (nth i Rm []) q.
Proof.
  intros HL Hi. unfold vadd, mul_vec. rewrite map2_nth by (rewrite ?map_length; lia).
  rewrite (map_nth_in _ Rm i []) by lia. reflexivity.
Qed.

Lemma obb_image_in_aabb (c h : list R) (Rm : list (list R)) q :
  length Rm = length c -> Forall2 (fun q h => Rabs q <= h) q h ->
  aabb_inside ROps (obb_to_aabb ROps {| o_center := c; o_half := h; o_rot := Rm |}) (vadd ROps c (mul_vec ROps Rm q)) = true.
Proof.
  intros HL Hq. unfold obb_to_aabb. cbn [o_center o_half o_rot]. apply aabb_inside_abs_iff.
  - rewrite map_length. symmetry. exact HL.
  - unfold vadd, mul_vec. rewrite map2_length; rewrite ?map_length; lia.
  - intros i Hi. rewrite obb_point_nth, (map_nth_in _ Rm i []) by lia.
    replace (c.[i] + dot ROps (nth i Rm []) q - c.[i]) with (dot ROps (nth i Rm []) q) by ring.
    apply row_bound. exact Hq.
Qed.

Lemma obb_aabb_face_touched (c h : list R) (Rm : list (list R)) i :
  length Rm = length c -> (i < length c)%nat -> Forall (fun x => 0 <= x) h ->
  let e := (a_half (obb_to_aabb ROps {| o_center := c; o_half := h; o_rot := Rm |})).[i] in
  exists q, Forall2 (fun q h => q = h \/ q = - h) q h /\
    (vadd ROps c (mul_vec ROps Rm q)).[i] = c.[i] + e /\
    (vadd ROps c (mul_vec ROps Rm (map Ropp q))).[i] = c.[i] - e.
Proof.
  intros HL Hi Hh. cbn [obb_to_aabb a_half o_rot o_half].
  destruct (row_attained (nth i Rm []) h Hh) as (q & Hq & E). exists q. split; [exact Hq|].
  rewrite !obb_point_nth, (map_nth_in _ Rm i []), dot_opp, E by lia. split; ring.
Qed.

Lemma sign_opp s : s = 1 \/ s = -1 -> - s = 1 \/ - s = -1.
Proof. intros [-> | ->]; [right|left]; lra. Qed.

Lemma signed_half_abs s h : 0 <= h -> s = 1 \/ s = -1 -> Rabs (s * h) <= h.
Proof.
  intros Hh [-> | ->]; [rewrite Rmult_1_l, Rabs_right by lra; lra|].
  replace (-1 * h) with (- h) by ring. rewrite Rabs_Ropp, Rabs_right by lra. lra.
Qed.

Definition orthogonal2 (r00 r01 r10 r11 : R) : Prop :=
  (r00 * r00 + r01 * r01 = 1 /\ r10 * r10 + r11 * r11 = 1 /\ r00 * r10 + r01 * r11 = 0) /\      (* R R^T = I *)
  (r00 * r00 + r10 * r10 = 1 /\ r01 * r01 + r11 * r11 = 1 /\ r00 * r01 + r10 * r11 = 0).        (* R^T R = I *)

(* a matrix M with orthonormal rows (a b), (c d) undoes its transpose: M (M^T v) = v.  Used with M = R for
   "R^T (p - c) are local coordinates of p" and with M = R^T for "R q has frame coordinates q". *)
Lemma orthonormal2_inv a b c d x y : a * a + b * b = 1 -> c * c + d * d = 1 -> a * c + b * d = 0 ->
  a * (a * x + c * y) + b * (b * x + d * y) = x /\ c * (a * x + c * y) + d * (b * x + d * y) = y.
Proof.
  intros Ha Hc Hac. split.
  - transitivity ((a * a + b * b) * x + (a * c + b * d) * y); [ring|rewrite Ha, Hac; ring].
  - transitivity ((a * c + b * d) * x + (c * c + d * d) * y); [ring|rewrite Hc, Hac; ring].
Qed.

Section OBB2.
Context (c0 c1 h0 h1 r00 r01 r10 r11 : R).
Let o := {| o_center := [c0; c1]; o_half := [h0; h1]; o_rot := [[r00; r01]; [r10; r11]] |}.

(* the set of points of the oriented box: centre + R * (local coordinates within +- half extents) *)
Definition in_obb2 (p0 p1 : R) : Prop :=
  exists q0 q1, Rabs q0 <= h0 /\ Rabs q1 <= h1 /\ p0 = c0 + (r00 * q0 + r01 * q1) /\ p1 = c1 + (r10 * q0 + r11 * q1).

Lemma obb2_inside_frame p0 p1 :
  obb_inside ROps o [p0; p1] = true <->
  Rabs (r00 * (p0 - c0) + r10 * (p1 - c1)) <= h0 /\ Rabs (r01 * (p0 - c0) + r11 * (p1 - c1)) <= h1.
Proof.
  unfold obb_inside, tr_mul_vec, dot, column, vabs, vsub; cbn.
  rewrite !andb_true_iff, !Rleb_true, !Rplus_0_l. tauto.
Qed.

Lemma obb2_inside_geometric p0 p1 : orthogonal2 r00 r01 r10 r11 ->
  (obb_inside ROps o [p0; p1] = true <-> in_obb2 p0 p1).
Proof.
  intros [(Ha & Hb & Hc) (Hd & He & Hf)]. rewrite obb2_inside_frame. split.
  - intros [H0 H1]. eexists _, _. split; [exact H0|]. split; [exact H1|].
    destruct (orthonormal2_inv r00 r01 r10 r11 (p0 - c0) (p1 - c1) Ha Hb Hc) as [-> ->]. split; ring.
  - intros (q0 & q1 & H0 & H1 & E0 & E1).
    replace (p0 - c0) with (r00 * q0 + r01 * q1) by lra. replace (p1 - c1) with (r10 * q0 + r11 * q1) by lra.
    destruct (orthonormal2_inv r00 r10 r01 r11 q0 q1 Hd He Hf) as [-> ->]. auto.
Qed.

Lemma obb2_to_aabb_encloses p0 p1 : orthogonal2 r00 r01 r10 r11 ->
  obb_inside ROps o [p0; p1] = true -> aabb_inside ROps (obb_to_aabb ROps o) [p0; p1] = true.
Proof.
  intros Ho Hin. apply (obb2_inside_geometric p0 p1 Ho) in Hin as (q0 & q1 & H0 & H1 & -> & ->).
  replace [c0 + (r00 * q0 + r01 * q1); c1 + (r10 * q0 + r11 * q1)]
    with (vadd ROps [c0; c1] (mul_vec ROps [[r00; r01]; [r10; r11]] [q0; q1])) by (cbn; rewrite !Rplus_0_l; reflexivity).
  apply obb_image_in_aabb; [reflexivity|auto].
Qed.

Lemma obb2_to_aabb_eq :
  obb_to_aabb ROps o = {| a_center := [c0; c1];
                          a_half := [Rabs (r00 * h0) + Rabs (r01 * h1); Rabs (r10 * h0) + Rabs (r11 * h1)] |}.
Proof. unfold obb_to_aabb, abs_row_extent; cbn. rewrite !Rplus_0_l. reflexivity. Qed.

(* a corner of the oriented box: local coordinates (+-h0, +-h1) *)
Definition corner2 (p0 p1 : R) : Prop :=
  exists s0 s1, (s0 = 1 \/ s0 = -1) /\ (s1 = 1 \/ s1 = -1) /\
    p0 = c0 + (r00 * (s0 * h0) + r01 * (s1 * h1)) /\ p1 = c1 + (r10 * (s0 * h0) + r11 * (s1 * h1)).

Lemma corner2_in_obb p0 p1 : 0 <= h0 -> 0 <= h1 -> corner2 p0 p1 -> in_obb2 p0 p1.
Proof.
  intros Hh0 Hh1 (s0 & s1 & Hs0 & Hs1 & E0 & E1). exists (s0 * h0), (s1 * h1).
  repeat split; auto using signed_half_abs.
Qed.

Lemma obb2_to_aabb_tight : 0 <= h0 -> 0 <= h1 ->
  let e0 := (a_half (obb_to_aabb ROps o)).[0%nat] in let e1 := (a_half (obb_to_aabb ROps o)).[1%nat] in
  (exists p0 p1, corner2 p0 p1 /\ p0 = c0 + e0) /\ (exists p0 p1, corner2 p0 p1 /\ p0 = c0 - e0) /\
  (exists p0 p1, corner2 p0 p1 /\ p1 = c1 + e1) /\ (exists p0 p1, corner2 p0 p1 /\ p1 = c1 - e1).
Proof.
  intros Hh0 Hh1. rewrite obb2_to_aabb_eq. cbn [a_half nth].
  destruct (sign_attains r00 h0 Hh0) as (s00 & S00 & E00). destruct (sign_attains r01 h1 Hh1) as (s01 & S01 & E01).
  destruct (sign_attains r10 h0 Hh0) as (s10 & S10 & E10). destruct (sign_attains r11 h1 Hh1) as (s11 & S11 & E11).
  repeat split.
  - eexists _, _. split; [exists s00, s01; repeat split; auto using sign_opp|]. rewrite E00, E01. reflexivity.
  - eexists _, _. split; [exists (- s00), (- s01); repeat split; auto using sign_opp|].
    rewrite <- E00, <- E01. ring.
  - eexists _, _. split; [exists s10, s11; repeat split; auto using sign_opp|]. rewrite E10, E11. reflexivity.
  - eexists _, _. split; [exists (- s10), (- s11); repeat split; auto using sign_opp|].
    rewrite <- E10, <- E11. ring.
Qed.

End OBB2.

Definition orthogonal3 (r00 r01 r02 r10 r11 r12 r20 r21 r22 : R) : Prop :=
  (* R R^T = I : rows orthonormal *)
  (r00 * r00 + r01 * r01 + r02 * r02 = 1 /\ r10 * r10 + r11 * r11 + r12 * r12 = 1 /\ r20 * r20 + r21 * r21 + r22 * r22 = 1 /\
   r00 * r10 + r01 * r11 + r02 * r12 = 0 /\ r00 * r20 + r01 * r21 + r02 * r22 = 0 /\ r10 * r20 + r11 * r21 + r12 * r22 = 0) /\
  (* R^T R = I : columns orthonormal *)
  (r00 * r00 + r10 * r10 + r20 * r20 = 1 /\ r01 * r01 + r11 * r11 + r21 * r21 = 1 /\ r02 * r02 + r12 * r12 + r22 * r22 = 1 /\
   r00 * r01 + r10 * r11 + r20 * r21 = 0 /\ r00 * r02 + r10 * r12 + r20 * r22 = 0 /\ r01 * r02 + r11 * r12 + r21 * r22 = 0).

(* rows (a b c), (d e f), (g h i) orthonormal: M (M^T v) = v *)
Lemma orthonormal3_inv a b c d e f g h i x y z :
  a * a + b * b + c * c = 1 -> d * d + e * e + f * f = 1 -> g * g + h * h + i * i = 1 ->
  a * d + b * e + c * f = 0 -> a * g + b * h + c * i = 0 -> d * g + e * h + f * i = 0 ->
  a * (a * x + d * y + g * z) + b * (b * x + e * y + h * z) + c * (c * x + f * y + i * z) = x /\
  d * (a * x + d * y + g * z) + e * (b * x + e * y + h * z) + f * (c * x + f * y + i * z) = y /\
  g * (a * x + d * y + g * z) + h * (b * x + e * y + h * z) + i * (c * x + f * y + i * z) = z.
Proof.
  intros Ha Hd Hg Had Hag Hdg. split; [|split].
  - transitivity ((a * a + b * b + c * c) * x + (a * d + b * e + c * f) * y + (a * g + b * h + c * i) * z);
      [ring|rewrite Ha, Had, Hag; ring].
  - transitivity ((a * d + b * e + c * f) * x + (d * d + e * e + f * f) * y + (d * g + e * h + f * i) * z);
      [ring|rewrite Hd, Had, Hdg; ring].
  - transitivity ((a * g + b * h + c * i) * x + (d * g + e * h + f * i) * y + (g * g + h * h + i * i) * z);
      [ring|rewrite Hg, Hag, Hdg; ring].
Qed.

Section OBB3.
Context (c0 c1 c2 h0 h1 h2 r00 r01 r02 r10 r11 r12 r20 r21 r22 : R).
Let o := {| o_center := [c0; c1; c2]; o_half := [h0; h1; h2];
            o_rot := [[r00; r01; r02]; [r10; r11; r12]; [r20; r21; r22]] |}.

Definition in_obb3 (p0 p1 p2 : R) : Prop :=
  exists q0 q1 q2, Rabs q0 <= h0 /\ Rabs q1 <= h1 /\ Rabs q2 <= h2 /\
    p0 = c0 + (r00 * q0 + r01 * q1 + r02 * q2) /\ p1 = c1 + (r10 * q0 + r11 * q1 + r12 * q2) /\
    p2 = c2 + (r20 * q0 + r21 * q1 + r22 * q2).

Lemma obb3_inside_frame p0 p1 p2 :
  obb_inside ROps o [p0; p1; p2] = true <->
  Rabs (r00 * (p0 - c0) + r10 * (p1 - c1) + r20 * (p2 - c2)) <= h0 /\
  Rabs (r01 * (p0 - c0) + r11 * (p1 - c1) + r21 * (p2 - c2)) <= h1 /\
  Rabs (r02 * (p0 - c0) + r12 * (p1 - c1) + r22 * (p2 - c2)) <= h2.
Proof.
  unfold obb_inside, tr_mul_vec, dot, column, vabs, vsub; cbn.
  rewrite !andb_true_iff, !Rleb_true, !Rplus_0_l. tauto.
Qed.

Lemma obb3_inside_geometric p0 p1 p2 : orthogonal3 r00 r01 r02 r10 r11 r12 r20 r21 r22 ->
  (obb_inside ROps o [p0; p1; p2] = true <-> in_obb3 p0 p1 p2).
Proof.
  intros [(Ra & Rb & Rc & Rab & Rac & Rbc) (Ca & Cb & Cc & Cab & Cac & Cbc)]. rewrite obb3_inside_frame. split.
  - intros (H0 & H1 & H2). eexists _, _, _. split; [exact H0|]. split; [exact H1|]. split; [exact H2|].
    destruct (orthonormal3_inv r00 r01 r02 r10 r11 r12 r20 r21 r22 (p0 - c0) (p1 - c1) (p2 - c2) Ra Rb Rc Rab Rac Rbc)
      as (-> & -> & ->). repeat split; ring.
  - intros (q0 & q1 & q2 & H0 & H1 & H2 & E0 & E1 & E2).
    replace (p0 - c0) with (r00 * q0 + r01 * q1 + r02 * q2) by lra.
    replace (p1 - c1) with (r10 * q0 + r11 * q1 + r12 * q2) by lra.
    replace (p2 - c2) with (r20 * q0 + r21 * q1 + r22 * q2) by lra.
    destruct (orthonormal3_inv r00 r10 r20 r01 r11 r21 r02 r12 r22 q0 q1 q2 Ca Cb Cc Cab Cac Cbc) as (-> & -> & ->). auto.
Qed.

Lemma obb3_to_aabb_encloses p0 p1 p2 : orthogonal3 r00 r01 r02 r10 r11 r12 r20 r21 r22 ->
  obb_inside ROps o [p0; p1; p2] = true -> aabb_inside ROps (obb_to_aabb ROps o) [p0; p1; p2] = true.
Proof.
  intros Ho Hin. apply (obb3_inside_geometric p0 p1 p2 Ho) in Hin as (q0 & q1 & q2 & H0 & H1 & H2 & -> & -> & ->).
  replace [c0 + (r00 * q0 + r01 * q1 + r02 * q2); c1 + (r10 * q0 + r11 * q1 + r12 * q2); c2 + (r20 * q0 + r21 * q1 + r22 * q2)]
    with (vadd ROps [c0; c1; c2] (mul_vec ROps [[r00; r01; r02]; [r10; r11; r12]; [r20; r21; r22]] [q0; q1; q2]))
    by (cbn; rewrite !Rplus_0_l; reflexivity).
  apply obb_image_in_aabb; [reflexivity|auto].
Qed.

Lemma obb3_to_aabb_eq :
  obb_to_aabb ROps o =
  {| a_center := [c0; c1; c2];
     a_half := [Rabs (r00 * h0) + Rabs (r01 * h1) + Rabs (r02 * h2);
                Rabs (r10 * h0) + Rabs (r11 * h1) + Rabs (r12 * h2);
                Rabs (r20 * h0) + Rabs (r21 * h1) + Rabs (r22 * h2)] |}.
Proof. unfold obb_to_aabb, abs_row_extent; cbn. rewrite !Rplus_0_l. reflexivity. Qed.

Definition corner3 (p0 p1 p2 : R) : Prop :=
  exists s0 s1 s2, (s0 = 1 \/ s0 = -1) /\ (s1 = 1 \/ s1 = -1) /\ (s2 = 1 \/ s2 = -1) /\
    p0 = c0 + (r00 * (s0 * h0) + r01 * (s1 * h1) + r02 * (s2 * h2)) /\
    p1 = c1 + (r10 * (s0 * h0) + r11 * (s1 * h1) + r12 * (s2 * h2)) /\
    p2 = c2 + (r20 * (s0 * h0) + r21 * (s1 * h1) + r22 * (s2 * h2)).

Lemma corner3_in_obb p0 p1 p2 : 0 <= h0 -> 0 <= h1 -> 0 <= h2 -> corner3 p0 p1 p2 -> in_obb3 p0 p1 p2.
Proof.
  intros Hh0 Hh1 Hh2 (s0 & s1 & s2 & Hs0 & Hs1 & Hs2 & E0 & E1 & E2). exists (s0 * h0), (s1 * h1), (s2 * h2).
  repeat split; auto using signed_half_abs.
Qed.

Lemma obb3_to_aabb_tight : 0 <= h0 -> 0 <= h1 -> 0 <= h2 ->
  let e0 := (a_half (obb_to_aabb ROps o)).[0%nat] in let e1 := (a_half (obb_to_aabb ROps o)).[1%nat] in
  let e2 := (a_half (obb_to_aabb ROps o)).[2%nat] in
  (exists p0 p1 p2, corner3 p0 p1 p2 /\ p0 = c0 + e0) /\ (exists p0 p1 p2, corner3 p0 p1 p2 /\ p0 = c0 - e0) /\
  (exists p0 p1 p2, corner3 p0 p1 p2 /\ p1 = c1 + e1) /\ (exists p0 p1 p2, corner3 p0 p1 p2 /\ p1 = c1 - e1) /\
  (exists p0 p1 p2, corner3 p0 p1 p2 /\ p2 = c2 + e2) /\ (exists p0 p1 p2, corner3 p0 p1 p2 /\ p2 = c2 - e2).
Proof.
  intros Hh0 Hh1 Hh2. rewrite obb3_to_aabb_eq. cbn [a_half nth].
  assert (face : forall ra rb rc, exists s0 s1 s2, (s0 = 1 \/ s0 = -1) /\ (s1 = 1 \/ s1 = -1) /\ (s2 = 1 \/ s2 = -1) /\
            ra * (s0 * h0) + rb * (s1 * h1) + rc * (s2 * h2) = Rabs (ra * h0) + Rabs (rb * h1) + Rabs (rc * h2)).
  { intros ra rb rc. destruct (sign_attains ra h0 Hh0) as (s0 & S0 & E0). destruct (sign_attains rb h1 Hh1) as (s1 & S1 & E1).
    destruct (sign_attains rc h2 Hh2) as (s2 & S2 & E2). exists s0, s1, s2. rewrite E0, E1, E2. auto. }
  destruct (face r00 r01 r02) as (a0 & a1 & a2 & A0 & A1 & A2 & EA).
  destruct (face r10 r11 r12) as (b0 & b1 & b2 & B0 & B1 & B2 & EB).
  destruct (face r20 r21 r22) as (g0 & g1 & g2 & G0 & G1 & G2 & EG).
  split; [|split; [|split; [|split; [|split]]]].
  - eexists _, _, _. split; [exists a0, a1, a2; repeat split; auto using sign_opp|]. rewrite EA. reflexivity.
  - eexists _, _, _. split; [exists (- a0), (- a1), (- a2); repeat split; auto using sign_opp|]. rewrite <- EA. ring.
  - eexists _, _, _. split; [exists b0, b1, b2; repeat split; auto using sign_opp|]. rewrite EB. reflexivity.
  - eexists _, _, _. split; [exists (- b0), (- b1), (- b2); repeat split; auto using sign_opp|]. rewrite <- EB. ring.
  - eexists _, _, _. split; [exists g0, g1, g2; repeat split; auto using sign_opp|]. rewrite EG. reflexivity.
  - eexists _, _, _. split; [exists (- g0), (- g1), (- g2); repeat split; auto using sign_opp|]. rewrite <- EG. ring.
Qed.

End OBB3.
