(* SrcEigenDynFacts.v — lemmas about the vocabulary SrcEigenDyn.v (dynamic-size Eigen operations as the generated terms of
   gen/SrcLs.v use them), for every numeric dictionary: element reads after element stores, shapes, loops as folds with an
   invariant, and the reading of a well-shaped matrix as the table of its entries.  Used by SrcTieC07.v. *)
From Coq Require Import List Arith Bool Lia.
From Romea Require Import Num LinAlgBModel LinAlgBProofs LsHistoryProofs SrcEigenDyn.
Import ListNotations.

Lemma nth_firstn_lt {A} (l : list A) n i d : (i < n)%nat -> nth i (firstn n l) d = nth i l d.
Proof.
  revert n i. induction l as [|a l IH]; intros n i H.
  - rewrite firstn_nil. reflexivity.
  - destruct n; [lia|]. destruct i; cbn; [reflexivity|]. apply IH. lia.
Qed.

Lemma nth_skipn_add {A} (l : list A) n i d : nth i (skipn n l) d = nth (n + i) l d.
Proof.
  revert l. induction n as [|n IH]; intros l; [reflexivity|].
  destruct l as [|a l]; cbn; [destruct i; reflexivity|]. apply IH.
Qed.

Lemma list_eq_tab {A} (l : list A) n d : length l = n -> l = tab n (fun i => nth i l d).
Proof.
  intros H. apply (nth_ext _ _ d d).
  - rewrite length_tab. exact H.
  - intros i Hi. rewrite nth_tab by lia. reflexivity.
Qed.

Lemma set_nth_beyond {A} i (x : A) l : (length l <= i)%nat -> set_nth i x l = l.
Proof.
  intros H. unfold set_nth. rewrite (skipn_all2 l H), (firstn_all2 l H), app_nil_r. reflexivity.
Qed.

(* a loop [for (i = a; i < a + len; ++i)] as a fold: invariant rule *)
Lemma fold_seq_inv {A} (f : A -> nat -> A) (P : nat -> A -> Prop) len : forall a x,
  P a x -> (forall i y, (a <= i < a + len)%nat -> P i y -> P (S i) (f y i)) ->
  P (a + len)%nat (fold_left f (seq a len) x).
Proof.
  induction len as [|len IH]; intros a x H0 Hs.
  - rewrite Nat.add_0_r. exact H0.
  - cbn [seq fold_left]. replace (a + S len)%nat with (S a + len)%nat by lia. apply IH.
    + apply Hs; [lia|exact H0].
    + intros i y Hi. apply Hs. lia.
Qed.

Section Facts.
Context {T : Type} (N : NumOps T).

(* a matrix value is well shaped: r rows of c entries, and says so *)
Definition dm_shape (r c : nat) (M : dmat (T:=T)) : Prop :=
  dm_cols M = c /\ length (dm_rows M) = r /\ Forall (fun row => length row = c) (dm_rows M).

Lemma rows_eq_mtab (rows : list (list T)) r c :
  length rows = r -> Forall (fun row => length row = c) rows -> rows = mtab r c (mget N rows).
Proof.
  intros Hr Hc. unfold mtab. rewrite (list_eq_tab rows r [] Hr) at 1. apply tab_ext. intros i Hi.
  assert (Hl : length (nth i rows []) = c).
  { rewrite Forall_forall in Hc. apply Hc. apply nth_In. lia. }
  exact (list_eq_tab (nth i rows []) c (nzero N) Hl).
Qed.

Lemma dm_shape_eq r c M : dm_shape r c M -> M = mkdm c (mtab r c (mget N (dm_rows M))).
Proof.
  intros (Hc & Hr & Hf). destruct M as [mc rows]. cbn in *. subst mc. f_equal. apply rows_eq_mtab; assumption.
Qed.

Lemma dm_shape_mtab r c f : dm_shape r c (mkdm c (mtab r c f)).
Proof. repeat split; cbn. - apply length_mtab. - apply Forall_mtab. Qed.

Lemma dm_set_shape r c M i j x : dm_shape r c M -> (i < r)%nat -> dm_shape r c (dm_set M i j x).
Proof.
  intros (Hc & Hr & Hf) Hi. repeat split; cbn.
  - exact Hc.
  - rewrite length_set_nth. exact Hr.
  - apply Forall_set_nth; [exact Hf|]. rewrite length_set_nth. rewrite Forall_forall in Hf. apply Hf. apply nth_In. lia.
Qed.

Lemma dm_get_set r c M i j x a b : dm_shape r c M -> (i < r)%nat -> (j < c)%nat ->
  dm_get N (dm_set M i j x) a b = if andb (Nat.eqb a i) (Nat.eqb b j) then x else dm_get N M a b.
Proof.
  intros (Hc & Hr & Hf) Hi Hj. unfold dm_get, dm_set, mget. cbn [dm_rows].
  assert (Hl : length (nth i (dm_rows M) []) = c).
  { rewrite Forall_forall in Hf. apply Hf. apply nth_In. lia. }
  destruct (Nat.eqb_spec a i) as [->|Ha]; cbn [andb].
  - rewrite nth_set_nth_eq by lia.
    destruct (Nat.eqb_spec b j) as [->|Hb].
    + apply nth_set_nth_eq. lia.
    + apply nth_set_nth_neq. auto.
  - rewrite nth_set_nth_neq by auto. reflexivity.
Qed.

Lemma dv_get_set (v : list T) i x a : (i < length v)%nat ->
  dv_get N (dv_set v i x) a = if Nat.eqb a i then x else dv_get N v a.
Proof.
  intros Hi. unfold dv_get, dv_set, vget. destruct (Nat.eqb_spec a i) as [->|Ha].
  - apply nth_set_nth_eq. exact Hi.
  - apply nth_set_nth_neq. auto.
Qed.

Lemma dm_col_get M i r : nth r (dm_col N M i) (nzero N) = dm_get N M r i.
Proof.
  unfold dm_col, dm_get, mget. rewrite <- (map_nth (fun row => nth i row (nzero N)) (dm_rows M) [] r).
  now destruct i.
Qed.

(* column heads: J_.col(i).head(n) read at r < n *)
Lemma col_head_get M i n r : (r < n)%nat -> vget N (dv_head n (dm_col N M i)) r = mget N (dm_rows M) r i.
Proof. intros Hr. unfold vget, dv_head. rewrite nth_firstn_lt by exact Hr. apply dm_col_get. Qed.

Lemma length_col_head M i n : (n <= dm_nrows M)%nat -> length (dv_head n (dm_col N M i)) = n.
Proof. intros H. unfold dv_head, dm_col. apply firstn_length_le. rewrite map_length. exact H. Qed.

Lemma head_get (v : list T) n r : (r < n)%nat -> vget N (dv_head n v) r = vget N v r.
Proof. intros H. unfold vget, dv_head. apply nth_firstn_lt. exact H. Qed.

Lemma dot_col_col M i j n : (n <= dm_nrows M)%nat ->
  dv_dot N (dv_head n (dm_col N M i)) (dv_head n (dm_col N M j)) =
  sumn N n (fun r => nmul N (mget N (dm_rows M) r i) (mget N (dm_rows M) r j)).
Proof.
  intros Hn. unfold dv_dot. rewrite length_col_head by exact Hn. apply sumn_ext. intros r Hr.
  rewrite !col_head_get by assumption. reflexivity.
Qed.

Lemma dot_col_vec M i (y : list T) n : (n <= dm_nrows M)%nat ->
  dv_dot N (dv_head n (dm_col N M i)) (dv_head n y) =
  sumn N n (fun r => nmul N (mget N (dm_rows M) r i) (vget N y r)).
Proof.
  intros Hn. unfold dv_dot. rewrite length_col_head by exact Hn. apply sumn_ext. intros r Hr.
  rewrite col_head_get, head_get by assumption. reflexivity.
Qed.

(* two well-shaped matrices with the same entries are the same value *)
Lemma dm_shape_ext r c M (D : nat -> nat -> T) : dm_shape r c M ->
  (forall a b, (a < r)%nat -> (b < c)%nat -> dm_get N M a b = D a b) -> M = mkdm c (mtab r c D).
Proof.
  intros Hs Hg. rewrite (dm_shape_eq r c M Hs). f_equal. apply mtab_ext. intros a b Ha Hb. apply Hg; assumption.
Qed.

(* LOOP SHAPE 1: for (i = 0; i < k; ++i) for (j = i; j < k; ++j) body(i,j), where body stores D in the entries (i,j) and (j,i) only *)
Lemma sym_fill_fold k (body : dmat (T:=T) -> nat -> nat -> dmat (T:=T)) (D : nat -> nat -> T) M0 :
  (forall M i j, dm_shape k k M -> (i <= j < k)%nat ->
     dm_shape k k (body M i j) /\
     forall a b, (a < k)%nat -> (b < k)%nat ->
       dm_get N (body M i j) a b =
       if orb (andb (Nat.eqb a i) (Nat.eqb b j)) (andb (Nat.eqb a j) (Nat.eqb b i)) then D a b else dm_get N M a b) ->
  dm_shape k k M0 ->
  fold_left (fun M i => fold_left (fun M' j => body M' i j) (seq i (k - i)) M) (seq 0 k) M0 = mkdm k (mtab k k D).
Proof.
  intros Hb H0.
  pose (P := fun (i : nat) (M : dmat (T:=T)) => dm_shape k k M /\
               forall a b, (a < k)%nat -> (b < k)%nat -> (a < i \/ b < i)%nat -> dm_get N M a b = D a b).
  assert (HP : P (0 + k)%nat (fold_left (fun M i => fold_left (fun M' j => body M' i j) (seq i (k - i)) M) (seq 0 k) M0)).
  { apply (fold_seq_inv _ P).
    - split; [exact H0|]. intros a b _ _ [H|H]; lia.
    - intros i M Hi (HsM & HgM).
      pose (Q := fun (j : nat) (M' : dmat (T:=T)) => dm_shape k k M' /\
                   forall a b, (a < k)%nat -> (b < k)%nat ->
                     (a < i \/ b < i \/ (a = i /\ b < j) \/ (b = i /\ a < j))%nat -> dm_get N M' a b = D a b).
      assert (HQ : Q (i + (k - i))%nat (fold_left (fun M' j => body M' i j) (seq i (k - i)) M)).
      { apply (fold_seq_inv _ Q).
        - split; [exact HsM|]. intros a b Ha Hb' Hc. apply HgM; try assumption. lia.
        - intros j M' Hj (HsM' & HgM'). destruct (Hb M' i j HsM' ltac:(lia)) as (Hs2 & Hg2). split; [exact Hs2|].
          intros a b Ha Hb' Hc. rewrite Hg2 by assumption.
          destruct (Nat.eqb_spec a i), (Nat.eqb_spec b j), (Nat.eqb_spec a j), (Nat.eqb_spec b i); cbn [andb orb];
            try reflexivity; apply HgM'; try assumption; lia. }
      destruct HQ as (HsQ & HgQ). split; [exact HsQ|]. intros a b Ha Hb' Hc. apply HgQ; try assumption. lia. }
  destruct HP as (Hs & Hg). apply dm_shape_ext; [exact Hs|]. intros a b Ha Hb'. apply Hg; try assumption. lia.
Qed.

(* LOOP SHAPE 2: for (i = 0; i < k; ++i) body(i), where body stores D i in entry i of a vector only *)
Lemma vec_fill_fold k (body : list T -> nat -> list T) (D : nat -> T) v0 :
  (forall v i, length v = k -> (i < k)%nat ->
     length (body v i) = k /\ forall a, (a < k)%nat -> dv_get N (body v i) a = if Nat.eqb a i then D a else dv_get N v a) ->
  length v0 = k -> fold_left body (seq 0 k) v0 = tab k D.
Proof.
  intros Hb H0.
  pose (P := fun (i : nat) (v : list T) => length v = k /\ forall a, (a < k)%nat -> (a < i)%nat -> dv_get N v a = D a).
  assert (HP : P (0 + k)%nat (fold_left body (seq 0 k) v0)).
  { apply (fold_seq_inv _ P).
    - split; [exact H0|]. intros a _ H; lia.
    - intros i v Hi (Hl & Hg). destruct (Hb v i Hl ltac:(lia)) as (Hl2 & Hg2). split; [exact Hl2|].
      intros a Ha Hc. rewrite Hg2 by assumption. destruct (Nat.eqb_spec a i); [reflexivity|]. apply Hg; lia. }
  destruct HP as (Hl & Hg). rewrite (list_eq_tab _ k (nzero N) Hl). apply tab_ext. intros a Ha. apply (Hg a Ha). lia.
Qed.

(* LOOP SHAPE 3: for (n = 0; n < k; ++n) body(n), where body replaces the diagonal entry (n,n) by g of it and nothing else *)
Lemma diag_map_fold k (body : dmat (T:=T) -> nat -> dmat (T:=T)) (g : T -> T) M0 :
  (forall M n, dm_shape k k M -> (n < k)%nat ->
     dm_shape k k (body M n) /\
     forall a b, (a < k)%nat -> (b < k)%nat ->
       dm_get N (body M n) a b = if andb (Nat.eqb a n) (Nat.eqb b n) then g (dm_get N M n n) else dm_get N M a b) ->
  dm_shape k k M0 ->
  fold_left body (seq 0 k) M0 = mkdm k (mtab k k (fun a b => if Nat.eqb a b then g (dm_get N M0 a a) else dm_get N M0 a b)).
Proof.
  intros Hb H0.
  pose (P := fun (n : nat) (M : dmat (T:=T)) => dm_shape k k M /\
               forall a b, (a < k)%nat -> (b < k)%nat ->
                 dm_get N M a b = if andb (Nat.eqb a b) (Nat.ltb a n) then g (dm_get N M0 a a) else dm_get N M0 a b).
  assert (HP : P (0 + k)%nat (fold_left body (seq 0 k) M0)).
  { apply (fold_seq_inv _ P).
    - split; [exact H0|]. intros a b _ _. rewrite andb_false_r. reflexivity.
    - intros n M Hn (Hs & Hg). destruct (Hb M n Hs ltac:(lia)) as (Hs2 & Hg2). split; [exact Hs2|].
      intros a b Ha Hb'. rewrite Hg2 by assumption. rewrite !Hg by lia. rewrite Nat.ltb_irrefl, andb_false_r.
      destruct (Nat.eqb_spec a n), (Nat.eqb_spec b n), (Nat.eqb_spec a b), (Nat.ltb_spec a n), (Nat.ltb_spec a (S n));
        cbn [andb]; subst; try reflexivity; try lia. }
  destruct HP as (Hs & Hg). apply dm_shape_ext; [exact Hs|]. intros a b Ha Hb'. rewrite Hg by assumption.
  destruct (Nat.eqb_spec a b), (Nat.ltb_spec a (0 + k)); cbn [andb]; try reflexivity; lia.
Qed.

End Facts.
