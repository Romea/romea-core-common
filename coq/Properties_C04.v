(* Properties_C04.v — C04: rigid registration from correspondences (closed form, SVD) returns the proper rigid motion.
   Statements, closed by [exact <lemma>] or a few lines over the lemmas of the files below, and followed by Print Assumptions.
   Model: KabschModel.v ([rotation_of fixed d cov]: R = V U^T from the SVD oracle of the cross covariance, with the
   determinant correction iff [fixed] = true — the repaired code).  The SVD contract [svd_contract] (LsProofs.v) is an
   explicit premise.  [Re d U V e] = V diag(e) U^T;  [rcost d N S T Q] = sum_{n<N} |Q S_n - T_n|^2 for centred pairs.
   [e_star d U V] = the sign pattern of the repaired code: [elast d] (last direction flipped) iff det(V U^T) < 0, else all ones.
   [is_orth d Q]: the columns of the d x d block of Q are orthonormal.  For a list of pairs (KabschLists.v):
   [p_src pairs n i] / [p_tgt pairs n i] = coordinate i of the n-th source / target, [Sc ps pairs] / [Tc ps pairs] = the same
   minus the model's means, [fcost d pairs R t] = sum_n sum_{i<d} (sum_j R i j s_n j + t i - t_n i)^2 (cost of the rigid
   motion (R, t) on the listed pairs themselves), [scale_pairs c pairs] = every coordinate of every point times c
   (PreconditionedPointSet(points, c) on both sets), [rank_ge_dm1 d N S] = some S_n <> 0 (d = 2) / some S_n x S_m <> 0 (d = 3).
   SOURCE TIE (end of the file): [src_estimate_corr_<p>], [src_estimate_aligned_<p>], [src_find_*_<p>] (gen/SrcKabsch.v) are
   the terms regenerated on every run by translate/tr_C04_kabsch.py from the clang AST of the instantiated members of
   FindRigidTransformationBySVD<P> for P = Vector2d (v2), Vector3d (v3), HomogeneousCoordinates2d (h2),
   HomogeneousCoordinates3d (h3); their first argument is the SVD oracle (Eigen::JacobiSVD).  [KabschLits N] (SrcMat.v): the
   dictionary N reads the source's literal `0` as nzero and `x * (-1)` as -x.  [mcomp N M i j] = entry (i,j) of the rows M. *)
From Coq Require Import Reals List Arith Lia Lra Bool Permutation.
From Romea Require Import Num NumR LinAlgBModel LinAlgBProofs LsProofs KabschModel KabschProofs KabschProper KabschLists KabschPrecond KabschExamples.
From Romea Require Import SrcMat SrcTieC04 SrcTieC04R.
From Romea.gen Require Import SrcKabsch.
Import ListNotations.
Local Open Scope R_scope.

(* R^T R = I for the original and the repaired code, 2D and 3D *)
Theorem C04_kabsch_orthogonal :
  forall svd_of d cov fixed, (d = 2 \/ d = 3)%nat -> svd_contract d cov (svd_of d cov) ->
  is_orthogonal d (rotation_of ROps svd_of fixed d cov).
Proof. exact (fun svd d cov fixed Hd Hc => rotation_orthogonal svd d cov Hc fixed). Qed.
Print Assumptions C04_kabsch_orthogonal.

(* det R = +1 for the repaired code, whatever SVD the oracle returns within its contract (coplanar sets included) *)
Theorem C04_kabsch_proper :
  forall svd_of d cov, (d = 2 \/ d = 3)%nat -> svd_contract d cov (svd_of d cov) ->
  fdet ROps d (mget ROps (rotation_of ROps svd_of true d cov)) = 1.
Proof. exact rotation_proper. Qed.
Print Assumptions C04_kabsch_proper.

(* the ORIGINAL code (determinant correction commented out) is refuted on a coplanar set: cross covariance diag(1,1,0)
   (e.g. the unit square in the plane z = 0 under the identity motion), an SVD within the contract, det R = -1.
   The same oracle with the repaired code gives det R = +1. *)
Theorem C04_kabsch_coplanar_refuted :
  svd_contract 3 cop_cov (cop_svd 3 cop_cov) /\
  fdet ROps 3 (mget ROps (rotation_of ROps cop_svd false 3 cop_cov)) = -1 /\
  fdet ROps 3 (mget ROps (rotation_of ROps cop_svd true 3 cop_cov)) = 1.
Proof.
  split; [exact cop_contract|split].
  - cbn. unfold fdet3. cbn. ring.
  - apply rotation_proper; [now right|exact cop_contract].
Qed.
Print Assumptions C04_kabsch_coplanar_refuted.

(* least-squares optimality: for N centred pairs whose cross covariance is U diag(sg) V^T, R = V U^T has the smallest
   sum of squared residuals among ALL orthogonal matrices *)
Theorem C04_kabsch_least_squares_optimal_orthogonal :
  forall d N (S T U V : nat -> nat -> R) (sg : nat -> R),
  (forall a b, (a < d)%nat -> (b < d)%nat -> Rsum d (fun l => U l a * U l b) = delta a b) ->
  (forall i j, (i < d)%nat -> (j < d)%nat -> Rsum d (fun a => U i a * U j a) = delta i j) ->
  (forall a b, (a < d)%nat -> (b < d)%nat -> Rsum d (fun l => V l a * V l b) = delta a b) ->
  (forall a, (a < d)%nat -> 0 <= sg a) ->
  (forall j i, (j < d)%nat -> (i < d)%nat -> Ccov N S T j i = Cm d U V sg j i) ->
  forall Q, is_orth d Q -> rcost d N S T (Re d U V (fun _ => 1)) <= rcost d N S T Q.
Proof. exact kabsch_optimal. Qed.
Print Assumptions C04_kabsch_least_squares_optimal_orthogonal.

(* the trace of Q C for Q = V diag(e) U^T *)
Theorem C04_kabsch_trace_of_V_diag_e_Ut :
  forall d (U V : nat -> nat -> R) (sg : nat -> R),
  (forall a b, (a < d)%nat -> (b < d)%nat -> Rsum d (fun l => U l a * U l b) = delta a b) ->
  (forall a b, (a < d)%nat -> (b < d)%nat -> Rsum d (fun l => V l a * V l b) = delta a b) ->
  forall e, trQC d U V sg (Re d U V e) = Rsum d (fun a => sg a * e a).
Proof. exact (fun d U V sg HU HV e => trace_Re d U V sg HU HV e). Qed.
Print Assumptions C04_kabsch_trace_of_V_diag_e_Ut.

(* least-squares optimality among PROPER rotations, noisy data included (Umeyama's case: the unconstrained optimum is a
   reflection and sigma_last > 0): for U, V orthogonal, sigma non-negative and non-increasing (the order the SVD contract
   gives), the matrix V diag(e_star) U^T of the repaired code is a proper rotation and no proper rotation has a smaller sum
   of squared residuals.  d = 2 and d = 3. *)
Theorem C04_kabsch_least_squares_optimal_proper :
  forall d N (S T U V : nat -> nat -> R) (sg : nat -> R), (d = 2 \/ d = 3)%nat ->
  (forall a b, (a < d)%nat -> (b < d)%nat -> Rsum d (fun l => U l a * U l b) = delta a b) ->
  (forall i j, (i < d)%nat -> (j < d)%nat -> Rsum d (fun a => U i a * U j a) = delta i j) ->
  (forall a b, (a < d)%nat -> (b < d)%nat -> Rsum d (fun l => V l a * V l b) = delta a b) ->
  (forall i j, (i < d)%nat -> (j < d)%nat -> Rsum d (fun a => V i a * V j a) = delta i j) ->
  (forall a, (a < d)%nat -> 0 <= sg a) ->
  (forall a b, (a <= b)%nat -> (b < d)%nat -> sg b <= sg a) ->
  (forall j i, (j < d)%nat -> (i < d)%nat -> Ccov N S T j i = Cm d U V sg j i) ->
  fdet ROps d (Re d U V (e_star d U V)) = 1 /\
  forall Q, is_orth d Q -> fdet ROps d Q = 1 -> rcost d N S T (Re d U V (e_star d U V)) <= rcost d N S T Q.
Proof.
  exact (fun d N S T U V sg Hd HUtU HUUt HVtV HVVt Hsg Hord HC =>
           conj (Re_star_proper d U V Hd HUtU HVtV)
                (kabsch_optimal_proper d N S T U V sg Hd HUtU HUUt HVtV HVVt Hsg Hord HC)).
Qed.
Print Assumptions C04_kabsch_least_squares_optimal_proper.

(* the same with the determinants explicit: all ones when det V det U = +1, last direction flipped when it is -1 *)
Theorem C04_kabsch_least_squares_optimal_proper_by_determinant :
  forall d N (S T U V : nat -> nat -> R) (sg : nat -> R), (d = 2 \/ d = 3)%nat ->
  (forall a b, (a < d)%nat -> (b < d)%nat -> Rsum d (fun l => U l a * U l b) = delta a b) ->
  (forall i j, (i < d)%nat -> (j < d)%nat -> Rsum d (fun a => U i a * U j a) = delta i j) ->
  (forall a b, (a < d)%nat -> (b < d)%nat -> Rsum d (fun l => V l a * V l b) = delta a b) ->
  (forall i j, (i < d)%nat -> (j < d)%nat -> Rsum d (fun a => V i a * V j a) = delta i j) ->
  (forall a, (a < d)%nat -> 0 <= sg a) ->
  (forall a b, (a <= b)%nat -> (b < d)%nat -> sg b <= sg a) ->
  (forall j i, (j < d)%nat -> (i < d)%nat -> Ccov N S T j i = Cm d U V sg j i) ->
  forall Q, is_orth d Q -> fdet ROps d Q = 1 ->
  (fdet ROps d V * fdet ROps d U = 1 -> rcost d N S T (Re d U V (fun _ => 1)) <= rcost d N S T Q) /\
  (fdet ROps d V * fdet ROps d U = -1 -> rcost d N S T (Re d U V (elast d)) <= rcost d N S T Q).
Proof.
  intros d N S T U V sg Hd HUtU HUUt HVtV HVVt Hsg Hord HC Q HQ HdQ. split; intros H.
  - rewrite <- (e_star_pos d U V Hd H). now apply (kabsch_optimal_proper d N S T U V sg).
  - rewrite <- (e_star_neg d U V Hd H). now apply (kabsch_optimal_proper d N S T U V sg).
Qed.
Print Assumptions C04_kabsch_least_squares_optimal_proper_by_determinant.

(* the algebraic core: for an improper orthogonal M (det = -1) and weights s_0 >= ... >= s_{d-1} >= 0,
   sum_a s_a M_aa <= s_0 + ... + s_{d-2} - s_{d-1}   (3x3: trace M <= 1, from the cofactor identities of O(3)) *)
Theorem C04_kabsch_improper_weighted_trace :
  forall d (M : nat -> nat -> R) (sg : nat -> R), (d = 2 \/ d = 3)%nat ->
  is_orth d M -> fdet ROps d M = -1 ->
  (forall a, (a < d)%nat -> 0 <= sg a) -> (forall a b, (a <= b)%nat -> (b < d)%nat -> sg b <= sg a) ->
  Rsum d (fun a => sg a * M a a) <= Rsum d (fun a => sg a * elast d a).
Proof. exact improper_diag_bound. Qed.
Print Assumptions C04_kabsch_improper_weighted_trace.

(* the model's rotation block (repaired code) is exactly V diag(e_star) U^T ... *)
Theorem C04_kabsch_model_rotation_is_V_diag_estar_Ut :
  forall svd_of d cov, (d = 2 \/ d = 3)%nat ->
    let '(U, _, V) := svd_of d cov in
    forall i j, (i < d)%nat -> (j < d)%nat ->
      mget ROps (rotation_of ROps svd_of true d cov) i j
      = Re d (mget ROps U) (mget ROps V) (e_star d (mget ROps U) (mget ROps V)) i j.
Proof. exact rotation_is_Re_star. Qed.
Print Assumptions C04_kabsch_model_rotation_is_V_diag_estar_Ut.

(* ... hence least-squares optimal among all proper rotations, for any SVD the oracle returns within its contract and any
   N centred pairs whose cross covariance is the matrix handed to the oracle *)
Theorem C04_kabsch_rotation_optimal_among_proper_rotations :
  forall svd_of d cov N (S T : nat -> nat -> R), (d = 2 \/ d = 3)%nat ->
  svd_contract d cov (svd_of d cov) ->
  (forall j i, (j < d)%nat -> (i < d)%nat -> Ccov N S T j i = mget ROps cov j i) ->
  forall Q, is_orth d Q -> fdet ROps d Q = 1 ->
  rcost d N S T (mget ROps (rotation_of ROps svd_of true d cov)) <= rcost d N S T Q.
Proof. exact rotation_of_optimal_proper. Qed.
Print Assumptions C04_kabsch_rotation_optimal_among_proper_rotations.

(* the list sums of the model are the finite sums of the function view: the matrix handed to the SVD by
   [estimate_pairs] is the cross covariance of the pairs centred on the model's means, and these means centre the pairs *)
Theorem C04_kabsch_cross_cov_is_finite_sum :
  forall d ps (pairs : list (list R * list R)),
  let sm := mean_of ROps ps (map fst pairs) in let tm := mean_of ROps ps (map snd pairs) in
  (forall i j, (i < d)%nat -> (j < d)%nat ->
     mget ROps (cross_cov ROps d pairs sm tm) i j = Ccov (length pairs) (Sc ps pairs) (Tc ps pairs) i j) /\
  (forall n i, Sc ps pairs n i = p_src pairs n i - vget ROps sm i) /\
  (forall n i, Tc ps pairs n i = p_tgt pairs n i - vget ROps tm i) /\
  (pairs <> [] -> forall i, (i < ps)%nat ->
     Rsum (length pairs) (fun n => Sc ps pairs n i) = 0 /\ Rsum (length pairs) (fun n => Tc ps pairs n i) = 0).
Proof.
  exact (fun d ps pairs => conj (cross_cov_get d ps pairs)
           (conj (fun n i => eq_refl) (conj (fun n i => eq_refl)
              (fun Hne i Hi => conj (Sc_centred ps pairs i Hi Hne) (Tc_centred ps pairs i Hi Hne))))).
Qed.
Print Assumptions C04_kabsch_cross_cov_is_finite_sum.

(* the output of [estimate_pairs] itself (both estimate_ overloads reduce to it): its linear part is a proper rotation and
   the rigid motion x -> R x + t it returns has the smallest sum of squared residuals on the listed pairs among ALL proper
   rigid motions x -> Q x + tau (rotation and translation), for any SVD within the contract — noisy data included *)
Theorem C04_kabsch_estimate_is_optimal_proper_rotation :
  forall svd_of d ps (pairs : list (list R * list R)),
  (d = 2 \/ d = 3)%nat -> (d <= ps)%nat -> pairs <> [] ->
  let sm := mean_of ROps ps (map fst pairs) in let tm := mean_of ROps ps (map snd pairs) in
  let cov := cross_cov ROps d pairs sm tm in
  svd_contract d cov (svd_of d cov) ->
  let H := estimate_pairs ROps svd_of true d ps pairs in
  (is_orth d (mget ROps H) /\ fdet ROps d (mget ROps H) = 1) /\
  forall Q tau, is_orth d Q -> fdet ROps d Q = 1 ->
    fcost d pairs (mget ROps H) (fun i => mget ROps H i d) <= fcost d pairs Q tau.
Proof.
  exact (fun svd d ps pairs Hd Hps Hne Hc =>
           conj (estimate_is_proper_rotation svd d ps pairs Hd Hc) (estimate_optimal svd d ps pairs Hd Hps Hne Hc)).
Qed.
Print Assumptions C04_kabsch_estimate_is_optimal_proper_rotation.

(* exact data: if T_n = R0 S_n for an orthogonal R0, the unflipped V U^T (Re with all signs 1) maps every centred source
   onto its target — no rank condition: coplanar and even collinear sets included *)
Theorem C04_kabsch_exact_maps_every_point :
  forall d N (S T U V : nat -> nat -> R) (sg : nat -> R),
  (forall a b, (a < d)%nat -> (b < d)%nat -> Rsum d (fun l => U l a * U l b) = delta a b) ->
  (forall i j, (i < d)%nat -> (j < d)%nat -> Rsum d (fun a => U i a * U j a) = delta i j) ->
  (forall a b, (a < d)%nat -> (b < d)%nat -> Rsum d (fun l => V l a * V l b) = delta a b) ->
  (forall a, (a < d)%nat -> 0 <= sg a) ->
  (forall j i, (j < d)%nat -> (i < d)%nat -> Ccov N S T j i = Cm d U V sg j i) ->
  forall R0, is_orth d R0 ->
  (forall n i, (n < N)%nat -> (i < d)%nat -> T n i = Rsum d (fun j => R0 i j * S n j)) ->
  forall n i, (n < N)%nat -> (i < d)%nat -> Rsum d (fun j => Re d U V (fun _ => 1) i j * S n j) = T n i.
Proof.
  intros d N S T U V sg HUtU HUUt HVtV Hsg HC R0 H0 Hex. apply rcost_zero_maps. rewrite <- (rcost_exact d N S T R0 Hex).
  exact (kabsch_optimal d N S T U V sg HUtU HUUt HVtV Hsg HC R0 H0).
Qed.
Print Assumptions C04_kabsch_exact_maps_every_point.

(* the same for the matrix with the last direction flipped (what the repaired code returns when det(V U^T) < 0), when the
   smallest singular value is 0, i.e. the points are coplanar (3D) / collinear (2D): exact recovery on rank-deficient sets *)
Theorem C04_kabsch_exact_recovery_rank_deficient :
  forall d N (S T U V : nat -> nat -> R) (sg : nat -> R),
  (forall a b, (a < d)%nat -> (b < d)%nat -> Rsum d (fun l => U l a * U l b) = delta a b) ->
  (forall i j, (i < d)%nat -> (j < d)%nat -> Rsum d (fun a => U i a * U j a) = delta i j) ->
  (forall a b, (a < d)%nat -> (b < d)%nat -> Rsum d (fun l => V l a * V l b) = delta a b) ->
  (forall a, (a < d)%nat -> 0 <= sg a) ->
  (forall j i, (j < d)%nat -> (i < d)%nat -> Ccov N S T j i = Cm d U V sg j i) ->
  forall R0, is_orth d R0 -> (1 <= d)%nat -> sg (d - 1)%nat = 0 ->
  (forall n i, (n < N)%nat -> (i < d)%nat -> T n i = Rsum d (fun j => R0 i j * S n j)) ->
  forall n i, (n < N)%nat -> (i < d)%nat -> Rsum d (fun j => Re d U V (elast d) i j * S n j) = T n i.
Proof. exact kabsch_exact_maps_flipped. Qed.
Print Assumptions C04_kabsch_exact_recovery_rank_deficient.

(* uniqueness: a proper rotation is determined by its action on a set of rank >= d-1
   (d = 3: two vectors with a non-zero cross product; d = 2: one non-zero vector) *)
Theorem C04_kabsch_proper_rotation_unique :
  forall d N (S A B : nat -> nat -> R),
  is_orth d A -> fdet ROps d A = 1 -> is_orth d B -> fdet ROps d B = 1 -> rank_ge_dm1 d N S ->
  (forall n i, (n < N)%nat -> (i < d)%nat -> Rsum d (fun j => A i j * S n j) = Rsum d (fun j => B i j * S n j)) ->
  forall i j, (i < d)%nat -> (j < d)%nat -> A i j = B i j.
Proof. exact proper_unique_on_data. Qed.
Print Assumptions C04_kabsch_proper_rotation_unique.

(* exact data T_n = R0 S_n, R0 a proper rotation: the repaired code's matrix maps every centred source onto its target in
   BOTH branches (no rank condition, no condition on sigma_last), and IS R0 when the sources have rank >= d-1 *)
Theorem C04_kabsch_exact_recovery :
  forall d N (S T U V : nat -> nat -> R) (sg : nat -> R), (d = 2 \/ d = 3)%nat ->
  (forall a b, (a < d)%nat -> (b < d)%nat -> Rsum d (fun l => U l a * U l b) = delta a b) ->
  (forall i j, (i < d)%nat -> (j < d)%nat -> Rsum d (fun a => U i a * U j a) = delta i j) ->
  (forall a b, (a < d)%nat -> (b < d)%nat -> Rsum d (fun l => V l a * V l b) = delta a b) ->
  (forall i j, (i < d)%nat -> (j < d)%nat -> Rsum d (fun a => V i a * V j a) = delta i j) ->
  (forall a, (a < d)%nat -> 0 <= sg a) ->
  (forall a b, (a <= b)%nat -> (b < d)%nat -> sg b <= sg a) ->
  (forall j i, (j < d)%nat -> (i < d)%nat -> Ccov N S T j i = Cm d U V sg j i) ->
  forall R0, is_orth d R0 -> fdet ROps d R0 = 1 ->
  (forall n i, (n < N)%nat -> (i < d)%nat -> T n i = Rsum d (fun j => R0 i j * S n j)) ->
  (forall n i, (n < N)%nat -> (i < d)%nat -> Rsum d (fun j => Re d U V (e_star d U V) i j * S n j) = T n i) /\
  (rank_ge_dm1 d N S -> forall i j, (i < d)%nat -> (j < d)%nat -> Re d U V (e_star d U V) i j = R0 i j).
Proof.
  exact (fun d N S T U V sg Hd HUtU HUUt HVtV HVVt Hsg Hord HC R0 H0 Hd0 Hex =>
           conj (kabsch_exact_maps_proper d N S T U V sg Hd HUtU HUUt HVtV HVVt Hsg Hord HC R0 H0 Hd0 Hex)
                (fun Hr => kabsch_exact_recovery d N S T U V sg Hd HUtU HUUt HVtV HVVt Hsg Hord HC R0 H0 Hd0 Hr Hex)).
Qed.
Print Assumptions C04_kabsch_exact_recovery.

(* the same for the output of [estimate_pairs]: if every listed target is R0 s + tau0 with R0 a proper rotation and the
   sources are not all collinear (3D; coplanar sets included) / not all coincident (2D), the returned matrix has linear part
   R0 and translation tau0, hence maps every source onto its target *)
Theorem C04_kabsch_estimate_exact_recovery :
  forall svd_of d ps (pairs : list (list R * list R)),
  (d = 2 \/ d = 3)%nat -> (d <= ps)%nat -> pairs <> [] ->
  let sm := mean_of ROps ps (map fst pairs) in let tm := mean_of ROps ps (map snd pairs) in
  let cov := cross_cov ROps d pairs sm tm in
  svd_contract d cov (svd_of d cov) ->
  let H := estimate_pairs ROps svd_of true d ps pairs in
  forall R0 tau0, is_orth d R0 -> fdet ROps d R0 = 1 ->
  rank_ge_dm1 d (length pairs) (Sc ps pairs) ->
  (forall n i, (n < length pairs)%nat -> (i < d)%nat ->
     p_tgt pairs n i = Rsum d (fun j => R0 i j * p_src pairs n j) + tau0 i) ->
  (forall i j, (i < d)%nat -> (j < d)%nat -> mget ROps H i j = R0 i j) /\
  (forall i, (i < d)%nat -> mget ROps H i d = tau0 i) /\
  (forall n i, (n < length pairs)%nat -> (i < d)%nat ->
     Rsum d (fun j => mget ROps H i j * p_src pairs n j) + mget ROps H i d = p_tgt pairs n i).
Proof.
  exact (fun svd d ps pairs Hd Hps Hne Hc R0 tau0 H0 Hd0 Hr Hex =>
           conj (proj1 (estimate_exact_recovery svd d ps pairs Hd Hps Hne Hc R0 tau0 H0 Hd0 Hr Hex))
          (conj (proj2 (estimate_exact_recovery svd d ps pairs Hd Hps Hne Hc R0 tau0 H0 Hd0 Hr Hex))
                (estimate_exact_maps svd d ps pairs Hd Hps Hne Hc R0 tau0 H0 Hd0 Hr Hex))).
Qed.
Print Assumptions C04_kabsch_estimate_exact_recovery.

(* the model's rotation block, original and repaired code, is V diag(e) U^T with e all ones or the last one flipped *)
Theorem C04_kabsch_model_rotation_is_V_diag_e_Ut :
  forall svd_of d cov fixed, svd_contract d cov (svd_of d cov) ->
  exists e, (e = (fun _ => 1) \/ e = elast d) /\
    let '(U, _, V) := svd_of d cov in
    forall i j, (i < d)%nat -> (j < d)%nat ->
      mget ROps (rotation_of ROps svd_of fixed d cov) i j = Re d (mget ROps U) (mget ROps V) e i j.
Proof. exact (fun svd d cov fixed Hc => rotation_cases svd d cov Hc fixed). Qed.
Print Assumptions C04_kabsch_model_rotation_is_V_diag_e_Ut.

(* the four [find] overloads: without preconditioning they are [estimate_pairs] on the aligned / listed pairs; with the same
   scale c on both sets they are [estimate_pairs] on the scaled pairs followed by the division of the translation by c *)
Theorem C04_kabsch_find_overloads_reduce_to_estimate_pairs :
  forall svd_of fixed d ps c (src tgt : list (list R)),
  (length src = length tgt ->
     find_aligned ROps svd_of fixed d ps src tgt = Some (estimate_pairs ROps svd_of fixed d ps (combine src tgt)) /\
     find_aligned_pre ROps svd_of fixed d ps c c src tgt
     = Some (unscale_translation ROps d (estimate_pairs ROps svd_of fixed d ps (scale_pairs c (combine src tgt))) (precond_matrix00 ROps c))) /\
  (forall corr prs, pairs_of_corr src tgt corr = Some prs ->
     find_corr ROps svd_of fixed d ps src tgt corr = Some (estimate_pairs ROps svd_of fixed d ps prs) /\
     find_corr_pre ROps svd_of fixed d ps c c src tgt corr
     = Some (unscale_translation ROps d (estimate_pairs ROps svd_of fixed d ps (scale_pairs c prs)) (precond_matrix00 ROps c))).
Proof.
  intros svd fixed d ps c src tgt. split.
  - intros Hl. unfold find_aligned, find_aligned_pre, estimate_aligned.
    now rewrite !precondition_is_scale, !map_length, Hl, Nat.eqb_refl, combine_scale.
  - intros corr prs Hp. split; [|exact (find_corr_pre_eq svd fixed d ps c src tgt corr prs Hp)].
    unfold find_corr, estimate_corr. now rewrite Hp.
Qed.
Print Assumptions C04_kabsch_find_overloads_reduce_to_estimate_pairs.

(* isotropic preconditioning (scale c <> 0 on both sets): the matrix the preconditioned overloads return is a proper rigid
   motion, least-squares optimal on the ORIGINAL pairs among all proper rigid motions, and on exact data of rank >= d-1 it is
   (R0, tau0) — by [C04_kabsch_estimate_exact_recovery] the same matrix as without preconditioning.  The SVD contract is
   assumed for the matrix actually handed to the oracle (the cross covariance of the scaled pairs). *)
Theorem C04_kabsch_preconditioned_estimate_optimal_and_exact :
  forall svd_of d ps (pairs : list (list R * list R)) c,
  (d = 2 \/ d = 3)%nat -> (d <= ps)%nat -> pairs <> [] -> c <> 0 ->
  let sp := scale_pairs c pairs in
  let cov := cross_cov ROps d sp (mean_of ROps ps (map fst sp)) (mean_of ROps ps (map snd sp)) in
  svd_contract d cov (svd_of d cov) ->
  let H := unscale_translation ROps d (estimate_pairs ROps svd_of true d ps sp) (precond_matrix00 ROps c) in
  (is_orth d (mget ROps H) /\ fdet ROps d (mget ROps H) = 1) /\
  (forall Q tau, is_orth d Q -> fdet ROps d Q = 1 ->
     fcost d pairs (mget ROps H) (fun i => mget ROps H i d) <= fcost d pairs Q tau) /\
  (forall R0 tau0, is_orth d R0 -> fdet ROps d R0 = 1 -> rank_ge_dm1 d (length pairs) (Sc ps pairs) ->
     (forall n i, (n < length pairs)%nat -> (i < d)%nat ->
        p_tgt pairs n i = Rsum d (fun j => R0 i j * p_src pairs n j) + tau0 i) ->
     (forall i j, (i < d)%nat -> (j < d)%nat -> mget ROps H i j = R0 i j) /\ (forall i, (i < d)%nat -> mget ROps H i d = tau0 i)).
Proof.
  exact (fun svd d ps pairs c Hd Hps Hne Hc0 Hc =>
    conj (precond_estimate_is_proper_rotation svd d ps pairs c Hd Hc)
   (conj (precond_estimate_optimal svd d ps pairs c Hd Hps Hne Hc0 Hc)
         (precond_estimate_exact_recovery svd d ps pairs c Hd Hps Hne Hc0 Hc))).
Qed.
Print Assumptions C04_kabsch_preconditioned_estimate_optimal_and_exact.

(* translation column: R s + (tm - R sm) = R (s - sm) + tm *)
Theorem C04_kabsch_translation : forall d (Rm : nat -> nat -> R) (s sm tm : nat -> R) i,
  Rsum d (fun j => Rm i j * s j) + (tm i - Rsum d (fun j => Rm i j * sm j)) = Rsum d (fun j => Rm i j * (s j - sm j)) + tm i.
Proof. exact translation_maps. Qed.
Print Assumptions C04_kabsch_translation.

(* the result does not depend on the order of the correspondences (both estimate_ overloads reduce to [estimate_pairs]) *)
Theorem C04_kabsch_perm_invariant :
  forall svd_of fixed d ps (l l' : list (list R * list R)),
  Permutation l l' -> estimate_pairs ROps svd_of fixed d ps l = estimate_pairs ROps svd_of fixed d ps l'.
Proof. exact estimate_pairs_perm. Qed.
Print Assumptions C04_kabsch_perm_invariant.

(* ---- non-vacuity: the SVD contract is satisfiable (the coplanar witness) and its rotation is orthogonal ---- *)
Example C04_contract_satisfiable : svd_contract 3 cop_cov (cop_svd 3 cop_cov) /\ is_orthogonal 3 (rotation_of ROps cop_svd true 3 cop_cov).
Proof. split; [exact cop_contract|]. apply rotation_orthogonal. exact cop_contract. Qed.

(* the noisy 3D instance of KabschExamples.v: six pairs whose cross covariance is diag(3,2,-1); an SVD within the contract
   with det V det U = -1 and sigma_last = 1 > 0 (the best orthogonal fit is a reflection): all premises of
   [C04_kabsch_estimate_is_optimal_proper_rotation] hold *)
Example C04_noisy_reflection_case_satisfiable :
  svd_contract 3 ex_cov (ex_svd 3 ex_cov) /\
  (fdet ROps 3 (mget ROps [[1;0;0];[0;1;0];[0;0;-1]]) * fdet ROps 3 (mget ROps [[1;0;0];[0;1;0];[0;0;1]]) = -1 /\ 0 < vget ROps [3;2;1] 2) /\
  forall Q tau, is_orth 3 Q -> fdet ROps 3 Q = 1 ->
    fcost 3 ex_pairs (mget ROps (estimate_pairs ROps ex_svd true 3 3 ex_pairs))
                     (fun i => mget ROps (estimate_pairs ROps ex_svd true 3 3 ex_pairs) i 3%nat) <= fcost 3 ex_pairs Q tau.
Proof.
  split; [exact ex_contract|split].
  - split; cbn; unfold fdet3; cbn; lra.
  - apply (estimate_optimal ex_svd 3 3 ex_pairs); [now right|lia|discriminate|exact ex_contract].
Qed.

(* exact coplanar data (unit square in z = 0, quarter turn about z, translation (5,1,7)), an SVD within the contract whose
   V U^T is a reflection: all premises of [C04_kabsch_estimate_exact_recovery] hold and the motion is recovered *)
Example C04_exact_coplanar_recovery_satisfiable :
  svd_contract 3 sq_cov (sq_svd 3 sq_cov) /\ (is_orth 3 sq_R0 /\ fdet ROps 3 sq_R0 = 1) /\
  rank_ge_dm1 3 (length sq_pairs) (Sc 3 sq_pairs) /\
  (forall n i, (n < length sq_pairs)%nat -> (i < 3)%nat ->
     p_tgt sq_pairs n i = Rsum 3 (fun j => sq_R0 i j * p_src sq_pairs n j) + sq_tau0 i) /\
  ((forall i j, (i < 3)%nat -> (j < 3)%nat -> mget ROps (estimate_pairs ROps sq_svd true 3 3 sq_pairs) i j = sq_R0 i j) /\
   (forall i, (i < 3)%nat -> mget ROps (estimate_pairs ROps sq_svd true 3 3 sq_pairs) i 3%nat = sq_tau0 i)).
Proof.
  refine (conj sq_contract (conj sq_R0_proper (conj sq_rank (conj sq_exact _)))).
  apply (estimate_exact_recovery sq_svd 3 3 sq_pairs);
    [now right|lia|discriminate|exact sq_contract|apply sq_R0_proper|apply sq_R0_proper|exact sq_rank|exact sq_exact].
Qed.

(* 2D: the rank and exactness premises on three points under a quarter turn *)
Example C04_exact_2d_satisfiable :
  (is_orth 2 ex2_R0 /\ fdet ROps 2 ex2_R0 = 1) /\ rank_ge_dm1 2 (length ex2_pairs) (Sc 2 ex2_pairs) /\
  (forall n i, (n < length ex2_pairs)%nat -> (i < 2)%nat ->
     p_tgt ex2_pairs n i = Rsum 2 (fun j => ex2_R0 i j * p_src ex2_pairs n j) + 0).
Proof.
  split; [split|split].
  - intros a b Ha Hb. destruct a as [|[|a]]; try lia; destruct b as [|[|b]]; try lia; cbn; unfold delta; cbn; lra.
  - cbn. unfold fdet2, ex2_R0. cbn. lra.
  - exists 0%nat, 0%nat. repeat split; try (cbn; lia). unfold Sc, p_src. cbn. unfold nat_to_T. cbn. lra.
  - intros n i Hn Hi. unfold p_N in Hn. cbn in Hn. destruct n as [|[|[|n]]]; try lia; destruct i as [|[|i]]; try lia; cbn; lra.
Qed.

(* preconditioning: the square scaled by 2 on both sets, an SVD of ITS cross covariance within the contract; the sets are
   aligned lists, so [find_aligned_pre] is covered *)
Example C04_preconditioned_satisfiable :
  svd_contract 3 sq2_cov (sq2_svd 3 sq2_cov) /\ 2 <> 0 /\
  (length (map fst sq_pairs) = length (map snd sq_pairs) /\ combine (map fst sq_pairs) (map snd sq_pairs) = sq_pairs).
Proof. split; [exact sq2_contract|]. split; [lra|]. split; reflexivity. Qed.

(* ================================================================================================================
   SYNTACTIC SOURCE TIE.  The generated terms equal the model functions the theorems above are about, for EVERY numeric
   dictionary with the two literal laws (the reals satisfy them: next theorem) and every SVD oracle.
   Point types: v2 = (d, ps) = (2, 2), v3 = (3, 3), h2 = (2, 3), h3 = (3, 4). *)
Theorem C04_source_tie_literal_laws_hold_over_the_reals : KabschLits ROps.
Proof. exact KabschLits_R. Qed.

(* both private estimate_ overloads: whenever the model is defined (indices in range / sets of equal size) the source's
   term returns the model's matrix *)
Theorem C04_source_tie_estimate :
  forall (T : Type) (N : NumOps T), KabschLits N -> forall svd_of,
  (forall src tgt corr H, estimate_corr N svd_of true 2 2 src tgt corr = Some H -> src_estimate_corr_v2 N (svd_of 2%nat) src tgt corr = H) /\
  (forall src tgt corr H, estimate_corr N svd_of true 3 3 src tgt corr = Some H -> src_estimate_corr_v3 N (svd_of 3%nat) src tgt corr = H) /\
  (forall src tgt corr H, estimate_corr N svd_of true 2 3 src tgt corr = Some H -> src_estimate_corr_h2 N (svd_of 2%nat) src tgt corr = H) /\
  (forall src tgt corr H, estimate_corr N svd_of true 3 4 src tgt corr = Some H -> src_estimate_corr_h3 N (svd_of 3%nat) src tgt corr = H) /\
  (forall src tgt H, estimate_aligned N svd_of true 2 2 src tgt = Some H -> src_estimate_aligned_v2 N (svd_of 2%nat) src tgt = H) /\
  (forall src tgt H, estimate_aligned N svd_of true 3 3 src tgt = Some H -> src_estimate_aligned_v3 N (svd_of 3%nat) src tgt = H) /\
  (forall src tgt H, estimate_aligned N svd_of true 2 3 src tgt = Some H -> src_estimate_aligned_h2 N (svd_of 2%nat) src tgt = H) /\
  (forall src tgt H, estimate_aligned N svd_of true 3 4 src tgt = Some H -> src_estimate_aligned_h3 N (svd_of 3%nat) src tgt = H).
Proof.
  intros T N L svd_of. repeat split.
  - apply corr_tied, (tie_estimate_corr_v2 N L).
  - apply corr_tied, (tie_estimate_corr_v3 N L).
  - apply corr_tied, (tie_estimate_corr_h2 N L).
  - apply corr_tied, (tie_estimate_corr_h3 N L).
  - apply aligned_tied, (tie_estimate_aligned_v2 N L).
  - apply aligned_tied, (tie_estimate_aligned_v3 N L).
  - apply aligned_tied, (tie_estimate_aligned_h2 N L).
  - apply aligned_tied, (tie_estimate_aligned_h3 N L).
Qed.

(* find(PointSet, PointSet, correspondences) and find(PointSet, PointSet) *)
Theorem C04_source_tie_find_plain :
  forall (T : Type) (N : NumOps T), KabschLits N -> forall svd_of,
  (forall src tgt corr H, find_corr N svd_of true 2 2 src tgt corr = Some H -> src_find_corr_v2 N (svd_of 2%nat) src tgt corr = H) /\
  (forall src tgt corr H, find_corr N svd_of true 3 3 src tgt corr = Some H -> src_find_corr_v3 N (svd_of 3%nat) src tgt corr = H) /\
  (forall src tgt corr H, find_corr N svd_of true 2 3 src tgt corr = Some H -> src_find_corr_h2 N (svd_of 2%nat) src tgt corr = H) /\
  (forall src tgt corr H, find_corr N svd_of true 3 4 src tgt corr = Some H -> src_find_corr_h3 N (svd_of 3%nat) src tgt corr = H) /\
  (forall src tgt H, find_aligned N svd_of true 2 2 src tgt = Some H -> src_find_aligned_v2 N (svd_of 2%nat) src tgt = H) /\
  (forall src tgt H, find_aligned N svd_of true 3 3 src tgt = Some H -> src_find_aligned_v3 N (svd_of 3%nat) src tgt = H) /\
  (forall src tgt H, find_aligned N svd_of true 2 3 src tgt = Some H -> src_find_aligned_h2 N (svd_of 2%nat) src tgt = H) /\
  (forall src tgt H, find_aligned N svd_of true 3 4 src tgt = Some H -> src_find_aligned_h3 N (svd_of 3%nat) src tgt = H).
Proof.
  intros T N L svd_of. unfold find_corr, find_aligned. repeat split.
  - apply corr_tied, (tie_find_corr_v2 N L).
  - apply corr_tied, (tie_find_corr_v3 N L).
  - apply corr_tied, (tie_find_corr_h2 N L).
  - apply corr_tied, (tie_find_corr_h3 N L).
  - apply aligned_tied, (tie_find_aligned_v2 N L).
  - apply aligned_tied, (tie_find_aligned_v3 N L).
  - apply aligned_tied, (tie_find_aligned_h2 N L).
  - apply aligned_tied, (tie_find_aligned_h3 N L).
Qed.

(* find(PreconditionedPointSet, PreconditionedPointSet[, correspondences]).  The generated functions take the data members of
   the two sets (get() and getPreconditioningMatrix() are translated from their bodies): the stored points — the model's
   [precondition s pts] — and the preconditioning matrices Ms, Mt, of which the source reads entry (0,0) of the TARGET's
   (the model's [precond_matrix00 stgt]) to un-scale the first d entries of the translation column *)
Theorem C04_source_tie_find_preconditioned :
  forall (T : Type) (N : NumOps T), KabschLits N -> forall svd_of,
  (forall ssrc stgt src tgt corr H Ms Mt, find_corr_pre N svd_of true 2 2 ssrc stgt src tgt corr = Some H -> mcomp N Mt 0 0 = precond_matrix00 N stgt ->
     src_find_pre_corr_v2 N (svd_of 2%nat) (precondition N ssrc src) Ms (precondition N stgt tgt) Mt corr = H) /\
  (forall ssrc stgt src tgt corr H Ms Mt, find_corr_pre N svd_of true 3 3 ssrc stgt src tgt corr = Some H -> mcomp N Mt 0 0 = precond_matrix00 N stgt ->
     src_find_pre_corr_v3 N (svd_of 3%nat) (precondition N ssrc src) Ms (precondition N stgt tgt) Mt corr = H) /\
  (forall ssrc stgt src tgt corr H Ms Mt, find_corr_pre N svd_of true 2 3 ssrc stgt src tgt corr = Some H -> mcomp N Mt 0 0 = precond_matrix00 N stgt ->
     src_find_pre_corr_h2 N (svd_of 2%nat) (precondition N ssrc src) Ms (precondition N stgt tgt) Mt corr = H) /\
  (forall ssrc stgt src tgt corr H Ms Mt, find_corr_pre N svd_of true 3 4 ssrc stgt src tgt corr = Some H -> mcomp N Mt 0 0 = precond_matrix00 N stgt ->
     src_find_pre_corr_h3 N (svd_of 3%nat) (precondition N ssrc src) Ms (precondition N stgt tgt) Mt corr = H) /\
  (forall ssrc stgt src tgt H Ms Mt, find_aligned_pre N svd_of true 2 2 ssrc stgt src tgt = Some H -> mcomp N Mt 0 0 = precond_matrix00 N stgt ->
     src_find_pre_aligned_v2 N (svd_of 2%nat) (precondition N ssrc src) Ms (precondition N stgt tgt) Mt = H) /\
  (forall ssrc stgt src tgt H Ms Mt, find_aligned_pre N svd_of true 3 3 ssrc stgt src tgt = Some H -> mcomp N Mt 0 0 = precond_matrix00 N stgt ->
     src_find_pre_aligned_v3 N (svd_of 3%nat) (precondition N ssrc src) Ms (precondition N stgt tgt) Mt = H) /\
  (forall ssrc stgt src tgt H Ms Mt, find_aligned_pre N svd_of true 2 3 ssrc stgt src tgt = Some H -> mcomp N Mt 0 0 = precond_matrix00 N stgt ->
     src_find_pre_aligned_h2 N (svd_of 2%nat) (precondition N ssrc src) Ms (precondition N stgt tgt) Mt = H) /\
  (forall ssrc stgt src tgt H Ms Mt, find_aligned_pre N svd_of true 3 4 ssrc stgt src tgt = Some H -> mcomp N Mt 0 0 = precond_matrix00 N stgt ->
     src_find_pre_aligned_h3 N (svd_of 3%nat) (precondition N ssrc src) Ms (precondition N stgt tgt) Mt = H).
Proof.
  intros T N L svd_of. repeat split.
  - apply pre_corr_tied, (tie_find_pre_corr_v2 N L).
  - apply pre_corr_tied, (tie_find_pre_corr_v3 N L).
  - apply pre_corr_tied, (tie_find_pre_corr_h2 N L).
  - apply pre_corr_tied, (tie_find_pre_corr_h3 N L).
  - apply pre_aligned_tied, (tie_find_pre_aligned_v2 N L).
  - apply pre_aligned_tied, (tie_find_pre_aligned_v3 N L).
  - apply pre_aligned_tied, (tie_find_pre_aligned_h2 N L).
  - apply pre_aligned_tied, (tie_find_pre_aligned_h3 N L).
Qed.

(* END TO END, over the reals.  [optimal_proper_motion d pairs H] is the conclusion of
   C04_kabsch_estimate_is_optimal_proper_rotation about the matrix H: *)
Theorem C04_source_optimal_proper_motion_means :
  forall d pairs H, optimal_proper_motion d pairs H <->
  ((is_orth d (mget ROps H) /\ fdet ROps d (mget ROps H) = 1) /\
   forall Q tau, is_orth d Q -> fdet ROps d Q = 1 ->
     fcost d pairs (mget ROps H) (fun i => mget ROps H i d) <= fcost d pairs Q tau).
Proof. exact (fun d pairs H => iff_refl _). Qed.

(* the optimality theorem stated directly about the term generated from estimate_(sourcePoints, targetPoints,
   correspondences): for correspondences with indices in range (prs = the listed pairs, not empty) and any SVD within its
   contract for the cross covariance of prs, the matrix the SOURCE's term returns is a proper rigid motion and least-squares
   optimal on prs among all proper rigid motions — all four point types *)
Theorem C04_source_estimate_corr_is_optimal_proper_rotation :
  forall svd_of (src tgt : list (list R)) corr prs, pairs_of_corr src tgt corr = Some prs -> prs <> [] ->
  ((let cov := cross_cov ROps 2 prs (mean_of ROps 2 (map fst prs)) (mean_of ROps 2 (map snd prs)) in svd_contract 2 cov (svd_of 2%nat cov)) ->
     optimal_proper_motion 2 prs (src_estimate_corr_v2 ROps (svd_of 2%nat) src tgt corr)) /\
  ((let cov := cross_cov ROps 3 prs (mean_of ROps 3 (map fst prs)) (mean_of ROps 3 (map snd prs)) in svd_contract 3 cov (svd_of 3%nat cov)) ->
     optimal_proper_motion 3 prs (src_estimate_corr_v3 ROps (svd_of 3%nat) src tgt corr)) /\
  ((let cov := cross_cov ROps 2 prs (mean_of ROps 3 (map fst prs)) (mean_of ROps 3 (map snd prs)) in svd_contract 2 cov (svd_of 2%nat cov)) ->
     optimal_proper_motion 2 prs (src_estimate_corr_h2 ROps (svd_of 2%nat) src tgt corr)) /\
  ((let cov := cross_cov ROps 3 prs (mean_of ROps 4 (map fst prs)) (mean_of ROps 4 (map snd prs)) in svd_contract 3 cov (svd_of 3%nat cov)) ->
     optimal_proper_motion 3 prs (src_estimate_corr_h3 ROps (svd_of 3%nat) src tgt corr)).
Proof.
  exact (fun svd src tgt corr prs E Hne =>
    conj (src_corr_optimal svd 2 2 _ (or_introl eq_refl) (le_n 2) (tie_estimate_corr_v2 ROps KabschLits_R svd) src tgt corr prs E Hne)
   (conj (src_corr_optimal svd 3 3 _ (or_intror eq_refl) (le_n 3) (tie_estimate_corr_v3 ROps KabschLits_R svd) src tgt corr prs E Hne)
   (conj (src_corr_optimal svd 2 3 _ (or_introl eq_refl) (le_S 2 2 (le_n 2)) (tie_estimate_corr_h2 ROps KabschLits_R svd) src tgt corr prs E Hne)
         (src_corr_optimal svd 3 4 _ (or_intror eq_refl) (le_S 3 3 (le_n 3)) (tie_estimate_corr_h3 ROps KabschLits_R svd) src tgt corr prs E Hne)))).
Qed.

(* the same for the term generated from estimate_(sourcePoints, targetPoints) on two sets of equal size *)
Theorem C04_source_estimate_aligned_is_optimal_proper_rotation :
  forall svd_of (src tgt : list (list R)), length src = length tgt -> src <> [] ->
  let prs := combine src tgt in
  ((let cov := cross_cov ROps 2 prs (mean_of ROps 2 (map fst prs)) (mean_of ROps 2 (map snd prs)) in svd_contract 2 cov (svd_of 2%nat cov)) ->
     optimal_proper_motion 2 prs (src_estimate_aligned_v2 ROps (svd_of 2%nat) src tgt)) /\
  ((let cov := cross_cov ROps 3 prs (mean_of ROps 3 (map fst prs)) (mean_of ROps 3 (map snd prs)) in svd_contract 3 cov (svd_of 3%nat cov)) ->
     optimal_proper_motion 3 prs (src_estimate_aligned_v3 ROps (svd_of 3%nat) src tgt)) /\
  ((let cov := cross_cov ROps 2 prs (mean_of ROps 3 (map fst prs)) (mean_of ROps 3 (map snd prs)) in svd_contract 2 cov (svd_of 2%nat cov)) ->
     optimal_proper_motion 2 prs (src_estimate_aligned_h2 ROps (svd_of 2%nat) src tgt)) /\
  ((let cov := cross_cov ROps 3 prs (mean_of ROps 4 (map fst prs)) (mean_of ROps 4 (map snd prs)) in svd_contract 3 cov (svd_of 3%nat cov)) ->
     optimal_proper_motion 3 prs (src_estimate_aligned_h3 ROps (svd_of 3%nat) src tgt)).
Proof.
  exact (fun svd src tgt Hl Hne =>
    conj (src_aligned_optimal svd 2 2 _ (or_introl eq_refl) (le_n 2) (tie_estimate_aligned_v2 ROps KabschLits_R svd) src tgt Hl Hne)
   (conj (src_aligned_optimal svd 3 3 _ (or_intror eq_refl) (le_n 3) (tie_estimate_aligned_v3 ROps KabschLits_R svd) src tgt Hl Hne)
   (conj (src_aligned_optimal svd 2 3 _ (or_introl eq_refl) (le_S 2 2 (le_n 2)) (tie_estimate_aligned_h2 ROps KabschLits_R svd) src tgt Hl Hne)
         (src_aligned_optimal svd 3 4 _ (or_intror eq_refl) (le_S 3 3 (le_n 3)) (tie_estimate_aligned_h3 ROps KabschLits_R svd) src tgt Hl Hne)))).
Qed.

(* and for the term generated from find(PreconditionedPointSet, PreconditionedPointSet, correspondences), both sets
   preconditioned with the same scale c <> 0 (stored points = [precondition c pts], entry (0,0) of the target's matrix =
   [precond_matrix00 c]): the returned matrix is a proper rigid motion, least-squares optimal on the ORIGINAL pairs *)
Theorem C04_source_find_preconditioned_is_optimal_for_the_original_pairs :
  forall svd_of c (src tgt : list (list R)) corr prs Ms Mt, pairs_of_corr src tgt corr = Some prs -> prs <> [] -> c <> 0 ->
  mcomp ROps Mt 0 0 = precond_matrix00 ROps c ->
  let sp := scale_pairs c prs in
  ((let cov := cross_cov ROps 2 sp (mean_of ROps 2 (map fst sp)) (mean_of ROps 2 (map snd sp)) in svd_contract 2 cov (svd_of 2%nat cov)) ->
     optimal_proper_motion 2 prs (src_find_pre_corr_v2 ROps (svd_of 2%nat) (precondition ROps c src) Ms (precondition ROps c tgt) Mt corr)) /\
  ((let cov := cross_cov ROps 3 sp (mean_of ROps 3 (map fst sp)) (mean_of ROps 3 (map snd sp)) in svd_contract 3 cov (svd_of 3%nat cov)) ->
     optimal_proper_motion 3 prs (src_find_pre_corr_v3 ROps (svd_of 3%nat) (precondition ROps c src) Ms (precondition ROps c tgt) Mt corr)) /\
  ((let cov := cross_cov ROps 2 sp (mean_of ROps 3 (map fst sp)) (mean_of ROps 3 (map snd sp)) in svd_contract 2 cov (svd_of 2%nat cov)) ->
     optimal_proper_motion 2 prs (src_find_pre_corr_h2 ROps (svd_of 2%nat) (precondition ROps c src) Ms (precondition ROps c tgt) Mt corr)) /\
  ((let cov := cross_cov ROps 3 sp (mean_of ROps 4 (map fst sp)) (mean_of ROps 4 (map snd sp)) in svd_contract 3 cov (svd_of 3%nat cov)) ->
     optimal_proper_motion 3 prs (src_find_pre_corr_h3 ROps (svd_of 3%nat) (precondition ROps c src) Ms (precondition ROps c tgt) Mt corr)).
Proof.
  exact (fun svd c src tgt corr prs Ms Mt E Hne Hc0 Hm =>
    conj (src_pre_corr_optimal svd 2 2 _ (or_introl eq_refl) (le_n 2) (tie_find_pre_corr_v2 ROps KabschLits_R svd) c src tgt corr prs Ms Mt E Hne Hc0 Hm)
   (conj (src_pre_corr_optimal svd 3 3 _ (or_intror eq_refl) (le_n 3) (tie_find_pre_corr_v3 ROps KabschLits_R svd) c src tgt corr prs Ms Mt E Hne Hc0 Hm)
   (conj (src_pre_corr_optimal svd 2 3 _ (or_introl eq_refl) (le_S 2 2 (le_n 2)) (tie_find_pre_corr_h2 ROps KabschLits_R svd) c src tgt corr prs Ms Mt E Hne Hc0 Hm)
         (src_pre_corr_optimal svd 3 4 _ (or_intror eq_refl) (le_S 3 3 (le_n 3)) (tie_find_pre_corr_h3 ROps KabschLits_R svd) c src tgt corr prs Ms Mt E Hne Hc0 Hm)))).
Qed.

(* one Print Assumptions for the source-tie theorems together (the three dictionary-generic ties are closed under the global
   context; the end-to-end corollaries use the axioms of the real numbers, like the theorems they restate) *)
Definition C04_source_tie_statements :=
  (C04_source_tie_literal_laws_hold_over_the_reals, C04_source_tie_estimate, C04_source_tie_find_plain,
   C04_source_tie_find_preconditioned, C04_source_optimal_proper_motion_means, C04_source_estimate_corr_is_optimal_proper_rotation,
   C04_source_estimate_aligned_is_optimal_proper_rotation, C04_source_find_preconditioned_is_optimal_for_the_original_pairs).
Print Assumptions C04_source_tie_statements.
Definition C04_source_tie_generic_statements := (C04_source_tie_estimate, C04_source_tie_find_plain, C04_source_tie_find_preconditioned).
Print Assumptions C04_source_tie_generic_statements.

(* ---- non-vacuity of the source-tie theorems: the unit square, listed by the correspondences (0,0) .. (3,3): indices in range,
   the listed pairs are sq_pairs, the model is defined, and the SVD contract holds for the cross covariance (sq_contract);
   with the scale 2 on both sets the contract holds for the scaled pairs (sq2_contract) ---- *)
Example C04_source_tie_hypotheses_satisfiable :
  pairs_of_corr (map fst sq_pairs) (map snd sq_pairs) [(0, 0); (1, 1); (2, 2); (3, 3)]%nat = Some sq_pairs /\ sq_pairs <> [] /\
  (exists H, estimate_corr ROps sq_svd true 3 3 (map fst sq_pairs) (map snd sq_pairs) [(0, 0); (1, 1); (2, 2); (3, 3)]%nat = Some H) /\
  (exists H, estimate_aligned ROps sq_svd true 3 3 (map fst sq_pairs) (map snd sq_pairs) = Some H) /\
  (let cov := cross_cov ROps 3 sq_pairs (mean_of ROps 3 (map fst sq_pairs)) (mean_of ROps 3 (map snd sq_pairs)) in
   svd_contract 3 cov (sq_svd 3%nat cov)) /\
  (let sp := scale_pairs 2 sq_pairs in
   let cov := cross_cov ROps 3 sp (mean_of ROps 3 (map fst sp)) (mean_of ROps 3 (map snd sp)) in svd_contract 3 cov (sq2_svd 3%nat cov)) /\
  mcomp ROps [[precond_matrix00 ROps 2; 0; 0; 0]; [0; precond_matrix00 ROps 2; 0; 0]; [0; 0; precond_matrix00 ROps 2; 0]; [0; 0; 0; 1]] 0 0
    = precond_matrix00 ROps 2.
Proof.
  split; [reflexivity|]. split; [discriminate|]. split; [eexists; reflexivity|]. split; [eexists; reflexivity|].
  split; [exact sq_contract|]. split; [exact sq2_contract|reflexivity].
Qed.
