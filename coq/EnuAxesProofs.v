(* EnuAxesProofs.v — the first two columns of the ENU frame are the normalised derivatives of toECEF with
   respect to longitude (east) and latitude (north).  Coquelicot derivatives. *)
From Coq Require Import Reals Lra.
From Coquelicot Require Import Coquelicot.
From Romea Require Import Num NumR GeodesyModel GeodesyProofs EnuModel EnuProofs.
Local Open Scope R_scope.

Definition is_derive3 (f : R -> vec3 (T:=R)) (x : R) (d : vec3 (T:=R)) : Prop :=
  is_derive (fun t => vx (f t)) x (vx d) /\
  is_derive (fun t => vy (f t)) x (vy d) /\
  is_derive (fun t => vz (f t)) x (vz d).

Section Axes.
Variable el : ellipsoid (T:=R).
Hypothesis Ha : 0 < el_a el.
Hypothesis He2 : 0 <= el_e2 el < 1.
Local Notation a := (el_a el).
Local Notation e2 := (el_e2 el).

Lemma east_derivative lat lon h :
  let r := (primeVertical ROps el lat + h) * cos lat in
  is_derive3 (fun l => toECEF ROps el (mkGeo lat l h)) lon
             (mkV3 (r * - sin lon) (r * cos lon) (r * 0)).
Proof.
  intros r. unfold is_derive3, toECEF. cbn [vx vy vz g_lat g_lon g_alt nadd nmul ncos nsin ROps]. fold r.
  split; [|split]; (auto_derive; [exact I|ring]).
Qed.

(* meridional radius of curvature M = a (1-e2) / W^3 *)
Definition meridional (lat : R) : R :=
  a * (1 - e2) / (sqrt (1 - e2 * sin lat * sin lat) * sqrt (1 - e2 * sin lat * sin lat) * sqrt (1 - e2 * sin lat * sin lat)).

Lemma meridional_ge lat : a * (1 - e2) <= meridional lat.
Proof.
  unfold meridional. pose proof (w_pos e2 lat He2) as Wp. pose proof (w_le_1 e2 lat He2) as Wl.
  set (w := sqrt (1 - e2 * sin lat * sin lat)) in *.
  assert (W2 : 0 < w * w <= 1) by nra.
  assert (W3 : 0 < w * w * w <= 1 * 1) by (split; [apply Rmult_lt_0_compat|apply Rmult_le_compat]; lra).
  apply (proj1 (Rle_div_r (a * (1 - e2)) _ (w * w * w) (proj1 W3))).
  rewrite <- (Rmult_1_r (a * (1 - e2))) at 2. apply Rmult_le_compat_l; [nra|lra].
Qed.

(* along a meridian the distance to the polar axis (N + h) cos lat and the height (N (1 - e2) + h) sin lat
   move by (M + h) (- sin lat, cos lat) *)
Lemma meridian_derivative lat h :
  is_derive (fun p => (primeVertical ROps el p + h) * cos p) lat ((meridional lat + h) * - sin lat) /\
  is_derive (fun p => (primeVertical ROps el p * (1 - e2) + h) * sin p) lat ((meridional lat + h) * cos lat).
Proof.
  unfold meridional, primeVertical. cbn [nadd nsub nmul ndiv nsqrt ncos nsin n_one ROps].
  pose proof (w_pos e2 lat He2) as Wp. pose proof (w_sq e2 lat He2) as Ws. pose proof (w2_pos e2 lat He2) as W2.
  pose proof (cos_sq_eq lat) as Cl.
  unfold Rminus in *. set (w := sqrt (1 + - (e2 * sin lat * sin lat))) in *.
  assert (Wn : w <> 0) by lra.
  split; (auto_derive; [repeat split; assumption|]); fold w.
  (* both remainders are polynomial identities modulo w^2 = 1 - e2 sin^2 and cos^2 = 1 - sin^2 *)
  all: set (s := sin lat) in *; set (c := cos lat) in *; clearbody w s c.
  all: field_simplify_eq; [ring [Ws Cl]|lra].
Qed.

Lemma north_derivative lat lon h :
  let m := meridional lat + h in
  is_derive3 (fun p => toECEF ROps el (mkGeo p lon h)) lat
             (mkV3 (m * (- sin lat * cos lon)) (m * (- sin lat * sin lon)) (m * cos lat)).
Proof.
  intros m. destruct (meridian_derivative lat h) as [Dr Dz]. fold m in Dr, Dz.
  unfold is_derive3, toECEF. cbn [vx vy vz g_lat g_lon g_alt nadd nsub nmul ncos nsin n_one ROps]. rewrite <- !Rmult_assoc.
  exact (conj (is_derive_scal_l _ lat _ (cos lon) Dr) (conj (is_derive_scal_l _ lat _ (sin lon) Dr) Dz)).
Qed.

End Axes.

Lemma frame_axes : forall (el : ellipsoid (T:=R)) lat lon h,
  0 < el_a el -> 0 <= el_e2 el < 1 -> - PI / 2 < lat < PI / 2 -> - el_a el * (1 - el_e2 el) < h ->
  let Rm := frame_rotation ROps lat lon in
  col Rm 2 = normal lat lon /\
  (exists r, 0 < r /\
     is_derive3 (fun l => toECEF ROps el (mkGeo lat l h)) lon
                (mkV3 (r * vx (col Rm 0)) (r * vy (col Rm 0)) (r * vz (col Rm 0)))) /\
  (exists m, 0 < m /\
     is_derive3 (fun p => toECEF ROps el (mkGeo p lon h)) lat
                (mkV3 (m * vx (col Rm 1)) (m * vy (col Rm 1)) (m * vz (col Rm 1)))).
Proof.
  intros el lat lon h Ha He2 Hl Hh Rm. split; [reflexivity|]. split.
  - exists ((primeVertical ROps el lat + h) * cos lat). split.
    + apply horizontal_radius_pos; try assumption. nra.
    + exact (east_derivative el lat lon h).
  - exists (meridional el lat + h). split.
    + pose proof (meridional_ge el Ha He2 lat). lra.
    + exact (north_derivative el He2 lat lon h).
Qed.
