(* P2pProofs.v — the point-to-plane estimator model (P2pModel.v) over the reals. *)
From Coq Require Import Reals List Arith Lia Lra Bool Psatz.
From Romea Require Import Num NumR LinAlgBModel LinAlgBProofs LsModel LsProofs LsHistoryProofs P2pModel.
Import ListNotations.
Local Open Scope R_scope.

Local Notation vg := (vget ROps).

(* residual identity, 2D, unknowns x = (tau_x, tau_y, w):  row . x - y = n . ((I + [w]x) s + tau - t) *)
Lemma p2p_residual_identity_2d (s t n : list R) (x : nat -> R) :
  Rsum 3 (fun c => vg (p2p_row ROps 2 s n) c * x c) - p2p_y ROps 2 s t n =
  vg n 0 * ((vg s 0 - x 2%nat * vg s 1) + x 0%nat - vg t 0) + vg n 1 * ((vg s 1 + x 2%nat * vg s 0) + x 1%nat - vg t 1).
Proof. unfold p2p_row, p2p_y. cbn [sumn]. unfold vget. cbn. ring. Qed.

(* 3D, unknowns x = (tau, w):  (I + [w]x) s = s + w x s *)
Lemma p2p_residual_identity_3d (s t n : list R) (x : nat -> R) :
  Rsum 6 (fun c => vg (p2p_row ROps 3 s n) c * x c) - p2p_y ROps 3 s t n =
  vg n 0 * ((vg s 0 + (x 4%nat * vg s 2 - x 5%nat * vg s 1)) + x 0%nat - vg t 0) +
  vg n 1 * ((vg s 1 + (x 5%nat * vg s 0 - x 3%nat * vg s 2)) + x 1%nat - vg t 1) +
  vg n 2 * ((vg s 2 + (x 3%nat * vg s 1 - x 4%nat * vg s 0)) + x 2%nat - vg t 2).
Proof. unfold p2p_row, p2p_y. cbn [sumn]. unfold vget. cbn. ring. Qed.

(* homogeneous types: the extra coordinate contributes (t_w - s_w) n_w = 0 when both points carry the same w *)
Lemma p2p_y_homogeneous d (s t n : list R) : vg s d = vg t d -> p2p_y ROps (S d) s t n = p2p_y ROps d s t n.
Proof. intros H. unfold p2p_y. cbn [sumn]. rsimpl. rewrite H. lra. Qed.

(* isotropic preconditioning scales every stored coordinate of both point sets *)
Definition scaled (c : R) (p : list R) : list R := map (fun x => x * c) p.

Lemma vg_scaled c p i : vg (scaled c p) i = vg p i * c.
Proof.
  unfold scaled, vget. destruct (Nat.lt_ge_cases i (length p)) as [H|H].
  - rewrite (nth_indep _ 0 (0 * c)) by (now rewrite map_length).
    now rewrite (map_nth (fun x => x * c) p 0 i).
  - rewrite !nth_overflow; [cbn; lra|exact H|now rewrite map_length].
Qed.

Section Estimate.
Variable inverse_of : nat -> list (list R) -> list (list R).
Variable svd_of : nat -> list (list R) -> (list (list R) * list R) * list (list R).
Variable fill : R.

Definition tr_rows (d : nat) (triples : list ((list R * list R) * list R)) : list (list R) :=
  map (fun tr : (list R * list R) * list R => p2p_row ROps d (fst (fst tr)) (snd tr)) triples.
Definition tr_ys (ps : nat) (triples : list ((list R * list R) * list R)) : list R :=
  map (fun tr : (list R * list R) * list R => p2p_y ROps ps (fst (fst tr)) (snd (fst tr)) (snd tr)) triples.

(* the design matrix and right-hand side of the property's linearised problem, as functions *)
Definition Jp (d : nat) (triples : list ((list R * list R) * list R)) (r c : nat) : R := vg (nth r (tr_rows d triples) []) c.
Definition Yp (ps : nat) (triples : list ((list R * list R) * list R)) (r : nat) : R := nth r (tr_ys ps triples) 0.

(* every d other than 2 is treated as 3D by the model *)
Lemma p2p_row_length d s n : length (p2p_row ROps d s n) = p2p_k d.
Proof. destruct d as [|[|[|d]]]; reflexivity. Qed.

Lemma tr_rows_length d triples i : (d = 2 \/ d = 3)%nat -> (i < length triples)%nat ->
  length (nth i (tr_rows d triples) []) = p2p_k d.
Proof.
  intros _ Hi. unfold tr_rows. rewrite (nth_map_lt _ triples i (([], []), [])) by exact Hi. apply p2p_row_length.
Qed.

Lemma p2p_load_spec svd_fixed d ps triples st st1 :
  (d = 2 \/ d = 3)%nat -> ready (p2p_k d) st -> (1 <= length triples)%nat ->
  p2p_load ROps inverse_of svd_of fill svd_fixed d ps triples st = Some st1 ->
  ls_wf st1 /\ ls_n st1 = length triples /\ ls_k st1 = p2p_k d /\ ls_A st1 = ls_A st /\ ls_b st1 = ls_b st /\
  ls_est_ok st1 = true /\
  (forall r c, (r < length triples)%nat -> Jf st1 r c = Jp d triples r c) /\
  (forall r, (r < length triples)%nat -> Yf st1 r = Yp ps triples r).
Proof.
  intros Hd Hr Hn. unfold p2p_load.
  set (ws := ls_W (fst (ls_set_data_size ROps fill (length triples) st))).
  fold (tr_rows d triples). fold (tr_ys ps triples).
  destruct (run_load ROps inverse_of svd_of fill svd_fixed (p2p_k d) (length triples) (tr_rows d triples) (tr_ys ps triples) ws st Hr Hn)
    as (s' & outs & Hrun & Hwf & En & Ek & EA & Eb & Eok & Hrows).
  { intros i Hi. now apply tr_rows_length. }
  rewrite Hrun. intros H; inversion H; subst st1.
  repeat (split; [assumption|]). split.
  - intros r c Hlt. unfold Jf, Jp, mget. destruct (Hrows r Hlt) as (-> & _). reflexivity.
  - intros r Hlt. unfold Yf, Yp, vget. destruct (Hrows r Hlt) as (_ & E & _). exact E.
Qed.

Theorem p2p_estimate_correct d ps triples st st2 H :
  (d = 2 \/ d = 3)%nat -> ready (p2p_k d) st -> (1 <= length triples)%nat ->
  p2p_estimate ROps inverse_of svd_of fill true d ps triples st = Some (st2, H) ->
  exists st1 x,
    p2p_load ROps inverse_of svd_of fill true d ps triples st = Some st1 /\
    ls_estimate_svd ROps svd_of st1 = Some (st2, x) /\ H = p2p_scatter ROps d x /\
    (svd_contract (p2p_k d) (ls_JtJ ROps st1) (svd_of (p2p_k d) (ls_JtJ ROps st1)) -> svd_all_above svd_of st1 ->
     let n := length triples in let k := p2p_k d in
     let z := ls_z st1 (svd_pinv ROps k (svd_thr svd_of st1) (svd_of k (ls_JtJ ROps st1))) in
     (forall i, (i < k)%nat -> vg x i = Rsum k (fun l => mget ROps (ls_A st) i l * z l) + vg (ls_b st) i) /\
     (forall i, (i < k)%nat -> grad n k (Jp d triples) (Yp ps triples) z i = 0) /\
     (forall y, cost n k (Jp d triples) (Yp ps triples) z <= cost n k (Jp d triples) (Yp ps triples) y) /\
     (forall y, cost n k (Jp d triples) (Yp ps triples) y = cost n k (Jp d triples) (Yp ps triples) z ->
                forall i, (i < k)%nat -> y i = z i)).
Proof.
  intros Hd Hr Hn He. unfold p2p_estimate in He.
  destruct (p2p_load ROps inverse_of svd_of fill true d ps triples st) as [st1|] eqn:El; [|discriminate].
  destruct (ls_estimate_svd ROps svd_of st1) as [[st2' x]|] eqn:Es; [|discriminate].
  inversion He; subst st2' H. exists st1, x. split; [reflexivity|]. split; [exact Es|]. split; [reflexivity|].
  destruct (p2p_load_spec true d ps triples st st1 Hd Hr Hn El) as (Hwf & En & Ek & EA & Eb & Eok & HJ & HY).
  intros Hc Hab. rewrite <- Ek in Hc. rewrite <- En in HJ, HY.
  apply (estimate_with_inv ROps (pinv_of ROps svd_of true)) in Es. destruct Es as (_ & _ & Ex).
  pose proof (apply_on_rows st1 _ _ _ HJ HY (svd_pinv_is_inverse svd_of st1 Hc Hab)) as P.
  change (ls_apply ROps st1 _) with (ls_apply ROps st1 (pinv_of ROps svd_of true (ls_k st1) (ls_JtJ ROps st1))) in P.
  rewrite <- Ex, En, Ek in P. unfold Af, bf in P. rewrite EA, Eb in P. exact P.
Qed.

End Estimate.
