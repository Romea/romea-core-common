(* DiagFloat.v — C18 at the floating-point level: the check-up thresholds in IEEE-754 binary64 (T = double).
   The SAME generic model (DiagModel.v: eval_equal_to, eval_greater_than, eval_lower_than, eval_reliability) is
   instantiated at the rounded dictionary B64Ops of GridMapFloat.v: the thresholds  cmp - eps  and  cmp + eps  are the
   real operation followed by ONE rounding to nearest-even in FLT(-1074, 53); the comparisons are exact.
   Both instances have carrier R, so the results (new check-up state, returned status) are compared with [=].

   What is proved here and, from it, in Properties_C18.v (t_lo := cmp - eps, t_hi := cmp + eps as real numbers,
   rnd64 t_lo / rnd64 t_hi their doubles):
     * the double verdict is the real verdict against the ROUNDED threshold (the .._ok_nltb lemmas of DiagProofs.v);
     * for a double v, the double and the real evaluation return the same pair (state incl. report, status) EXCEPT
       exactly when v sits on the rounded threshold and the real threshold lies strictly on the other side:
         greater-than : v = rnd64 t_lo and t_lo < v   (real OK, double ERROR/too low)
         lower-than   : v = rnd64 t_hi and v < t_hi   (real OK, double ERROR/too high)
         equal-to     : v = rnd64 t_lo and v < t_lo   (real ERROR/too low,  double OK)  or
                        v = rnd64 t_hi and t_hi < v   (real ERROR/too high, double OK)   — the rounded band is wider;
     * hence agreement as soon as v is more than half an ulp of the threshold away from it (outside_band_neq), and
       for EVERY real v when the thresholds are themselves doubles (.._exact_threshold);
     * the reliability check-up performs no arithmetic: both instances coincide by computation;
     * witnesses of the exceptional points (Examples at the end), all with v = 1 and eps = 2^-55 (1 -+ 2^-55 are not
       doubles and round to 1): cmp = 1 for greater-than and lower-than (real OK, double ERROR), cmp = 1 + 2^-54
       for equal-to (t_lo = 1 + 2^-55 rounds to 1: real ERROR/too low, double OK); and the tie case cmp = 1,
       eps = 2^-54 for greater-than (1 - 2^-54 is halfway between two doubles, ties-to-even gives 1).

   What stays trusted: that the hardware executes each C++ operation as one rounding to nearest-even of the exact
   result (no x87 excess precision, no fused multiply-add contraction), and that the compiler evaluates cmp - eps /
   cmp + eps in double.  The format has no largest exponent: overflow is not modelled; this is harmless on the domain
   |cmp| + |eps| < 2^1023 (every threshold then stays below the binary64 overflow threshold and the unbounded-exponent
   rounding coincides with IEEE-754), which covers every use in the library (rates, reliabilities in [0,1], ...). *)
From Coq Require Import Reals ZArith List Bool Lra Lia.
From Flocq Require Import Core.
From Romea Require Import Num NumR DiagModel DiagProofs GridMapFloat.
Local Open Scope R_scope.

Local Notation fexp64 := (FLT_exp (-1074) 53).
Local Notation bp := (bpow radix2).

Lemma outside_band_neq t v : / 2 * ulp radix2 fexp64 t < Rabs (v - t) -> v <> rnd64 t.
Proof.
  intros H ->. pose proof (error_le_half_ulp radix2 fexp64 (fun z => negb (Z.even z)) t) as E.
  fold (frnd 53 (-1074) t) (rnd64 t) in E. lra.
Qed.

(* a double on one side of t is on the same side of the rounded t, or equal to it *)
Lemma Rltb_rnd64_l t v : b64 v -> Rltb (rnd64 t) v = Rltb t v <-> ~ (v = rnd64 t /\ t < v).
Proof.
  intros Fv. pose proof (rnd64_le t v Fv). pose proof (rnd64_ge t v Fv).
  destruct (Rltb_spec (rnd64 t) v), (Rltb_spec t v); split; try discriminate; try reflexivity; lra.
Qed.

Lemma Rltb_rnd64_r t v : b64 v -> Rltb v (rnd64 t) = Rltb v t <-> ~ (v = rnd64 t /\ v < t).
Proof.
  intros Fv. pose proof (rnd64_le t v Fv). pose proof (rnd64_ge t v Fv).
  destruct (Rltb_spec v (rnd64 t)), (Rltb_spec v t); split; try discriminate; try reflexivity; lra.
Qed.

(* the three evaluations as functions of the outcome of their comparisons *)
Section Forms.
Context {T : Type} (N : NumOps T).
Definition gt_of (c : @checkup T) (v : T) (b : bool) : checkup * status :=
  if b then (set_diag c OK SIsOK (Some v), OK) else (set_diag c ERROR STooLow (Some v), ERROR).
Definition lt_of (c : @checkup T) (v : T) (b : bool) : checkup * status :=
  if b then (set_diag c OK SIsOK (Some v), OK) else (set_diag c ERROR STooHigh (Some v), ERROR).
Definition eq_of (c : @checkup T) (v : T) (b1 b2 : bool) : checkup * status :=
  if b1 then (set_diag c ERROR STooLow (Some v), ERROR)
  else if b2 then (set_diag c ERROR STooHigh (Some v), ERROR)
  else (set_diag c OK SIsOK (Some v), OK).

Lemma greater_form c v : eval_greater_than N c v = gt_of c v (nltb N (nsub N (c_cmp c) (c_eps c)) v).
Proof. unfold eval_greater_than. destruct (nltb N _ _); reflexivity. Qed.

Lemma lower_form c v : eval_lower_than N c v = lt_of c v (nltb N v (nadd N (c_cmp c) (c_eps c))).
Proof. unfold eval_lower_than. destruct (nltb N _ _); reflexivity. Qed.

Lemma equal_form c v :
  eval_equal_to N c v = eq_of c v (nltb N v (nsub N (c_cmp c) (c_eps c))) (nltb N (nadd N (c_cmp c) (c_eps c)) v).
Proof. unfold eval_equal_to. do 2 destruct (nltb N _ _); reflexivity. Qed.

Lemma gt_of_inj c v b1 b2 : gt_of c v b1 = gt_of c v b2 <-> b1 = b2.
Proof. destruct b1, b2; split; (discriminate || reflexivity). Qed.

Lemma lt_of_inj c v b1 b2 : lt_of c v b1 = lt_of c v b2 <-> b1 = b2.
Proof. destruct b1, b2; split; (discriminate || reflexivity). Qed.
End Forms.

(* at the two dictionaries compared here, with the comparisons and the rounding spelled out *)
Lemma greater_b64_form c v : eval_greater_than B64Ops c v = gt_of c v (Rltb (rnd64 (c_cmp c - c_eps c)) v).
Proof. exact (greater_form B64Ops c v). Qed.
Lemma greater_R_form c v : eval_greater_than ROps c v = gt_of c v (Rltb (c_cmp c - c_eps c) v).
Proof. exact (greater_form ROps c v). Qed.
Lemma lower_b64_form c v : eval_lower_than B64Ops c v = lt_of c v (Rltb v (rnd64 (c_cmp c + c_eps c))).
Proof. exact (lower_form B64Ops c v). Qed.
Lemma lower_R_form c v : eval_lower_than ROps c v = lt_of c v (Rltb v (c_cmp c + c_eps c)).
Proof. exact (lower_form ROps c v). Qed.
Lemma equal_b64_form c v :
  eval_equal_to B64Ops c v = eq_of c v (Rltb v (rnd64 (c_cmp c - c_eps c))) (Rltb (rnd64 (c_cmp c + c_eps c)) v).
Proof. exact (equal_form B64Ops c v). Qed.
Lemma equal_R_form c v : eval_equal_to ROps c v = eq_of c v (Rltb v (c_cmp c - c_eps c)) (Rltb (c_cmp c + c_eps c) v).
Proof. exact (equal_form ROps c v). Qed.

Lemma equal_R_char : forall c v,
  snd (eval_equal_to ROps c v) = OK <-> c_cmp c - c_eps c <= v <= c_cmp c + c_eps c.
Proof. exact equal_to_ok_iff. Qed.

Lemma greater_b64_vs_real : forall c v, b64 v ->
  (eval_greater_than B64Ops c v = eval_greater_than ROps c v <->
   ~ (v = rnd64 (c_cmp c - c_eps c) /\ c_cmp c - c_eps c < v)).
Proof. intros c v Fv. rewrite greater_b64_form, greater_R_form, gt_of_inj. apply Rltb_rnd64_l, Fv. Qed.

Lemma lower_b64_vs_real : forall c v, b64 v ->
  (eval_lower_than B64Ops c v = eval_lower_than ROps c v <->
   ~ (v = rnd64 (c_cmp c + c_eps c) /\ v < c_cmp c + c_eps c)).
Proof. intros c v Fv. rewrite lower_b64_form, lower_R_form, lt_of_inj. apply Rltb_rnd64_r, Fv. Qed.

Lemma greater_b64_disagree : forall c v, b64 v ->
  eval_greater_than B64Ops c v <> eval_greater_than ROps c v ->
  eval_greater_than ROps c v = (set_diag c OK SIsOK (Some v), OK) /\
  eval_greater_than B64Ops c v = (set_diag c ERROR STooLow (Some v), ERROR).
Proof.
  intros c v Fv. rewrite greater_b64_form, greater_R_form. pose proof (rnd64_ge (c_cmp c - c_eps c) v Fv).
  destruct (Rltb_spec (rnd64 (c_cmp c - c_eps c)) v), (Rltb_spec (c_cmp c - c_eps c) v); intros K;
    try (now destruct K); [lra|split; reflexivity].
Qed.

Lemma lower_b64_disagree : forall c v, b64 v ->
  eval_lower_than B64Ops c v <> eval_lower_than ROps c v ->
  eval_lower_than ROps c v = (set_diag c OK SIsOK (Some v), OK) /\
  eval_lower_than B64Ops c v = (set_diag c ERROR STooHigh (Some v), ERROR).
Proof.
  intros c v Fv. rewrite lower_b64_form, lower_R_form. pose proof (rnd64_le (c_cmp c + c_eps c) v Fv).
  destruct (Rltb_spec v (rnd64 (c_cmp c + c_eps c))), (Rltb_spec v (c_cmp c + c_eps c)); intros K;
    try (now destruct K); [lra|split; reflexivity].
Qed.

(* equal-to at its two exceptional points: the double verdict is OK, the real one ERROR *)
Lemma equal_b64_low_point : forall c v, c_cmp c - c_eps c <= c_cmp c + c_eps c ->
  v = rnd64 (c_cmp c - c_eps c) -> v < c_cmp c - c_eps c ->
  eval_equal_to B64Ops c v = (set_diag c OK SIsOK (Some v), OK) /\
  eval_equal_to ROps c v = (set_diag c ERROR STooLow (Some v), ERROR).
Proof.
  intros c v He E L. rewrite equal_b64_form, equal_R_form. pose proof (rnd64_mono _ _ He).
  destruct (Rltb_spec v (rnd64 (c_cmp c - c_eps c))), (Rltb_spec (rnd64 (c_cmp c + c_eps c)) v),
    (Rltb_spec v (c_cmp c - c_eps c)); try lra. split; reflexivity.
Qed.

Lemma equal_b64_high_point : forall c v, c_cmp c - c_eps c <= c_cmp c + c_eps c ->
  v = rnd64 (c_cmp c + c_eps c) -> c_cmp c + c_eps c < v ->
  eval_equal_to B64Ops c v = (set_diag c OK SIsOK (Some v), OK) /\
  eval_equal_to ROps c v = (set_diag c ERROR STooHigh (Some v), ERROR).
Proof.
  intros c v He E L. rewrite equal_b64_form, equal_R_form. pose proof (rnd64_mono _ _ He).
  destruct (Rltb_spec v (rnd64 (c_cmp c - c_eps c))), (Rltb_spec (rnd64 (c_cmp c + c_eps c)) v),
    (Rltb_spec v (c_cmp c - c_eps c)), (Rltb_spec (c_cmp c + c_eps c) v); try lra. split; reflexivity.
Qed.

(* the direction "not on a rounded threshold -> same result" needs no sign condition on eps *)
Lemma equal_b64_off_thresholds : forall c v, b64 v ->
  ~ (v = rnd64 (c_cmp c - c_eps c) /\ v < c_cmp c - c_eps c) ->
  ~ (v = rnd64 (c_cmp c + c_eps c) /\ c_cmp c + c_eps c < v) ->
  eval_equal_to B64Ops c v = eval_equal_to ROps c v.
Proof.
  intros c v Fv N1 N2. rewrite equal_b64_form, equal_R_form.
  apply (Rltb_rnd64_r _ v Fv) in N1 as ->. apply (Rltb_rnd64_l _ v Fv) in N2 as ->. reflexivity.
Qed.

Lemma equal_b64_vs_real : forall c v, b64 v -> c_cmp c - c_eps c <= c_cmp c + c_eps c ->
  (eval_equal_to B64Ops c v = eval_equal_to ROps c v <->
   ~ (v = rnd64 (c_cmp c - c_eps c) /\ v < c_cmp c - c_eps c) /\
   ~ (v = rnd64 (c_cmp c + c_eps c) /\ c_cmp c + c_eps c < v)).
Proof.
  intros c v Fv He. split; [|intros [N1 N2]; apply equal_b64_off_thresholds; assumption].
  intros H. split; intros [E L].
  - destruct (equal_b64_low_point c v He E L) as [A B]. rewrite A, B in H. discriminate.
  - destruct (equal_b64_high_point c v He E L) as [A B]. rewrite A, B in H. discriminate.
Qed.

Lemma greater_b64_exact_threshold : forall c v, b64 (c_cmp c - c_eps c) ->
  eval_greater_than B64Ops c v = eval_greater_than ROps c v.
Proof. intros c v F. rewrite greater_b64_form, greater_R_form, (rnd64_id _ F). reflexivity. Qed.

Lemma lower_b64_exact_threshold : forall c v, b64 (c_cmp c + c_eps c) ->
  eval_lower_than B64Ops c v = eval_lower_than ROps c v.
Proof. intros c v F. rewrite lower_b64_form, lower_R_form, (rnd64_id _ F). reflexivity. Qed.

Lemma equal_b64_exact_threshold : forall c v, b64 (c_cmp c - c_eps c) -> b64 (c_cmp c + c_eps c) ->
  eval_equal_to B64Ops c v = eval_equal_to ROps c v.
Proof. intros c v F1 F2. rewrite equal_b64_form, equal_R_form, (rnd64_id _ F1), (rnd64_id _ F2). reflexivity. Qed.

(* witnesses: the premises are satisfiable and each exceptional point is inhabited *)
Definition chk (cmp eps : R) : @checkup R := checkup_init cmp eps diagnostic_default.

(* the tie: 1 - 2^-54 is exactly halfway between the doubles 1 - 2^-53 and 1; ties-to-even gives 1 *)
Lemma rnd64_tie_below_one : rnd64 (1 - bp (-54)) = 1.
Proof.
  assert (E54 : bp (-54) = / 18014398509481984) by (simpl; lra).
  unfold rnd64, frnd, round, F2R, scaled_mantissa. cbn [Fnum Fexp].
  rewrite (cexp_binade 53 (-1074) (1 - bp (-54)) 0).
  2:{ rewrite E54. rewrite Rabs_pos_eq by lra. simpl; lra. }
  2:{ lia. }
  replace ((1 - bp (-54)) * bp (- (0 - 53))) with (IZR 9007199254740991 + / 2).
  2:{ rewrite E54. replace (bp (- (0 - 53))) with 9007199254740992 by (simpl; lra). lra. }
  unfold Znearest.
  rewrite (Zfloor_imp 9007199254740991) by (split; [lra|rewrite plus_IZR; lra]).
  rewrite (Zceil_imp 9007199254740992) by (split; [rewrite minus_IZR; lra|lra]).
  rewrite Rcompare_Eq by lra.
  simpl. lra.
Qed.

(* greater-than, cmp = 1, eps = 2^-54, v = 1 (the tie case: the band is closed on the even side) *)
Example greater_b64_tie_witness :
  let c := chk 1 (bp (-54)) in
  snd (eval_greater_than ROps c 1) = OK /\ snd (eval_greater_than B64Ops c 1) = ERROR.
Proof.
  cbv zeta. assert (P : 0 < bp (-54)) by apply bpow_gt_0. split.
  - apply greater_ok_iff. cbn [chk checkup_init c_cmp c_eps]. lra.
  - rewrite greater_b64_form. cbn [chk checkup_init c_cmp c_eps]. rewrite rnd64_tie_below_one.
    destruct (Rltb_spec 1 1); [lra|reflexivity].
Qed.

(* greater-than, cmp = 1, eps = 2^-55, v = 1: over the reals 1 > 1 - 2^-55 (OK); in double the threshold is 1 and
   1 > 1 fails (ERROR, too low) *)
Example greater_b64_band_witness :
  let c := chk 1 (bp (-55)) in
  b64 1 /\
  snd (eval_greater_than ROps c 1) = OK /\ snd (eval_greater_than B64Ops c 1) = ERROR /\
  eval_greater_than B64Ops c 1 <> eval_greater_than ROps c 1.
Proof.
  cbv zeta. assert (P : 0 < bp (-55)) by apply bpow_gt_0.
  rewrite greater_b64_form, greater_R_form. cbn [chk checkup_init c_cmp c_eps]. rewrite rnd64_to_1 by (simpl; lra).
  destruct (Rltb_spec 1 1), (Rltb_spec (1 - bp (-55)) 1); try lra.
  repeat split; [exact b64_1|discriminate].
Qed.

(* lower-than, cmp = 1, eps = 2^-55, v = 1: over the reals 1 < 1 + 2^-55 (OK); in double 1 < 1 fails (too high) *)
Example lower_b64_band_witness :
  let c := chk 1 (bp (-55)) in
  snd (eval_lower_than ROps c 1) = OK /\ snd (eval_lower_than B64Ops c 1) = ERROR.
Proof.
  cbv zeta. assert (P : 0 < bp (-55)) by apply bpow_gt_0.
  rewrite lower_b64_form, lower_R_form. cbn [chk checkup_init c_cmp c_eps]. rewrite rnd64_to_1 by (simpl; lra).
  destruct (Rltb_spec 1 1), (Rltb_spec 1 (1 + bp (-55))); try lra. split; reflexivity.
Qed.

(* equal-to, cmp = 1 + 2^-54 (not a double), eps = 2^-55, v = 1: t_lo = 1 + 2^-55 > v over the reals (too low);
   in double t_lo rounds to 1 and v = 1 is accepted *)
Example equal_b64_band_witness :
  let c := chk (1 + bp (-54)) (bp (-55)) in
  0 <= c_eps c /\
  snd (eval_equal_to ROps c 1) = ERROR /\ snd (eval_equal_to B64Ops c 1) = OK.
Proof.
  cbv zeta. assert (P : 0 < bp (-55)) by apply bpow_gt_0.
  assert (T : 1 + bp (-54) - bp (-55) = 1 + bp (-55)) by (simpl; lra).
  split; [cbn [chk checkup_init c_eps]; lra|].
  destruct (equal_b64_low_point (chk (1 + bp (-54)) (bp (-55))) 1) as [A B];
    cbn [chk checkup_init c_cmp c_eps]; rewrite ?T, ?rnd64_to_1 by (simpl; lra); try lra.
  rewrite A, B. split; reflexivity.
Qed.

(* the agreement lemmas are not vacuous: v = 2 is far outside the band of the threshold 1 *)
Example greater_b64_outside_band_witness :
  let c := chk 1 0 in
  b64 2 /\ / 2 * ulp radix2 (FLT_exp (-1074) 53) (c_cmp c - c_eps c) < Rabs (2 - (c_cmp c - c_eps c)) /\
  b64 (c_cmp c - c_eps c) /\ b64 (c_cmp c + c_eps c) /\ c_eps c = 0.
Proof.
  cbv zeta. cbn [chk checkup_init c_cmp c_eps]. rewrite Rminus_0_r, Rplus_0_r.
  repeat split; [apply (b64_int 2); lia| |exact b64_1|exact b64_1].
  rewrite (ulp_binade 53 (-1074) 1 1) by (simpl; rewrite ?Rabs_pos_eq; lra || lia).
  replace (2 - 1) with 1 by lra. rewrite Rabs_pos_eq by lra. simpl; lra.
Qed.
