(* Properties_C08.v — C08: kd-tree nearest-neighbour queries agree with exhaustive search.
   Statements, each followed by Print Assumptions; the proofs of any length are in KdTreeProofs.v.
   Model: KdTreeModel.v (nanoflann's KNNResultSet and findNeighbors/searchLevel on an explicit tree).
   All theorems are about the real-number instance ROps.  The tree build is not modelled: [tree_ok] is the
   hypothesis, and the extracted checker [tree_ok_b] (sound, C08_tree_ok_b_sound) is run on every real tree. *)
From Coq Require Import Reals ZArith List Bool Arith Lia Lra Permutation Sorting.Sorted.
From Romea Require Import Num NumR KdTreeModel KdTreeProofs.
From Romea.gen Require Import RepoConstants.
Import ListNotations.
Local Open Scope R_scope.

(* (a) KNNResultSet: after ANY sequence of addPoint on an initialised set of capacity k >= 1, what the caller
   reads (rs_out, ascending) is sorted, has min(k, number of offers) entries, and is a sub-multiset of the offers
   all of whose members are <= every offer left out. *)
Theorem C08_resultset_sorted_k_smallest : forall (k : nat) (offers : list (R * nat)), (1 <= k)%nat ->
  let out := rs_out (fold_left (fun r o => addPoint ROps r (fst o) (snd o)) offers (rs_init k)) in
  StronglySorted (fun a b => fst a <= fst b) out /\
  length out = Nat.min k (length offers) /\
  exists rest, Permutation offers (out ++ rest) /\ forall x y, In x out -> In y rest -> fst x <= fst y.
Proof. exact resultset_sorted_k_smallest. Qed.
Print Assumptions C08_resultset_sorted_k_smallest.

(* (b) lower-bound invariant.  [called q root m0 d0 nd m d]: searchLevel(nd, m, d) is one of the calls that the
   call searchLevel(root, m0, d0) can make (near child with the same arguments; far child with
   mindistsq + cut_dist - dists[idx] and dists[idx] := cut_dist) — whether or not the pruning test lets it happen.
   At every such call mindistsq is the sum of dists and a lower bound of the squared distance from the query to
   every point stored under the node. *)
Theorem C08_search_lower_bound_invariant : forall (dim : nat) (t : kdtree) (q : list R),
  tree_ok dim t -> length q = dim ->
  let '(distsq, dists) := initial_distances ROps q (kd_bbox t) 0 in
  forall nd m d, called q (kd_root t) distsq dists nd m d ->
    m = rsum d /\
    forall pos, In pos (node_positions nd) ->
      m <= sqdist ROps q (point (kd_pts t) (vindex (kd_vind t) pos)).
Proof. exact search_lower_bound_invariant. Qed.
Print Assumptions C08_search_lower_bound_invariant.

(* (c) for every tree meeting the node invariant, every query and every k >= 1 (no overflow of the squared
   distances): the reported (squared distance, index) pairs are ascending, there are min(k, n) of them, and they
   are a sub-multiset of ALL pairs (sqdist q p_j, j), j < n, whose members are <= every pair left out: exactly
   the k smallest squared distances. *)
Theorem C08_knn_correct : forall (dim : nat) (t : kdtree) (q : list R),
  tree_ok dim t -> length q = dim ->
  (forall j, (j < length (kd_pts t))%nat -> sqdist ROps q (point (kd_pts t) j) < nmaxval ROps) ->
  forall k, (1 <= k)%nat ->
  let out := knn ROps t q k in
  let all := map (fun j => (sqdist ROps q (point (kd_pts t) j), j)) (seq 0 (length (kd_pts t))) in
  StronglySorted (fun a b => fst a <= fst b) out /\
  length out = Nat.min k (length all) /\
  exists rest, Permutation all (out ++ rest) /\ forall x y, In x out -> In y rest -> fst x <= fst y.
Proof. exact knn_correct. Qed.
Print Assumptions C08_knn_correct.

(* each reported index is valid and has its reported squared distance *)
Theorem C08_knn_pairs_genuine : forall (dim : nat) (t : kdtree) (q : list R),
  tree_ok dim t -> length q = dim ->
  (forall j, (j < length (kd_pts t))%nat -> sqdist ROps q (point (kd_pts t) j) < nmaxval ROps) ->
  forall k, (1 <= k)%nat ->
  Forall (fun di => (snd di < length (kd_pts t))%nat /\ fst di = sqdist ROps q (point (kd_pts t) (snd di)))
         (knn ROps t q k).
Proof.
  intros dim t q Hok Hq Hmax k _. destruct (knn_k_smallest dim t q Hok Hq Hmax k) as (_ & _ & rest & HP & _).
  apply Forall_forall. intros x Hx. apply in_all_pairs. rewrite HP. apply in_or_app. left. exact Hx.
Qed.
Print Assumptions C08_knn_pairs_genuine.

Theorem C08_knn_indices_distinct : forall (dim : nat) (t : kdtree) (q : list R),
  tree_ok dim t -> length q = dim ->
  (forall j, (j < length (kd_pts t))%nat -> sqdist ROps q (point (kd_pts t) j) < nmaxval ROps) ->
  forall k, (1 <= k)%nat -> NoDup (map snd (knn ROps t q k)).
Proof.
  intros dim t q Hok Hq Hmax k _. destruct (knn_k_smallest dim t q Hok Hq Hmax k) as (_ & _ & rest & HP & _).
  assert (HN : NoDup (map snd (all_pairs t q))) by (unfold all_pairs; rewrite map_map; simpl; rewrite map_id; apply seq_NoDup).
  rewrite HP, map_app in HN. exact (NoDup_app_left _ _ HN).
Qed.
Print Assumptions C08_knn_indices_distinct.

(* k = 1 (findNearestNeighbor): the index of a point at minimal distance, with that squared distance *)
Theorem C08_nn_correct : forall (dim : nat) (t : kdtree) (q : list R),
  tree_ok dim t -> length q = dim ->
  (forall j, (j < length (kd_pts t))%nat -> sqdist ROps q (point (kd_pts t) j) < nmaxval ROps) ->
  exists d i, nn ROps t q = Some (d, i) /\ (i < length (kd_pts t))%nat /\
              d = sqdist ROps q (point (kd_pts t) i) /\
              forall j, (j < length (kd_pts t))%nat -> d <= sqdist ROps q (point (kd_pts t) j).
Proof. exact nn_correct. Qed.
Print Assumptions C08_nn_correct.

(* the extracted checker that is run on every dumped tree implies the hypothesis of the theorems *)
Theorem C08_tree_ok_b_sound : forall (dim : nat) (t : kdtree),
  tree_ok_b ROps dim t = true -> tree_ok dim t.
Proof. exact tree_ok_b_sound. Qed.
Print Assumptions C08_tree_ok_b_sound.

(* constant regenerated from nanoflann.hpp on every run: SearchParams' default eps is 0, so epsError = 1 *)
Theorem C08_search_is_exact : nanoflann_search_eps = 0%Z /\ eps_error ROps = 1.
Proof. split; [reflexivity|exact eps_error_one]. Qed.
Print Assumptions C08_search_is_exact.

(* ---- non-vacuity: a tree meeting tree_ok, and the theorems applied to it ---- *)
Definition ex_tree : kdtree (T:=R) :=
  {| kd_root := Split 0 1 3 (Leaf 0 2) (Leaf 2 3);
     kd_vind := [1; 0; 2]%nat;
     kd_bbox := [(0, 3); (0, 5)];
     kd_pts := [[1; 5]; [0; 0]; [3; 2]] |}.

Example ex_tree_ok : tree_ok 2 ex_tree.
Proof.
  constructor; simpl.
  - lia.
  - reflexivity.
  - apply perm_swap.
  - reflexivity.
  - intros p [<-|[<-|[<-|[]]]]; simpl; lra.
  - repeat split; try lia; try lra.
    + intros pos [<-|[<-|[]]]; unfold coord; simpl; lra.
    + intros pos [<-|[]]; unfold coord; simpl; lra.
Qed.

Example ex_tree_nn : forall q, length q = 2%nat ->
  (forall j, (j < 3)%nat -> sqdist ROps q (point (kd_pts ex_tree) j) < nmaxval ROps) ->
  exists d i, nn ROps ex_tree q = Some (d, i) /\ (i < 3)%nat /\
              forall j, (j < 3)%nat -> d <= sqdist ROps q (point (kd_pts ex_tree) j).
Proof.
  intros q Hq Hm. destruct (C08_nn_correct 2 ex_tree q ex_tree_ok Hq Hm) as (d & i & A & B & _ & C).
  exists d, i. auto.
Qed.

(* the overflow guard is satisfiable: the query (1,1) *)
Example ex_no_overflow : forall j, (j < 3)%nat -> sqdist ROps [1; 1] (point (kd_pts ex_tree) j) < nmaxval ROps.
Proof.
  intros j Hj. apply Rlt_le_trans with 1024; [|exact maxval_big].
  destruct j as [|[|[|j]]]; [| | |lia]; unfold sqdist, point; simpl; unfold nsq; simpl; lra.
Qed.
