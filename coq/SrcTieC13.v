(* SrcTieC13.v — the SYNTACTIC source tie of C13.  gen/SrcGridMap.v is regenerated on every run by
   translate/tr_C13_gridmap.py from the clang AST of the instantiations GridIndexMapping<float|double, 2|3> of
   src/containers/grid/GridIndexMapping.cpp (symbolic execution: Eigen array expressions are read axis by axis, the
   per-axis loop is unrolled, the cell-centre loop becomes the table (size, fun n => centre n)).  Here the generated interval
   constructor is proved to build gm_origin, gm_ncells and the table of gm_centre of GridMapModel.v (tie_ctor_2/3) for EVERY
   numeric dictionary N that reads the literals 0, 1, 0.5 as the model's constants ([LitOK N], SrcEigen.v); that the
   generated computeCellIndexes is gm_index and that the symmetric constructor delegates through gm_sym_lo holds by
   computation alone, for any N, and is stated in Properties_C13.v.  LitOK holds
   at ROps (GridMapProofs.v is about [gm_* ROps]) and at the rounded dictionaries B64Ops / B32Ops (GridMapFloat.v is about
   [gm_* B64Ops], [gm_* B32Ops]): the same generated term, instantiated, is the object of both developments.
   Proofs by computation only: same operations, same order. *)
From Coq Require Import Reals ZArith List Lia Lra.
From Flocq Require Import Core.
From Romea Require Import Num NumR GridMapModel GridMapFloat SrcEigen.
From Romea.gen Require Import SrcGridMap.
Import ListNotations.

Section Tie.
Context {T : Type} (N : NumOps T) (L : LitOK N).

(* one axis of the constructed grid: (numberOfCells, table of centres) *)
Definition model_table (r lo hi : T) : Z * (Z -> T) := (gm_ncells N r lo hi, gm_centre N r (gm_origin N r lo)).

(* the interval constructor.  Outputs: (cellCentersPositionAlongAxes_, cellResolution_, flooredMinimalPositionAlongAxes_,
   numberOfCellsAlongAxes_); free variables: cellResolution, lower (per axis), upper (per axis) *)
Lemma tie_ctor_2 r lo0 lo1 hi0 hi1 :
  src_gm_ctor_2 N r lo0 lo1 hi0 hi1
  = ([model_table r lo0 hi0; model_table r lo1 hi1], r,
     [gm_origin N r lo0; gm_origin N r lo1], [gm_ncells N r lo0 hi0; gm_ncells N r lo1 hi1]).
Proof.
  unfold src_gm_ctor_2, model_table, gm_ncells, gm_origin, gm_centre. cbv zeta.
  rewrite (lit_half N L), (lit_one N L). reflexivity.
Qed.

Lemma tie_ctor_3 r lo0 lo1 lo2 hi0 hi1 hi2 :
  src_gm_ctor_3 N r lo0 lo1 lo2 hi0 hi1 hi2
  = ([model_table r lo0 hi0; model_table r lo1 hi1; model_table r lo2 hi2], r,
     [gm_origin N r lo0; gm_origin N r lo1; gm_origin N r lo2],
     [gm_ncells N r lo0 hi0; gm_ncells N r lo1 hi1; gm_ncells N r lo2 hi2]).
Proof.
  unfold src_gm_ctor_3, model_table, gm_ncells, gm_origin, gm_centre. cbv zeta.
  rewrite (lit_half N L), (lit_one N L). reflexivity.
Qed.

(* computeCellCenterPosition reads the tables; that the constructor's tables hold gm_centre is tie_ctor_2/3 *)
Lemma tie_centre_2 (tab0 tab1 : Z -> T) k0 k1 : src_gm_centre_2 k0 k1 tab0 tab1 = [tab0 k0; tab1 k1].
Proof. reflexivity. Qed.

Lemma tie_centre_3 (tab0 tab1 tab2 : Z -> T) k0 k1 k2 : src_gm_centre_3 k0 k1 k2 tab0 tab1 tab2 = [tab0 k0; tab1 k1; tab2 k2].
Proof. reflexivity. Qed.

Definition tables_of (out : list (Z * (Z -> T)) * T * list T * list Z) : list (Z * (Z -> T)) := fst (fst (fst out)).

(* the in-bounds statement on the generated terms: build the grid with the generated constructor, map a point with the
   generated computeCellIndexes fed with the constructor's outputs; it follows axis by axis from the statement on the model *)
Lemma src_in_bounds_2 r lo0 lo1 hi0 hi1 p0 p1 :
  (0 <= gm_index N r (gm_origin N r lo0) p0 < gm_ncells N r lo0 hi0)%Z ->
  (0 <= gm_index N r (gm_origin N r lo1) p1 < gm_ncells N r lo1 hi1)%Z ->
  let '(tabs, res, orgs, ns) := src_gm_ctor_2 N r lo0 lo1 hi0 hi1 in
  Forall2 (fun i n => (0 <= i < n)%Z) (src_gm_index_2 N p0 p1 res (nth 0 orgs (nzero N)) (nth 1 orgs (nzero N))) ns.
Proof. intros H0 H1. rewrite tie_ctor_2. repeat (apply Forall2_cons; [assumption|]). apply Forall2_nil. Qed.

Lemma src_in_bounds_3 r lo0 lo1 lo2 hi0 hi1 hi2 p0 p1 p2 :
  (0 <= gm_index N r (gm_origin N r lo0) p0 < gm_ncells N r lo0 hi0)%Z ->
  (0 <= gm_index N r (gm_origin N r lo1) p1 < gm_ncells N r lo1 hi1)%Z ->
  (0 <= gm_index N r (gm_origin N r lo2) p2 < gm_ncells N r lo2 hi2)%Z ->
  let '(tabs, res, orgs, ns) := src_gm_ctor_3 N r lo0 lo1 lo2 hi0 hi1 hi2 in
  Forall2 (fun i n => (0 <= i < n)%Z)
    (src_gm_index_3 N p0 p1 p2 res (nth 0 orgs (nzero N)) (nth 1 orgs (nzero N)) (nth 2 orgs (nzero N))) ns.
Proof. intros H0 H1 H2. rewrite tie_ctor_3. repeat (apply Forall2_cons; [assumption|]). apply Forall2_nil. Qed.
End Tie.

(* the dictionaries the C13 theorems use read the literals as the model does *)
Lemma LitOK_Fl prec emin (P : Prec_gt_0 prec) : (2 <= prec)%Z -> (emin <= -1)%Z -> LitOK (FlOps prec emin).
Proof.
  intros Hp He.
  assert (H4 : (4 <= 2 ^ prec)%Z) by (apply (pow_prec_ge prec 2); lia).
  split.
  - cbn [nofZ nzero FlOps]. unfold frnd. apply round_0. auto with typeclass_instances.
  - cbn [nofZ n_one FlOps]. apply (rnd_id prec emin (IZR 1)). apply fmt_int; lia.
  - rewrite (nhalf_fl prec emin Hp He). cbn [nofDec FlOps].
    replace (IZR 5 * powerRZ 10 (-1))%R with (IZR 0 + 1 / 2)%R by (simpl; lra).
    rewrite rnd_id by (apply fmt_int_half; lia). simpl. lra.
Qed.

Lemma LitOK_B64 : LitOK B64Ops.
Proof. unfold B64Ops. apply LitOK_Fl; [now unfold Prec_gt_0 | lia | lia]. Qed.

Lemma LitOK_B32 : LitOK B32Ops.
Proof. unfold B32Ops. apply LitOK_Fl; [now unfold Prec_gt_0 | lia | lia]. Qed.
