(* KabschModel.v — executable model of romea::core::FindRigidTransformationBySVD<PointType> (property C04)
   src/transform/estimation/FindRigidTransformationBySVD.cpp and the scale-only
   PreconditionedPointSet<PointType>::compute(points, scale).        Definitions only.

   A point is the list of its POINT_SIZE coordinates: d (Cartesian) or d+1 (homogeneous, last = w).
   [d] = CARTESIAN_DIM (2 or 3), [ps] = POINT_SIZE.
   Eigen::JacobiSVD is an oracle: the function argument [svd_of] (contract: LsProofs.svd_contract).
   [fixed] = true is the repaired code (determinant correction: if det(V U^T) < 0 the last column of V
   is negated before R = V U^T); [fixed] = false is the original code (correction commented out). *)
From Coq Require Import List Arith Bool ZArith.
From Romea Require Import Num LinAlgBModel.
Import ListNotations.

Section Kabsch.
Context {T : Type} (N : NumOps T).
Variable svd_of : nat -> list (list T) -> (list (list T) * list T) * list (list T).  (* (U, sigma, V) *)

(* accumulate left to right from zero, like "acc += f(x)" in a for loop *)
Definition sum_list {A : Type} (f : A -> T) (l : list A) : T :=
  fold_left (fun acc x => nadd N acc (f x)) l (nzero N).

Definition nat_to_T (n : nat) : T := nofZ N (Z.of_nat n).

(* mean of the listed points: sum / count, coordinate by coordinate *)
Definition mean_of (ps : nat) (pts : list (list T)) : list T :=
  tab ps (fun c => ndiv N (sum_list (fun p => vget N p c) pts) (nat_to_T (length pts))).

(* d x d block of  sum_n (s_n - sm)(t_n - tm)^T  over the paired points *)
Definition cross_cov (d : nat) (pairs : list (list T * list T)) (sm tm : list T) : list (list T) :=
  mtab d d (fun i j =>
    sum_list (fun st : list T * list T =>
                nmul N (nsub N (vget N (fst st) i) (vget N sm i)) (nsub N (vget N (snd st) j) (vget N tm j))) pairs).

(* v.col(d-1) *= -1 *)
Definition negate_last_col (d : nat) (V : list (list T)) : list (list T) :=
  mtab d d (fun i j => if Nat.eqb (S j) d then nneg N (mget N V i j) else mget N V i j).

(* rotation block from the SVD of the cross covariance *)
Definition rotation_of (fixed : bool) (d : nat) (cov : list (list T)) : list (list T) :=
  let '(U, _, V) := svd_of d cov in
  let R0 := mmul N d d d V (mtrans N d d U) in
  if andb fixed (nltb N (fdet N d (mget N R0)) (nzero N))
  then mmul N d d d (negate_last_col d V) (mtrans N d d U)
  else R0.

(* H = Identity; H.block(0,0,d,d) = R; H.block(0,d,ps,1) += tm - H.block(0,0,ps,ps) * sm *)
Definition assemble (d ps : nat) (R : list (list T)) (sm tm : list T) : list (list T) :=
  let Hinit := fun i j => if andb (Nat.ltb i d) (Nat.ltb j d) then mget N R i j else fid N i j in
  mtab (S d) (S d) (fun i j =>
    if andb (Nat.eqb j d) (Nat.ltb i ps)
    then nadd N (Hinit i d) (nsub N (vget N tm i) (sumn N ps (fun l => nmul N (Hinit i l) (vget N sm l))))
    else Hinit i j).

Definition estimate_pairs (fixed : bool) (d ps : nat) (pairs : list (list T * list T)) : list (list T) :=
  let sm := mean_of ps (map fst pairs) in
  let tm := mean_of ps (map snd pairs) in
  assemble d ps (rotation_of fixed d (cross_cov d pairs sm tm)) sm tm.

(* estimate_(sourcePoints, targetPoints, correspondences): indices must be in range (else out-of-bounds read) *)
Definition pairs_of_corr (src tgt : list (list T)) (corr : list (nat * nat)) : option (list (list T * list T)) :=
  if forallb (fun c : nat * nat => andb (Nat.ltb (fst c) (length src)) (Nat.ltb (snd c) (length tgt))) corr
  then Some (map (fun c : nat * nat => (nth (fst c) src [], nth (snd c) tgt [])) corr)
  else None.

Definition estimate_corr (fixed : bool) (d ps : nat) (src tgt : list (list T)) (corr : list (nat * nat))
  : option (list (list T)) :=
  match pairs_of_corr src tgt corr with
  | Some prs => Some (estimate_pairs fixed d ps prs)
  | None => None
  end.

(* estimate_(sourcePoints, targetPoints): asserts equal sizes *)
Definition estimate_aligned (fixed : bool) (d ps : nat) (src tgt : list (list T)) : option (list (list T)) :=
  if Nat.eqb (length src) (length tgt) then Some (estimate_pairs fixed d ps (combine src tgt)) else None.

(* PreconditionedPointSet::compute(points, scale): every stored coordinate (w included) is multiplied by the scale;
   the preconditioning matrix is Identity with the d x d block multiplied by the scale *)
Definition precondition (scale : T) (pts : list (list T)) : list (list T) :=
  map (fun p => map (fun x => nmul N x scale) p) pts.
Definition precond_matrix00 (scale : T) : T := nmul N (n_one N) scale.

(* H.block(0,d,d,1) /= targetPoints.getPreconditioningMatrix()(0,0) *)
Definition unscale_translation (d : nat) (H : list (list T)) (m00 : T) : list (list T) :=
  mtab (S d) (S d) (fun i j => if andb (Nat.eqb j d) (Nat.ltb i d) then ndiv N (mget N H i j) m00 else mget N H i j).

(* the four find overloads *)
Definition find_corr (fixed : bool) (d ps : nat) (src tgt : list (list T)) (corr : list (nat * nat)) :=
  estimate_corr fixed d ps src tgt corr.
Definition find_aligned (fixed : bool) (d ps : nat) (src tgt : list (list T)) :=
  estimate_aligned fixed d ps src tgt.
Definition find_corr_pre (fixed : bool) (d ps : nat) (ssrc stgt : T) (src tgt : list (list T)) (corr : list (nat * nat)) :=
  match estimate_corr fixed d ps (precondition ssrc src) (precondition stgt tgt) corr with
  | Some H => Some (unscale_translation d H (precond_matrix00 stgt))
  | None => None
  end.
Definition find_aligned_pre (fixed : bool) (d ps : nat) (ssrc stgt : T) (src tgt : list (list T)) :=
  match estimate_aligned fixed d ps (precondition ssrc src) (precondition stgt tgt) with
  | Some H => Some (unscale_translation d H (precond_matrix00 stgt))
  | None => None
  end.

End Kabsch.
