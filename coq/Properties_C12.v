(* Properties_C12.v — C12: analytic derivatives and propagated covariances match the maps they describe.
   Real-number instance of AnglesModel.v / PoseCovModel.v.  In order: the true derivatives of the rotation matrix and
   what SmartRotation3D's derivative members hold instead (open finding); the Jacobian that Pose3D operator* builds is
   the derivative of the library's own pose map, angles taken modulo 2 pi, and J*C*J^T is symmetric PSD; the
   least-squares covariance A * inv * A^T * variance; the source ties.
   rot_zyx x y z = Rz(z)*Ry(y)*Rx(x) = SmartRotation3D::R (C10);  dRd?_true = Rz*Ry*dRx, Rz*dRy*Rx, dRz*Ry*Rx with the
   elementary derivative matrices (no identity entry);  sdX/sdY/sdZ (smart_init ...) = the model of the members
   dRdAngleX_/Y_/Z_ exactly as the code fills them;  extraX = Rz*Ry*E00, extraY = Rz*E11*Rx, extraZ = E22*Ry*Rx. *)
From Coq Require Import Reals ZArith Lra Bool.
From Coquelicot Require Import Coquelicot.
From Romea Require Import Num NumR AnglesModel AnglesProofs AnglesRoundtrip PoseCovModel PoseCovProofs DerivProofs PoseJacProofs PoseJacDeriv
  Atan2Deriv PoseJacCharts LsCovContract.
Local Open Scope R_scope.

(* --- the true derivatives of the reported rotation matrix, entry by entry, in each angle --- *)
Theorem C12_dR_true : forall x y z i j,
  is_derive (fun t => mget3 (sR (smart_init ROps t y z)) i j) x (mget3 (dRdX_true x y z) i j) /\
  is_derive (fun t => mget3 (sR (smart_init ROps x t z)) i j) y (mget3 (dRdY_true x y z) i j) /\
  is_derive (fun t => mget3 (sR (smart_init ROps x y t)) i j) z (mget3 (dRdZ_true x y z) i j).
Proof. intros. split; [exact (dR_true_x x y z i j)|split; [exact (dR_true_y x y z i j)|exact (dR_true_z x y z i j)]]. Qed.
Print Assumptions C12_dR_true.

(* --- and the derivative of a rotated vector is that matrix times the vector --- *)
Theorem C12_dRT_true : forall x y z (t : vec3 R) i,
  is_derive (fun a => vget3 (mvmul3 ROps (sR (smart_init ROps a y z)) t) i) x (vget3 (mvmul3 ROps (dRdX_true x y z) t) i) /\
  is_derive (fun a => vget3 (mvmul3 ROps (sR (smart_init ROps x a z)) t) i) y (vget3 (mvmul3 ROps (dRdY_true x y z) t) i) /\
  is_derive (fun a => vget3 (mvmul3 ROps (sR (smart_init ROps x y a)) t) i) z (vget3 (mvmul3 ROps (dRdZ_true x y z) t) i).
Proof.
  intros. split; [|split]; apply mderive_mvmul; [exact (dR_true_x x y z)|exact (dR_true_y x y z)|exact (dR_true_z x y z)].
Qed.
Print Assumptions C12_dRT_true.

(* --- what the code's derivative members are instead: the true derivative plus the identity entry left behind
       (OPEN KNOWN FINDING c12-smartrotation-dRdAngle-identity-leftover; pinned by test_smart_rotation.cpp) --- *)
Theorem C12_dRdX_model_char : forall x y z,
  sdX (smart_init ROps x y z) = madd3 ROps (dRdX_true x y z) (extraX x y z) /\
  sdY (smart_init ROps x y z) = madd3 ROps (dRdY_true x y z) (extraY x y z) /\
  sdZ (smart_init ROps x y z) = madd3 ROps (dRdZ_true x y z) (extraZ x y z).
Proof. exact dRdX_model_char. Qed.
Print Assumptions C12_dRdX_model_char.

Theorem C12_extra_terms : forall x y z,
  extraX x y z = mmul3 ROps (mmul3 ROps (RZ z) (RY y)) E00 /\
  extraY x y z = mmul3 ROps (mmul3 ROps (RZ z) E11) (RX x) /\
  extraZ x y z = mmul3 ROps (mmul3 ROps E22 (RY y)) (RX x) /\
  extraX x y z = mkM3 (cos z * cos y) 0 0  (sin z * cos y) 0 0  (- sin y) 0 0 /\
  extraY x y z = mkM3 0 (- sin z * cos x) (sin z * sin x)  0 (cos z * cos x) (- (cos z * sin x))  0 0 0 /\
  extraZ x y z = mkM3 0 0 0  0 0 0  (- sin y) (cos y * sin x) (cos y * cos x).
Proof. intros. split; [reflexivity|split; [reflexivity|split; [reflexivity|exact (extra_entries x y z)]]]. Qed.

(* the statement "the reported matrices are the derivatives" is false of the faithful model, at every angle triple *)
Theorem C12_dRdX_refuted : exists x y z, sdX (smart_init ROps x y z) <> dRdX_true x y z.
Proof. exists 0, 0, 0. exact (proj1 (dRdX_never_derivative 0 0 0)). Qed.
Theorem C12_dRdX_never_derivative : forall x y z,
  sdX (smart_init ROps x y z) <> dRdX_true x y z /\
  sdY (smart_init ROps x y z) <> dRdY_true x y z /\
  sdZ (smart_init ROps x y z) <> dRdZ_true x y z.
Proof. exact dRdX_never_derivative. Qed.
Print Assumptions C12_dRdX_never_derivative.

(* --- dRTdAngles: columns (true + leftover) * T  (OPEN KNOWN FINDING c12-smartrotation-dRTdAngles-identity-leftover) --- *)
Theorem C12_dRT_model_char : forall x y z (t : vec3 R),
  smart_dRTdAngles ROps (smart_init ROps x y z) t =
  mcols3 (vadd3 ROps (mvmul3 ROps (dRdX_true x y z) t) (mvmul3 ROps (extraX x y z) t))
         (vadd3 ROps (mvmul3 ROps (dRdY_true x y z) t) (mvmul3 ROps (extraY x y z) t))
         (vadd3 ROps (mvmul3 ROps (dRdZ_true x y z) t) (mvmul3 ROps (extraZ x y z) t)).
Proof. exact dRT_model_char. Qed.
Print Assumptions C12_dRT_model_char.

(* --- pose covariance: the ORIGINAL Jacobian (commit 2218971) at the identity transform and a zero-angle pose is
       diag(1,1,1,1,-1,1), so the identity transform flips the sign of the (roll,pitch) covariance
       (fixed: 244d547; the witness is replayed on the implementation by checks/C12.py) --- *)
Theorem C12_pose_cov_identity_refuted :
  pose_J_v0 ROps (mid3 ROps) (mkV3 0 0 0) 4%nat 4%nat <> 1 /\
  gsym 6 Cwit /\ gpsd 6 Cwit /\
  pose_cov ROps (pose_J_v0 ROps (mid3 ROps) (mkV3 0 0 0)) Cwit 3%nat 4%nat = - / 2 /\ Cwit 3%nat 4%nat = / 2.
Proof.
  destruct pose_cov_identity_refuted as [A [B C]]. destruct Cwit_sym_psd as [S P].
  split; [exact A|split; [exact S|split; [exact P|split; [exact B|exact C]]]].
Qed.
Print Assumptions C12_pose_cov_identity_refuted.

(* --- repaired code: the derivative matrices built at the call site are the true derivatives of S = Rz*Ry*Rx --- *)
Theorem C12_pose_dS_true : forall x y z,
  dSdX_of ROps (sR (smart_init ROps x y z)) = dRdX_true x y z /\
  dSdY_of ROps (sR (smart_init ROps x y z)) z = dRdY_true x y z /\
  dSdZ_of ROps (sR (smart_init ROps x y z)) = dRdZ_true x y z.
Proof. exact dSd_of_true. Qed.
Print Assumptions C12_pose_dS_true.

(* --- the derivative of atan2 (Ratan2, the real instance of the dictionary's natan2 = std::atan2) along a differentiable
       path (x(t), y(t)), at every point where atan2 is differentiable at all: off the branch cut {y = 0, x <= 0}
       (origin included).  Proved on the three charts x > 0, y > 0, y < 0.  On the cut atan2 jumps from pi to below -pi/2
       (C12_atan2_cut_jump), so the hypothesis cannot be dropped. --- *)
Theorem C12_atan2_derivative : forall (x y : R -> R) t0 x' y',
  is_derive x t0 x' -> is_derive y t0 y' -> ~ (y t0 = 0 /\ x t0 <= 0) ->
  is_derive (fun t => Ratan2 (y t) (x t)) t0 ((x t0 * y' - y t0 * x') / (x t0 ^ 2 + y t0 ^ 2)).
Proof.
  intros x y t0 x' y' Hx Hy H. evar_last.
  - exact (is_derive_Ratan2 y x t0 y' x' Hy Hx H).
  - replace (x t0 ^ 2 + y t0 ^ 2) with (y t0 * y t0 + x t0 * x t0) by ring. reflexivity.
Qed.
Print Assumptions C12_atan2_derivative.

Theorem C12_atan2_cut_jump : forall x, x < 0 -> Ratan2 0 x = PI /\ forall y, y < 0 -> Ratan2 y x < - PI / 2.
Proof. intros x H. split; [exact (Ratan2_on_cut x H)|intros y Hy; exact (Ratan2_below_cut y x H Hy)]. Qed.

(* --- repaired code: J is the Jacobian of the library's own pose map (position' = l*p + t, angles' = angles of l*Rz*Ry*Rx).
       Position block = l (C12_pose_jacobian_blocks).  Angular block = derivatives in roll, pitch, yaw of the extracted angles
       raw_roll = atan2(M21,M22), raw_pitch = -asin(M20), raw_yaw = atan2(M10,M00) (before between0And2Pi), for EVERY matrix l,
       on every chart of atan2: wherever (M21,M22) and (M10,M00) are off the branch cut of atan2 and |M20| < 1.
       off_cut y x := ~ (y = 0 /\ x <= 0). --- *)
Theorem C12_pose_jacobian_angular : forall l x y z,
  off_cut (m21 (Mrot l x y z)) (m22 (Mrot l x y z)) -> off_cut (m10 (Mrot l x y z)) (m00 (Mrot l x y z)) ->
  Rabs (m20 (Mrot l x y z)) < 1 ->
  let J := pose_J_angular ROps l (mkV3 x y z) in
  (is_derive (fun t => raw_roll (Mrot l t y z)) x (m00 J) /\ is_derive (fun t => raw_pitch (Mrot l t y z)) x (m10 J) /\
   is_derive (fun t => raw_yaw (Mrot l t y z)) x (m20 J)) /\
  (is_derive (fun t => raw_roll (Mrot l x t z)) y (m01 J) /\ is_derive (fun t => raw_pitch (Mrot l x t z)) y (m11 J) /\
   is_derive (fun t => raw_yaw (Mrot l x t z)) y (m21 J)) /\
  (is_derive (fun t => raw_roll (Mrot l x y t)) z (m02 J) /\ is_derive (fun t => raw_pitch (Mrot l x y t)) z (m12 J) /\
   is_derive (fun t => raw_yaw (Mrot l x y t)) z (m22 J)).
Proof. exact raw_angles_jacobian. Qed.
Print Assumptions C12_pose_jacobian_angular.

(* --- the same for the angles the library actually reports, rep_X = between0And2Pi(raw_X) (r2e = rotation3DToEulerAngles
       returns exactly these: C12_reported_angles): ordinary derivatives wherever no reported angle is 0, the only place
       where the [0,2pi) representative jumps.  off_zero y x := ~ (y = 0 /\ 0 <= x).  This covers the branch cut of atan2
       (reported roll or yaw = pi), where the raw angle is not even continuous. --- *)
Theorem C12_reported_angles : forall m, Rabs (m20 m) <= 1 ->
  rotation3DToEulerAngles ROps ROps idR idR m = Some (mkV3 (rep_roll m) (rep_pitch m) (rep_yaw m)) /\
  rep_roll m = between0And2Pi ROps idR idR (raw_roll m) /\ rep_pitch m = between0And2Pi ROps idR idR (raw_pitch m) /\
  rep_yaw m = between0And2Pi ROps idR idR (raw_yaw m).
Proof. intros m H. split; [exact (r2e_reports m H)|repeat split]. Qed.

Theorem C12_pose_jacobian_angular_reported : forall l x y z,
  off_zero (m21 (Mrot l x y z)) (m22 (Mrot l x y z)) -> off_zero (m10 (Mrot l x y z)) (m00 (Mrot l x y z)) ->
  Rabs (m20 (Mrot l x y z)) < 1 -> m20 (Mrot l x y z) <> 0 ->
  let J := pose_J_angular ROps l (mkV3 x y z) in
  (is_derive (fun t => rep_roll (Mrot l t y z)) x (m00 J) /\ is_derive (fun t => rep_pitch (Mrot l t y z)) x (m10 J) /\
   is_derive (fun t => rep_yaw (Mrot l t y z)) x (m20 J)) /\
  (is_derive (fun t => rep_roll (Mrot l x t z)) y (m01 J) /\ is_derive (fun t => rep_pitch (Mrot l x t z)) y (m11 J) /\
   is_derive (fun t => rep_yaw (Mrot l x t z)) y (m21 J)) /\
  (is_derive (fun t => rep_roll (Mrot l x y t)) z (m02 J) /\ is_derive (fun t => rep_pitch (Mrot l x y t)) z (m12 J) /\
   is_derive (fun t => rep_yaw (Mrot l x y t)) z (m22 J)).
Proof.
  intros l x y z H22 H00 H20 Hnz.
  exact (pose_J_angular_jacobian is_derive (fun y x => b02 (Ratan2 y x)) (fun w => b02 (- asin w)) off_zero (fun w => w <> 0)
           (fun y x H => nonzero_norm y x (off_axis_nonzero (fun x => 0 <= x) y x (Rle_refl 0) H))
           is_derive_b02_Ratan2 is_derive_b02_neg_asin l x y z (conj H22 (conj H00 (conj H20 Hnz)))).
Qed.
Print Assumptions C12_pose_jacobian_angular_reported.

(* --- the whole statement on the whole domain of the property: for every rigid transform (l a proper rotation, any t) and
       every pose whose transformed attitude is off gimbal lock (|M20| < 1), EVERY entry (i,j) of the 6x6 matrix J the code
       builds is the partial derivative, in input j, of output i of the model's own pose map
           pose_map l t q = (l*position + t, reported angles of l*Rz*Ry*Rx)      (pose_transform_mean, C12_pose_map_is_model)
       where the three angle outputs are differentiated as points of the circle R/2piZ:
           is_derive_mod2pi f t d := exists g, (near t: f = g modulo 2pi) /\ is_derive g t d
       (for the position rows: ordinary derivatives).  d is unique (C12_derive_mod2pi_unique), and equals the ordinary
       derivative whenever f itself is differentiable.  upd q j s = q with component j replaced by s. --- *)
Theorem C12_pose_map_is_model : forall l t q i,
  pose_map l t q i =
  (let r := pose_transform_mean ROps ROps idR idR l t (mkV3 (q 0%nat) (q 1%nat) (q 2%nat)) (mkV3 (q 3%nat) (q 4%nat) (q 5%nat)) in
   if Nat.ltb i 3 then vget3 (fst r) i else match snd r with Some e => vget3 e (i - 3) | None => 0 end).
Proof. reflexivity. Qed.

Theorem C12_derive_mod2pi_unique : forall f t d1 d2,
  is_derive_mod2pi f t d1 -> is_derive_mod2pi f t d2 -> d1 = d2.
Proof. exact is_derive_mod2pi_unique. Qed.
Theorem C12_derive_mod2pi_of_derive : forall f t d, is_derive f t d -> is_derive_mod2pi f t d.
Proof. exact is_derive_mod2pi_of_derive. Qed.

Theorem C12_pose_jacobian : forall l t q,
  proper_rotation l -> Rabs (m20 (Mrot l (q 3%nat) (q 4%nat) (q 5%nat))) < 1 ->
  let J := pose_J ROps l (mkV3 (q 3%nat) (q 4%nat) (q 5%nat)) in
  forall i j, (i < 6)%nat -> (j < 6)%nat ->
    ((i < 3)%nat -> is_derive (fun s => pose_map l t (upd q j s) i) (q j) (J i j)) /\
    is_derive_mod2pi (fun s => pose_map l t (upd q j s) i) (q j) (J i j).
Proof. exact pose_J_is_jacobian. Qed.   (* assumptions: printed with C12_pose_covariance, which is built on this theorem *)

(* angular block alone, same domain, the nine entries spelled out *)
Theorem C12_pose_jacobian_angular_mod2pi : forall l x y z,
  proper_rotation l -> Rabs (m20 (Mrot l x y z)) < 1 ->
  let J := pose_J_angular ROps l (mkV3 x y z) in
  (is_derive_mod2pi (fun t => rep_roll (Mrot l t y z)) x (m00 J) /\ is_derive_mod2pi (fun t => rep_pitch (Mrot l t y z)) x (m10 J) /\
   is_derive_mod2pi (fun t => rep_yaw (Mrot l t y z)) x (m20 J)) /\
  (is_derive_mod2pi (fun t => rep_roll (Mrot l x t z)) y (m01 J) /\ is_derive_mod2pi (fun t => rep_pitch (Mrot l x t z)) y (m11 J) /\
   is_derive_mod2pi (fun t => rep_yaw (Mrot l x t z)) y (m21 J)) /\
  (is_derive_mod2pi (fun t => rep_roll (Mrot l x y t)) z (m02 J) /\ is_derive_mod2pi (fun t => rep_pitch (Mrot l x y t)) z (m12 J) /\
   is_derive_mod2pi (fun t => rep_yaw (Mrot l x y t)) z (m22 J)).
Proof. exact pose_J_angular_is_jacobian_mod2pi. Qed.   (* used by C12_pose_jacobian: same assumptions *)

(* --- the covariance sentence in one statement: J is that Jacobian, the attached covariance is J*C*J^T entry by entry,
       and it is symmetric / positive semi-definite whenever C is --- *)
Theorem C12_pose_covariance : forall l t q (c : mat R),
  proper_rotation l -> Rabs (m20 (Mrot l (q 3%nat) (q 4%nat) (q 5%nat))) < 1 ->
  let J := pose_J ROps l (mkV3 (q 3%nat) (q 4%nat) (q 5%nat)) in
  let C' := pose_cov ROps J c in
  (forall i j, (i < 6)%nat -> (j < 6)%nat -> is_derive_mod2pi (fun s => pose_map l t (upd q j s) i) (q j) (J i j)) /\
  (forall a b, C' a b = nsum ROps 6 (fun m => nsum ROps 6 (fun k => J a k * c k m) * J b m)) /\
  (gsym 6 c -> gsym 6 C') /\ (gpsd 6 c -> gpsd 6 C').
Proof.
  intros l t q c Hl H20. cbv zeta. split; [|split; [|split]].
  - intros i j Hi Hj. exact (proj2 (pose_J_is_jacobian l t q Hl H20 i j Hi Hj)).
  - intros a b. reflexivity.
  - exact (congruence_sym 6 _ c).
  - exact (congruence_psd 6 _ c).
Qed.
Print Assumptions C12_pose_covariance.

Theorem C12_pose_jacobian_blocks : forall l ori (t p : vec3 R),
  (forall i j, (i < 3)%nat -> (j < 3)%nat -> pose_J ROps l ori i j = mget3 l i j) /\
  (forall i j, (i < 3)%nat -> (j < 3)%nat -> pose_J ROps l ori i (3 + j)%nat = 0 /\ pose_J ROps l ori (3 + i)%nat j = 0) /\
  (forall i j, (i < 3)%nat -> (j < 3)%nat -> pose_J ROps l ori (3 + i)%nat (3 + j)%nat = mget3 (pose_J_angular ROps l ori) i j) /\
  (forall i j, is_derive (fun s => vget3 (vadd3 ROps (mvmul3 ROps l
      (match j with 0%nat => mkV3 s (v1 p) (v2 p) | 1%nat => mkV3 (v0 p) s (v2 p) | _ => mkV3 (v0 p) (v1 p) s end)) t) i)
    (vget3 p j) (mget3 l i j)).
Proof.
  intros l ori t p. unfold pose_J, block6. split; [|split; [|split]].
  - intros i j Hi Hj. rewrite (proj2 (Nat.ltb_lt i 3) Hi), (proj2 (Nat.ltb_lt j 3) Hj). reflexivity.
  - intros i j Hi Hj. rewrite (proj2 (Nat.ltb_lt i 3) Hi), (proj2 (Nat.ltb_lt j 3) Hj). split; reflexivity.
  - intros i j _ _. cbn [Nat.ltb Nat.leb Nat.add Nat.sub]. rewrite !Nat.sub_0_r. reflexivity.
  - exact (pose_J_position l t p).
Qed.
Print Assumptions C12_pose_jacobian_blocks.

(* --- the attached covariance J*C*J^T stays symmetric positive semi-definite, for any J (stated at the size 6
       of a pose; PoseJacProofs.congruence_sym / congruence_psd / congruence_quad are the same at any size) --- *)
Theorem C12_pose_cov_sym_psd : forall (j c : mat R),
  (gsym 6 c -> gsym 6 (pose_cov ROps j c)) /\ (gpsd 6 c -> gpsd 6 (pose_cov ROps j c)) /\
  (forall x, quad 6 (pose_cov ROps j c) x = quad 6 c (jt_apply 6 j x)).
Proof.
  intros j c. split; [exact (congruence_sym 6 j c)|split; [exact (congruence_psd 6 j c)|exact (congruence_quad 6 j c)]].
Qed.
Print Assumptions C12_pose_cov_sym_psd.

(* --- least squares: for a diagonal preconditioner A the reported matrix Ac * inv * Ac^T * variance has
       entry (i,j) = variance * A_ii * inv_ij * A_jj; inv = inverseJtJ_ is the oracle argument
       (contract inv * J^T J = I, checked at run time on the model side, by rational arithmetic on the implementation side) --- *)
Theorem C12_ls_covariance : forall n (a inv : mat R) v i j, gdiagonal n a -> (i < n)%nat -> (j < n)%nat ->
  ls_covariance ROps n a inv v i j = v * (a i i * inv i j * a j j) /\
  ls_covariance ROps n a inv v i j = gscale ROps (gmul ROps n (gmul ROps n a inv) (gtrans a)) v i j.
Proof. exact ls_covariance_diag. Qed.
Print Assumptions C12_ls_covariance.

(* --- ... and with the contract of that oracle argument stated (ls_inv_contract n inv N: inv * N = I on indices < n, N = J^T J
       built by ls_JtJ from the m x n design matrix), the reported matrix with the preconditioner removed on both sides is
       variance times the inverse normal matrix:  A^-1 * cov * A^-1 * (J^T J) = variance * I  (a_ii <> 0).
       The contract determines inv whenever J^T J is invertible (C12_ls_inverse_unique). --- *)
Theorem C12_ls_covariance_inverse_normal : forall m n (jac a inv : mat R) v,
  gdiagonal n a -> (forall i, (i < n)%nat -> a i i <> 0) ->
  ls_inv_contract n inv (ls_JtJ ROps m n jac) ->
  forall i k, (i < n)%nat -> (k < n)%nat ->
    nsum ROps n (fun j => ls_covariance ROps n a inv v i j / (a i i * a j j) * ls_JtJ ROps m n jac j k) =
    if Nat.eqb i k then v else 0.
Proof. exact ls_covariance_inverse_normal. Qed.
Print Assumptions C12_ls_covariance_inverse_normal.

Theorem C12_ls_inverse_unique : forall n (inv1 inv2 nm rinv : mat R),
  ls_inv_contract n inv1 nm -> ls_inv_contract n inv2 nm ->
  (forall i k, (i < n)%nat -> (k < n)%nat -> nsum ROps n (fun r => nm i r * rinv r k) = if Nat.eqb i k then 1 else 0) ->
  forall i k, (i < n)%nat -> (k < n)%nat -> inv1 i k = inv2 i k.
Proof. exact ls_inv_contract_unique. Qed.

(* --- non-vacuity --- *)
Example C12_ex_ls_contract :   (* one unknown, J = (2), J^T J = 4, inv = 1/4, preconditioner 3 *)
  ls_inv_contract 1 (fun _ _ => / 4) (ls_JtJ ROps 1 1 (fun _ _ => 2)) /\
  gdiagonal 1 (fun _ _ => 3) /\ (forall i, (i < 1)%nat -> (fun _ _ : nat => 3) i i <> 0).
Proof. exact ex_ls_contract. Qed.
Example C12_ex_jacobian_hyp :   (* identity transform, zero angles *)
  0 < m22 (Mrot (mid3 ROps) 0 0 0) /\ 0 < m00 (Mrot (mid3 ROps) 0 0 0) /\ Rabs (m20 (Mrot (mid3 ROps) 0 0 0)) < 1.
Proof.
  unfold Mrot. rewrite mmul3_id_l, rot_zyx_entries. cbn [m00 m20 m22]. rewrite sin_0, cos_0, Ropp_0, Rabs_R0. lra.
Qed.
Example C12_ex_second_quadrant :   (* identity transform, roll = yaw = 2pi/3: off the cut, outside the old chart *)
  let m := Mrot (mid3 ROps) (2 * (PI / 3)) 0 (2 * (PI / 3)) in
  off_cut (m21 m) (m22 m) /\ off_cut (m10 m) (m00 m) /\ Rabs (m20 m) < 1 /\ m22 m < 0 /\ m00 m < 0.
Proof.
  cbv zeta. unfold Mrot. rewrite mmul3_id_l, rot_zyx_entries. cbn [m00 m10 m20 m21 m22].
  rewrite sin_0, cos_0, cos_2PI3, sin_2PI3, Ropp_0, Rabs_R0.
  assert (0 < sqrt 3) by (apply sqrt_lt_R0; lra).
  repeat split; try lra; apply off_cut_cases; right; left; lra.
Qed.
Example C12_ex_on_cut :   (* roll = yaw = pi, pitch = pi/6: on the cut of atan2; the reported-angle theorems apply *)
  let m := Mrot (mid3 ROps) PI (PI / 6) PI in
  ~ off_cut (m21 m) (m22 m) /\ ~ off_cut (m10 m) (m00 m) /\
  off_zero (m21 m) (m22 m) /\ off_zero (m10 m) (m00 m) /\ Rabs (m20 m) < 1 /\ m20 m <> 0.
Proof.
  cbv zeta. unfold Mrot. rewrite mmul3_id_l, rot_zyx_entries. cbn [m00 m10 m20 m21 m22].
  rewrite sin_PI, cos_PI, sin_PI6, cos_PI6.
  assert (0 < sqrt 3) by (apply sqrt_lt_R0; lra).
  split; [|split; [|split; [|split; [|split]]]].
  - intros H0. apply H0. split; lra.
  - intros H0. apply H0. split; lra.
  - intros [_ L]. lra.
  - intros [_ L]. lra.
  - apply Rabs_def1; lra.
  - lra.
Qed.
Example C12_ex_rigid : proper_rotation (mid3 ROps).
Proof. exact proper_id. Qed.
Example C12_ex_diagonal : gdiagonal 2 (fun i j => if Nat.eqb i j then 3 else 0).
Proof. intros i j _ _ H. apply Nat.eqb_neq in H. rewrite H. reflexivity. Qed.

(* --- least squares, ANY configured preconditioner (after the repair 870e444: Ac * inv * Ac^T * variance) --- *)
From Romea Require Import LsCovGeneral.
(* the reported matrix is variance * A * inv * A^T — the covariance of x = A z + b when Cov(z) = variance * inv — for
   every matrix A, symmetric or not *)
Theorem C12_ls_covariance_general : forall n (a inv : mat R) v i j,
  ls_covariance ROps n a inv v i j = v * rsum n (fun q => rsum n (fun p => a i p * inv p q) * a j q) /\
  ls_covariance ROps n a inv v = gscale ROps (gmul ROps n (gmul ROps n a inv) (gtrans a)) v.
Proof. intros. split; [unfold ls_covariance, gscale, gmul, gtrans; rcbn; ring|reflexivity]. Qed.
Print Assumptions C12_ls_covariance_general.

(* with the oracle contract inv * (J^T J) = I and any left inverse B of A, stripping the preconditioner leaves the data
   variance times the inverse normal matrix:  (B * cov * B^T) * (J^T J) = variance * I *)
Theorem C12_ls_covariance_inverse_normal_general : forall m n (jac a b inv : mat R) v,
  (forall i s, (i < n)%nat -> (s < n)%nat -> gmul ROps n b a i s = delta i s) ->
  ls_inv_contract n inv (ls_JtJ ROps m n jac) ->
  forall i k, (i < n)%nat -> (k < n)%nat ->
    gmul ROps n (gmul ROps n (gmul ROps n b (ls_covariance ROps n a inv v)) (gtrans b)) (ls_JtJ ROps m n jac) i k
    = if Nat.eqb i k then v else 0.
Proof. exact ls_covariance_inverse_normal_general. Qed.
Print Assumptions C12_ls_covariance_inverse_normal_general.

(* the code before the repair (Ac^T * inv * Ac) reports a different matrix for a non-symmetric preconditioner: the shear
   A = [[1,1],[0,1]] with inv = I and variance 1 gives entry (0,0) = 1 instead of 2 (replayed on the implementation:
   checks/C12.py, group "least-squares covariance", cases "lsg") *)
Theorem C12_ls_covariance_transposed_refuted :
  exists (a inv : mat R),
    ls_covariance_old ROps 2 a inv 1 0%nat 0%nat <> gscale ROps (gmul ROps 2 (gmul ROps 2 a inv) (gtrans a)) 1 0%nat 0%nat.
Proof.
  exists (fun i j => match i, j with 1%nat, 0%nat => 0 | _, _ => 1 end), (fun i j => if Nat.eqb i j then 1 else 0).
  unfold ls_covariance_old, gscale, gmul, gtrans. cbn. lra.
Qed.
Print Assumptions C12_ls_covariance_transposed_refuted.

Example C12_ex_ls_general_contract :
  (forall i s, (i < 2)%nat -> (s < 2)%nat -> gmul ROps 2 ex_shear_inv ex_shear i s = delta i s) /\
  ls_inv_contract 2 (fun i j => delta i j) (ls_JtJ ROps 2 2 (fun i j => delta i j)) /\
  ex_shear 0%nat 1%nat <> ex_shear 1%nat 0%nat.
Proof. exact ex_ls_general_contract. Qed.

(* ================= SYNTACTIC SOURCE TIE of the matrix code (translate/eigensym.py, translate/tr_C12_eigensym.py) =================
   gen/SrcEigenC12.v is regenerated on every run from the clang AST of src/transform/SmartRotation3D.cpp and
   src/geometry/Pose3D.cpp by a symbolic evaluator for small fixed-size Eigen expressions: the statements are executed over
   matrices of scalar terms (element writes on the Identity / Zero initial values of the constructor, products, comma
   initialisers with column / row blocks, cross products, the unrolled loop over k, block assignment, transpose).  The
   theorems below say that those terms are the models every other theorem of this file is about (real instance). *)
From Romea Require Import SrcTieC12 SrcTieC12Jac.
From Romea.gen Require Import SrcFunsC10 SrcEigenC12.
From Coq Require Import List String.
Import ListNotations.

(* --- SmartRotation3D(x,y,z) = default constructor ; init(x,y,z): all ten members, in declaration order, starting from the
       constructor's Identity / Zero; the four the accessors return are exactly smart_init, the model C12_dRdX_model_char
       characterises as "true derivative + identity leftover" (the open known finding) --- *)
Theorem C12_source_tie_smart_rotation : forall x y z,
  (src_smart_ctor_inputs = ["arg0"; "arg1"; "arg2"]%string /\
   src_smart_ctor_outputs = ["Rx_"; "Ry_"; "Rz_"; "R_"; "dRxdAngleX_"; "dRydAngleY_"; "dRzdAngleZ_";
                             "dRdAngleX_"; "dRdAngleY_"; "dRdAngleZ_"]%string) /\
  src_smart_ctor ROps x y z =
  (Rx_of ROps (cos x) (sin x), Ry_of ROps (cos y) (sin y), Rz_of ROps (cos z) (sin z), sR (smart_init ROps x y z),
   dRx_of ROps (cos x) (sin x), dRy_of ROps (cos y) (sin y), dRz_of ROps (cos z) (sin z),
   sdX (smart_init ROps x y z), sdY (smart_init ROps x y z), sdZ (smart_init ROps x y z)) /\
  mkSmart (src_smart_ctor_R ROps x y z) (src_smart_ctor_dRdAngleX ROps x y z)
          (src_smart_ctor_dRdAngleY ROps x y z) (src_smart_ctor_dRdAngleZ ROps x y z) = smart_init ROps x y z.
Proof.
  intros x y z. split; [exact tie_smart_signature|split; [exact (tie_smart_ctor x y z)|]].
  rewrite tie_smart_R, tie_smart_dRdX, tie_smart_dRdY, tie_smart_dRdZ. reflexivity.
Qed.
Print Assumptions C12_source_tie_smart_rotation.

(* SmartRotation3D::dRTdAngles(T) over arbitrary member matrices *)
Theorem C12_source_tie_smart_dRTdAngles : forall (dx dy dz : mat3 R) (t : vec3 R),
  src_smart_dRTdAngles_inputs = ["this.dRdAngleX_"; "this.dRdAngleY_"; "this.dRdAngleZ_"; "arg0"]%string /\
  src_smart_dRTdAngles ROps dx dy dz t = smart_dRTdAngles ROps (mkSmart (mid3 ROps) dx dy dz) t.
Proof. exact tie_smart_dRTdAngles. Qed.

(* --- Pose3D operator*(const Eigen::Affine3d &, const Pose3D &): l = affine.rotation(), t = affine.translation(),
       c / ori / pos = the members of the pose.  The only 6x6 local of the function (J) equals pose_J entry by entry (all 36),
       the returned position is l*pos + t, the matrix handed to rotation3DToEulerAngles is l*S with S = SmartRotation3D(ori).R()
       (through the delegating constructor, down to src_smart_ctor), the returned orientation is the C10 unit's term
       src_rotation3DToEulerAngles applied to it, and the returned covariance is J*C*J^T — with the model's J and with the
       generated J.  pose_J is the matrix C12_pose_jacobian / C12_pose_covariance prove to be the Jacobian. --- *)
Theorem C12_source_tie_pose_jacobian : forall (l : mat3 R) (t : vec3 R) (c : nat -> nat -> R) (ori pos : vec3 R),
  (src_pose3d_mul_inputs = ["arg0.rotation()"; "arg0.translation()"; "arg1.covariance"; "arg1.orientation"; "arg1.position"]%string /\
   src_pose3d_mul_outputs = ["position"; "orientation"; "covariance"; "jacobian"; "euler_arg"]%string) /\
  (forall i j, (i < 6)%nat -> (j < 6)%nat -> src_pose3d_mul_jacobian ROps l t c ori pos i j = pose_J ROps l ori i j) /\
  src_pose3d_mul_position ROps l t c ori pos = vadd3 ROps (mvmul3 ROps l pos) t /\
  src_pose3d_mul_euler_arg ROps l t c ori pos = mmul3 ROps l (sR (smart_init ROps (v0 ori) (v1 ori) (v2 ori))) /\
  src_pose3d_mul_orientation ROps l t c ori pos =
    (let m := src_pose3d_mul_euler_arg ROps l t c ori pos in
     let '(r, p, y) := src_rotation3DToEulerAngles ROps (m00 m) (m10 m) (m20 m) (m21 m) (m22 m) in mkV3 r p y) /\
  (forall i j, (i < 6)%nat -> (j < 6)%nat ->
     src_pose3d_mul_covariance ROps l t c ori pos i j = pose_cov ROps (pose_J ROps l ori) c i j) /\
  (forall i j, (i < 6)%nat -> (j < 6)%nat ->
     src_pose3d_mul_covariance ROps l t c ori pos i j = pose_cov ROps (src_pose3d_mul_jacobian ROps l t c ori pos) c i j).
Proof.
  intros l t c ori pos.
  split; [exact tie_pose_signature|]. split; [intros i j; apply tie_pose_jacobian|].
  split; [apply tie_pose_position|]. split; [apply tie_pose_euler_arg|]. split; [apply tie_pose_orientation|].
  split; [intros i j; apply tie_pose_covariance|].
  intros i j. apply tie_pose_covariance_of_jacobian.
Qed.
Print Assumptions C12_source_tie_pose_jacobian.

(* the mean the model computes (pose_transform_mean, what the correspondence run executes) is the generated position /
   orientation wherever asin is defined *)
Theorem C12_source_tie_pose_mean : forall (l : mat3 R) (t : vec3 R) (c : nat -> nat -> R) (ori pos : vec3 R),
  Rabs (m20 (mmul3 ROps l (sR (smart_init ROps (v0 ori) (v1 ori) (v2 ori))))) <= 1 ->
  pose_transform_mean ROps ROps idR idR l t pos ori =
  (src_pose3d_mul_position ROps l t c ori pos, Some (src_pose3d_mul_orientation ROps l t c ori pos)).
Proof. exact tie_pose_mean. Qed.

(* --- composed with C12_pose_jacobian: the 6x6 matrix GENERATED FROM THE SOURCE is, entry by entry, the Jacobian of the mean
       map generated from the source (src_pose_map = position and orientation terms), for every rigid transform and every
       pose off gimbal lock --- *)
Theorem C12_source_pose_jacobian_is_derivative : forall l t (c : nat -> nat -> R) q,
  proper_rotation l -> Rabs (m20 (Mrot l (q 3%nat) (q 4%nat) (q 5%nat))) < 1 ->
  let pos := mkV3 (q 0%nat) (q 1%nat) (q 2%nat) in
  let ori := mkV3 (q 3%nat) (q 4%nat) (q 5%nat) in
  forall i j, (i < 6)%nat -> (j < 6)%nat ->
    is_derive_mod2pi (fun s => pose_map l t (upd q j s) i) (q j) (src_pose3d_mul_jacobian ROps l t c ori pos i j) /\
    src_pose_map l t c q i = pose_map l t q i.
Proof.
  intros l t c q Hl H20 pos ori i j Hi Hj. split.
  - unfold pos, ori. rewrite tie_pose_jacobian by assumption.
    exact (proj2 (pose_J_is_jacobian l t q Hl H20 i j Hi Hj)).
  - apply src_pose_map_is_model. lra.
Qed.
Print Assumptions C12_source_pose_jacobian_is_derivative.

(* --- the open known finding stated about the GENERATED terms: what dRdAngleAroundX/Y/ZAxis() return (members dRdAngleX_/Y_/Z_
       after the constructor and init) is the true derivative of R plus the identity leftover of C12_extra_terms, never the
       derivative itself; R() is Rz*Ry*Rx --- *)
Theorem C12_source_smart_derivative_leftover : forall x y z,
  (src_smart_ctor_dRdAngleX ROps x y z = madd3 ROps (dRdX_true x y z) (extraX x y z) /\
   src_smart_ctor_dRdAngleY ROps x y z = madd3 ROps (dRdY_true x y z) (extraY x y z) /\
   src_smart_ctor_dRdAngleZ ROps x y z = madd3 ROps (dRdZ_true x y z) (extraZ x y z)) /\
  (src_smart_ctor_dRdAngleX ROps x y z <> dRdX_true x y z /\
   src_smart_ctor_dRdAngleY ROps x y z <> dRdY_true x y z /\
   src_smart_ctor_dRdAngleZ ROps x y z <> dRdZ_true x y z) /\
  src_smart_ctor_R ROps x y z = rot_zyx x y z.
Proof.
  intros x y z. rewrite tie_smart_dRdX, tie_smart_dRdY, tie_smart_dRdZ, tie_smart_R.
  split; [exact (dRdX_model_char x y z)|split; [exact (dRdX_never_derivative x y z)|exact (smart_R_is_rzyx x y z)]].
Qed.
Print Assumptions C12_source_smart_derivative_leftover.
(* ---- SYNTACTIC SOURCE TIE of LeastSquares<RealType>::computeEstimateCovariance (SrcTieLs.v / SrcTieC12Ls.v).
   The member function regenerated on every run from the clang AST of src/regression/leastsquares/LeastSquares.cpp
   (gen/SrcLs.v, translate/tr_C07_ls.py) leaves the object unchanged and returns the estimateSize_ x estimateSize_ matrix whose entries
   are [ls_covariance] of the Ac_ and inverseJtJ_ members — the function C12_ls_covariance / C12_ls_covariance_* above are about — for
   EVERY numeric dictionary.  [src_dims]: the shapes the class keeps (Ac_ square of size estimateSize_, inverseJtJ_ with as many columns). *)
From Romea Require SrcEigenDyn SrcEigenDynFacts SrcTieLs SrcTieC12Ls.
From Romea.gen Require SrcLs.
Theorem C12_source_tie_ls_covariance :
  forall (T : Type) (N : NumOps T) (var : T) (s : SrcLs.src_ls (T:=T)), SrcTieLs.src_dims s ->
  fst (SrcLs.src_computeEstimateCovariance N var s) = s /\
  SrcEigenDynFacts.dm_shape (SrcLs.estimateSize_ s) (SrcLs.estimateSize_ s) (snd (SrcLs.src_computeEstimateCovariance N var s)) /\
  forall i j, (i < SrcLs.estimateSize_ s)%nat -> (j < SrcLs.estimateSize_ s)%nat ->
    SrcEigenDyn.dm_get N (snd (SrcLs.src_computeEstimateCovariance N var s)) i j =
    ls_covariance N (SrcLs.estimateSize_ s) (LinAlgBModel.mget N (SrcEigenDyn.dm_rows (SrcLs.Ac_ s)))
                  (LinAlgBModel.mget N (SrcEigenDyn.dm_rows (SrcLs.inverseJtJ_ s))) var i j.
Proof. exact (fun T N => SrcTieC12Ls.tie_covariance_entries N). Qed.
Print Assumptions C12_source_tie_ls_covariance.
