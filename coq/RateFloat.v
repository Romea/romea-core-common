(* RateFloat.v — C17 at the floating-point level: the published rate, the window size and the time-out test of the
   rate monitor in IEEE-754 binary64 (double).
   The SAME generic model (RateModel.v: rate_of_sum, window_size, duration_to_second, rm_timeout) is instantiated at the
   rounded dictionary B64Ops of GridMapFloat.v: every / and * and every integer -> double conversion and decimal literal
   is the real value followed by ONE rounding to nearest-even in FLT(-1074, 53); comparisons and truncation are exact.
   The stamps, the periods and the running sum are integers in the code (long long nanoseconds) and in the model (Z).

   What is proved, for a window sum 0 < sum < 2^53 ns (104 days) and a window 4 <= w <= 64
   (ideal := w * 1e9 / sum, the real-number rate):
     * rate_b64_unfold      : the literal 1e9, the sum and the window convert exactly; two roundings remain:
                              rate = rnd64 (1e9 / rnd64 (sum / w));
     * rate_b64_rel_error   : rate = ideal * (1 + d) with |d| <= 3 * 2^-53  (and the absolute form rate_b64_abs_error);
     * rate_b64_pow2_window : for w in {4, 8, 16, 32, 64} the inner quotient is exact, so the published rate is the
                              correctly rounded ideal rate (ONE rounding, |d| <= 2^-53: rate_b64_pow2_rel_error);
     * rate_b64_exact       : if moreover the ideal rate is a double, it is published exactly (4 s / window 4 -> 1 Hz,
                              0.4 s / window 4 -> 10 Hz);
     * window_b64_eq_real   : the window size computed in double from a double expected rate is the real-number one
                              (2 * r is exact);
     * late_b64             : the time-out test "silence > 0.5 s" computed in double equals the real-number one (and
                              is "silence > 500000000 ns") for |silence| < 2^53 ns: 0.5 is a double and the rounded
                              quotient d / 1e9 cannot cross it.

   What stays trusted: that the hardware executes each C++ operation as one rounding to nearest-even of the exact
   result (no x87 excess precision, no fused multiply-add contraction).  The format has no largest exponent: overflow is
   not modelled; this is harmless here since every quantity involved (sum < 2^53, 1e9, w <= 64, the rate <= 64e9,
   2 * r for an expected rate r < 2^1023) is far below the binary64 overflow threshold 2^1024 (all but 2 * r are
   below 2^64), where the unbounded-exponent rounding coincides with IEEE-754.  Integer overflow of the 64-bit stamps
   is outside this file (see RateModel.v). *)
From Coq Require Import Reals ZArith List Bool Lra Lia.
From Flocq Require Import Core.
From Romea Require Import Num NumR DiagModel RateModel RateProofs GridMapFloat.
From Romea.gen Require Import RepoConstants.
Local Open Scope R_scope.

Local Notation bp := (bpow radix2).

Lemma b64_1e9 : b64 1000000000.
Proof. apply (b64_int 1000000000). lia. Qed.

Lemma bp_m53 : bp (-53) = / 9007199254740992.
Proof. simpl; lra. Qed.

(* one rounding of a number of magnitude at least 2^-53 (far above the subnormal range): relative error at most 2^-53 *)
Lemma rnd64_rel x : / 9007199254740992 <= Rabs x -> exists e, Rabs e <= bp (-53) /\ rnd64 x = x * (1 + e).
Proof.
  intros H. apply (rnd_rel_ex 53 (-1074)). rewrite <- bp_m53 in H. apply Rle_trans with (2 := H), bpow_le. lia.
Qed.

Lemma lit_1e9 : 1 * powerRZ 10 9 = 1000000000.
Proof. simpl; lra. Qed.

Lemma rate_b64_unfold : forall sum w, (0 < sum < 2 ^ 53)%Z -> (4 <= w <= 64)%Z ->
  rate_of_sum B64Ops sum w = rnd64 (1000000000 / rnd64 (IZR sum / IZR w)).
Proof.
  intros sum w Hs Hw.
  change (rnd64 (rnd64 (1 * powerRZ 10 9) / rnd64 (rnd64 (IZR sum) / rnd64 (IZR w))) = rnd64 (1000000000 / rnd64 (IZR sum / IZR w))).
  rewrite lit_1e9, (rnd64_id _ b64_1e9), !(rnd64_id (IZR _)) by (apply b64_int; lia). reflexivity.
Qed.

Lemma sum_w_bounds sum w : (0 < sum < 2 ^ 53)%Z -> (4 <= w <= 64)%Z ->
  1 <= IZR sum <= 9007199254740992 /\ 4 <= IZR w <= 64.
Proof.
  intros [S1 S2] [W1 W2]. change (2 ^ 53)%Z with 9007199254740992%Z in S2.
  assert (S1' : (1 <= sum)%Z) by lia. apply IZR_le in S1', W1, W2. apply IZR_lt in S2. lra.
Qed.

Lemma quot_err e1 e2 u : 0 < u <= / 1024 -> Rabs e1 <= u -> Rabs e2 <= u ->
  Rabs ((1 + e2) / (1 + e1) - 1) <= 3 * u.
Proof.
  intros [U0 U1] H1 H2. apply Rabs_le_inv in H1, H2.
  assert (P : 0 < 1 + e1) by lra.
  replace ((1 + e2) / (1 + e1) - 1) with ((e2 - e1) / (1 + e1)) by (field; lra).
  apply Rabs_le. split.
  - apply div_ge_l; [exact P|]. nra.
  - apply div_le_l; [exact P|]. nra.
Qed.

Lemma rate_b64_rel_error : forall sum w, (0 < sum < 2 ^ 53)%Z -> (4 <= w <= 64)%Z ->
  exists d, Rabs d <= 3 * bpow radix2 (-53) /\
            rate_of_sum B64Ops sum w = (IZR w * 1000000000 / IZR sum) * (1 + d).
Proof.
  intros sum w Hs Hw. rewrite (rate_b64_unfold sum w Hs Hw).
  destruct (sum_w_bounds sum w Hs Hw) as [[S1 S2] [W1 W2]].
  set (S := IZR sum) in *. set (W := IZR w) in *. set (q := S / W).
  assert (Q1 : / 64 <= q) by (apply div_ge_l; lra).
  assert (Q2 : q <= 9007199254740992) by (apply div_le_l; nra).
  (* first rounding *)
  destruct (rnd64_rel q) as (e1 & He1 & Hr1); [rewrite Rabs_pos_eq; lra|].
  assert (R1 : / 64 <= rnd64 q).
  { apply rnd64_ge; [|exact Q1]. apply (fmt_bpow 53 (-1074) (-6)). lia. }
  assert (R2 : rnd64 q <= 9007199254740992).
  { apply rnd64_le; [|exact Q2]. apply (fmt_bpow 53 (-1074) 53). lia. }
  set (p := 1000000000 / rnd64 q).
  assert (P1 : / 9007199254740992 <= p) by (apply div_ge_l; lra).
  (* second rounding *)
  destruct (rnd64_rel p) as (e2 & He2 & Hr2); [rewrite Rabs_pos_eq; lra|].
  assert (U : 0 < bp (-53) <= / 1024) by (rewrite bp_m53; lra).
  assert (E1 : 0 < 1 + e1) by (apply Rabs_le_inv in He1; lra).
  exists ((1 + e2) / (1 + e1) - 1). split; [apply quot_err with (1 := U); assumption|].
  rewrite Hr2. unfold p. rewrite Hr1. unfold q. field. repeat split; lra.
Qed.

Lemma rate_b64_abs_error : forall sum w, (0 < sum < 2 ^ 53)%Z -> (4 <= w <= 64)%Z ->
  Rabs (rate_of_sum B64Ops sum w - IZR w * 1000000000 / IZR sum)
  <= 3 * bpow radix2 (-53) * (IZR w * 1000000000 / IZR sum).
Proof.
  intros sum w Hs Hw. destruct (rate_b64_rel_error sum w Hs Hw) as (d & Hd & E). rewrite E.
  destruct (sum_w_bounds sum w Hs Hw) as [[S1 S2] [W1 W2]].
  assert (I : 0 < IZR w * 1000000000 / IZR sum).
  { apply Rdiv_lt_0_compat; nra. }
  set (ideal := IZR w * 1000000000 / IZR sum) in *.
  replace (ideal * (1 + d) - ideal) with (ideal * d) by ring.
  rewrite Rabs_mult, (Rabs_pos_eq ideal) by lra. nra.
Qed.

Lemma pow2_window_range k w : (2 <= k <= 6)%Z -> w = (2 ^ k)%Z -> (4 <= w <= 64)%Z.
Proof.
  intros Hk ->. split; [apply (Z.pow_le_mono_r 2 2 k)|apply (Z.pow_le_mono_r 2 k 6)]; lia.
Qed.

Lemma pow2_quot_b64 sum k : (0 < sum < 2 ^ 53)%Z -> (2 <= k <= 6)%Z -> b64 (IZR sum / IZR (2 ^ k)).
Proof.
  intros Hs Hk. apply (fmt_dyadic 53 (-1074) _ sum (- k)); [|lia|lia].
  change (2 ^ k)%Z with (radix2 ^ k)%Z. rewrite IZR_Zpower by lia. rewrite bpow_opp. reflexivity.
Qed.

Lemma rate_b64_pow2_window : forall sum w, (0 < sum < 2 ^ 53)%Z ->
  (exists k, (2 <= k <= 6)%Z /\ w = (2 ^ k)%Z) ->
  rate_of_sum B64Ops sum w = rnd64 (IZR w * 1000000000 / IZR sum).
Proof.
  intros sum w Hs (k & Hk & Ew). pose proof (pow2_window_range k w Hk Ew) as Hw.
  rewrite (rate_b64_unfold sum w Hs Hw).
  destruct (sum_w_bounds sum w Hs Hw) as [[S1 S2] [W1 W2]].
  rewrite (rnd64_id (IZR sum / IZR w)) by (rewrite Ew; apply pow2_quot_b64; assumption).
  f_equal. field. split; lra.
Qed.

Lemma rate_b64_pow2_rel_error : forall sum w, (0 < sum < 2 ^ 53)%Z ->
  (exists k, (2 <= k <= 6)%Z /\ w = (2 ^ k)%Z) ->
  exists d, Rabs d <= bpow radix2 (-53) /\
            rate_of_sum B64Ops sum w = (IZR w * 1000000000 / IZR sum) * (1 + d).
Proof.
  intros sum w Hs Hp. rewrite (rate_b64_pow2_window sum w Hs Hp).
  destruct Hp as (k & Hk & Ew). pose proof (pow2_window_range k w Hk Ew) as Hw.
  destruct (sum_w_bounds sum w Hs Hw) as [[S1 S2] [W1 W2]].
  apply rnd64_rel. rewrite Rabs_pos_eq; apply div_ge_l || apply Rdiv_le_0_compat; nra.
Qed.

Lemma rate_b64_exact : forall sum w, (0 < sum < 2 ^ 53)%Z ->
  (exists k, (2 <= k <= 6)%Z /\ w = (2 ^ k)%Z) ->
  b64 (IZR w * 1000000000 / IZR sum) ->
  rate_of_sum B64Ops sum w = IZR w * 1000000000 / IZR sum.
Proof. intros sum w Hs Hp F. rewrite (rate_b64_pow2_window sum w Hs Hp). apply rnd64_id. exact F. Qed.

(* a window of 4 periods spanning 4e9 / q ns publishes exactly q Hz *)
Lemma rate_b64_window4 sum q : (0 < sum < 2 ^ 53)%Z -> (Z.abs q < 2 ^ 53)%Z -> (q * sum = 4000000000)%Z ->
  rate_of_sum B64Ops sum 4 = IZR q.
Proof.
  intros Hs Hq E. assert (I : IZR 4 * 1000000000 / IZR sum = IZR q).
  { apply (f_equal IZR) in E. rewrite mult_IZR in E. destruct Hs as [Hs _]. apply IZR_lt in Hs. field_simplify_eq; lra. }
  rewrite <- I. apply rate_b64_exact; [exact Hs|exists 2%Z; split; [lia|reflexivity]|rewrite I; apply b64_int, Hq].
Qed.

Example rate_b64_4s_window4 : rate_of_sum B64Ops 4000000000 4 = 1.
Proof. apply (rate_b64_window4 _ 1); lia. Qed.

Example rate_b64_400ms_window4 : rate_of_sum B64Ops 400000000 4 = 10.
Proof. apply (rate_b64_window4 _ 10); lia. Qed.

(* the general statements are not vacuous: a window that is not a power of two, a sum that does not divide *)
Example rate_b64_hyps_witness : (0 < 333333333 < 2 ^ 53)%Z /\ (4 <= 20 <= 64)%Z /\
  (0 < 4000000000 < 2 ^ 53)%Z /\ (exists k, (2 <= k <= 6)%Z /\ 4%Z = (2 ^ k)%Z).
Proof. repeat split; try (simpl; lia). exists 2%Z. split; [lia|reflexivity]. Qed.

Lemma window_b64_eq_real : forall r, b64 r -> window_size B64Ops r = window_size ROps r.
Proof.
  intros r Fr. unfold window_size.
  replace (nmul B64Ops (nofDec B64Ops rate_window_factor_m rate_window_factor_e) r)
    with (nmul ROps (nofDec ROps rate_window_factor_m rate_window_factor_e) r); [reflexivity|].
  change (2 * powerRZ 10 0 * r = rnd64 (rnd64 (2 * powerRZ 10 0) * r)).
  replace (2 * powerRZ 10 0) with 2 by (simpl; lra).
  rewrite (rnd64_id 2) by (apply (b64_int 2); lia). symmetry. apply rnd64_id, (fmt_double 53 (-1074)), Fr.
Qed.

Example window_b64_witness : b64 10 /\ window_size B64Ops 10 = 20%Z.
Proof.
  assert (F : b64 10) by (apply (b64_int 10); lia).
  split; [exact F|]. rewrite (window_b64_eq_real 10 F). unfold window_size.
  change (Z.min (Z.max (Ztrunc (2 * powerRZ 10 0 * 10)) 4) 64 = 20%Z).
  replace (2 * powerRZ 10 0 * 10) with (IZR 20) by (simpl; lra). rewrite Ztrunc_IZR. reflexivity.
Qed.

Lemma b64_half : b64 (/ 2).
Proof. apply (fmt_bpow 53 (-1074) (-1)). lia. Qed.

Lemma late_b64 d : (Z.abs d < 2 ^ 53)%Z -> late B64Ops d = (500000000 <? d)%Z.
Proof.
  intros Hd.
  change (Rltb (rnd64 (5 * powerRZ 10 (-1))) (rnd64 (rnd64 (IZR d) / rnd64 (1 * powerRZ 10 9)))
          = (500000000 <? d)%Z).
  rewrite lit_1e9. replace (5 * powerRZ 10 (-1)) with (/ 2) by (simpl; lra).
  rewrite (rnd64_id (/ 2) b64_half), (rnd64_id 1000000000 b64_1e9), (rnd64_id (IZR d) (b64_int d Hd)).
  destruct (Z.ltb_spec 500000000 d) as [H|H].
  - (* the quotient is at least 1/2 + 1e-9, and a double lies strictly between *)
    apply Rltb_true. assert (H' : (500000001 <= d)%Z) by lia. apply IZR_le in H'.
    set (y := IZR 549755813889 * bp (-40)).
    assert (Fy : b64 y) by (apply (fmt_dyadic 53 (-1074) y 549755813889 (-40)); [reflexivity|simpl; lia|lia]).
    assert (Ey : y = / 2 + / 1099511627776) by (unfold y; simpl; lra).
    assert (L : y <= rnd64 (IZR d / 1000000000)).
    { apply rnd64_ge; [exact Fy|]. apply div_ge_l; lra. }
    lra.
  - apply Rltb_false. apply IZR_le in H. apply rnd64_le; [exact b64_half|]. apply div_le_l; lra.
Qed.

Lemma timeout_b64_rule : forall (s : @rmon R) t, (Z.abs (t - rm_last s) < 2 ^ 53)%Z ->
  snd (rm_timeout B64Ops s t) = negb (is_nil (rm_periods s)) && (500000000 <? t - rm_last s)%Z.
Proof.
  intros s t H. rewrite rm_timeout_late, late_b64 by exact H.
  destruct (negb (is_nil (rm_periods s)) && (500000000 <? t - rm_last s)%Z); reflexivity.
Qed.

Example timeout_b64_witness :
  let s := {| rm_window := 4; rm_last := 1000000000; rm_periods := (1000000000 :: nil)%Z; rm_sum := 1000000000;
              rm_rate := 0 |} in
  snd (rm_timeout B64Ops s 1500000001) = true /\ snd (rm_timeout B64Ops s 1500000000) = false.
Proof.
  cbv zeta. split; rewrite timeout_b64_rule by (cbn [rm_last]; simpl; lia); reflexivity.
Qed.
