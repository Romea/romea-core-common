(* SrcNormalsLib.v — what the terms of gen/SrcNormals.v (translate/tr_C09_normals.py) are built from, besides the numeric
   dictionary of Num.v and arr_set / eig_norm of SrcEigen.v.  Definitions and small generic facts only; no property of the
   code is stated here.

   LOOPS.  `for (size_t i = 0; i < n; ++i)` is a fold_left over [zrange n] = [0; 1; ..; n-1] (integers are unbounded Z).
   INDEX VECTORS.  std::vector<size_t> is a list Z read with [znth] (an out-of-range read — undefined in C++ — gives 0).
   EIGEN REDUCTIONS (trusted reading of the library, as in SrcEigen.v and in the hand-written model): a.dot(b) and
   a.sum() are accumulated from the left starting at zero.
   EIGEN-SOLVER ORACLE.  Its result is a pair (eigenvalues, eigenvectors as a list of COLUMNS), as in NormalsModel.v;
   [eig_val r i] is eigenvalues()(i) and [eig_vec r i j] is eigenvectors()(i, j) (row i of column j). *)
From Coq Require Import ZArith List Lia.
From Romea Require Import Num SrcEigen.
Import ListNotations.

Definition znth (l : list Z) (i : Z) : Z := nth (Z.to_nat i) l 0%Z.
Definition zrange (n : Z) : list Z := map Z.of_nat (seq 0 (Z.to_nat n)).

Section Dict.
Context {T : Type} (N : NumOps T).

Fixpoint eig_dot_acc (acc : T) (a b : list T) : T :=
  match a, b with x :: a', y :: b' => eig_dot_acc (nadd N acc (nmul N x y)) a' b' | _, _ => acc end.
Definition eig_dot (a b : list T) : T := eig_dot_acc (nzero N) a b.
Definition eig_sum (a : list T) : T := fold_left (nadd N) a (nzero N).

Definition eig_val (r : list T * list (list T)) (i : nat) : T := nth i (fst r) (nzero N).
Definition eig_vec (r : list T * list (list T)) (i j : nat) : T := nth i (nth j (snd r) []) (nzero N).

(* what the tie lemmas need from a dictionary: the literal 0 is the zero of the models, and multiplying by the literal -1
   (`head<DIM>() *= -1`) is the negation the model uses.  Holds at the real dictionary (SrcTieC09.v) and, exactly, in IEEE
   arithmetic. *)
Record NormLits : Prop := mkNormLits {
  nl_zero : nofZ N 0%Z = nzero N;
  nl_negone : forall x, nmul N x (nofZ N (-1)%Z) = nneg N x }.
End Dict.

(* ---- generic facts about the loops *)
Lemma zrange_of_nat n : zrange (Z.of_nat n) = map Z.of_nat (seq 0 n).
Proof. unfold zrange. rewrite Nat2Z.id. reflexivity. Qed.

Lemma zrange_snoc n : zrange (Z.of_nat (S n)) = zrange (Z.of_nat n) ++ [Z.of_nat n].
Proof. rewrite !zrange_of_nat, seq_S, map_app. reflexivity. Qed.

Lemma in_zrange n i : In i (zrange n) <-> (0 <= i < n)%Z.
Proof.
  unfold zrange. rewrite in_map_iff. split.
  - intros [k [<- Hk]]. apply in_seq in Hk. lia.
  - intros H. exists (Z.to_nat i). split; [lia|]. apply in_seq. lia.
Qed.

Lemma znth_of_nat l k : znth l (Z.of_nat k) = nth k l 0%Z.
Proof. unfold znth. rewrite Nat2Z.id. reflexivity. Qed.

Lemma fold_left_ext_in {A S : Type} (f g : S -> A -> S) (l : list A) :
  (forall a, In a l -> forall s, f s a = g s a) -> forall s, fold_left f l s = fold_left g l s.
Proof.
  induction l as [|a l IH]; intros H s; [reflexivity|]. cbn [fold_left].
  rewrite H by (left; reflexivity). apply IH. intros b Hb. apply H. right. exact Hb.
Qed.

(* a fold over a list = the loop over its indexes *)
Lemma fold_left_map_idx {A S : Type} (f : S -> A -> S) (h : Z -> A) (l : list Z) (s : S) :
  fold_left f (map h l) s = fold_left (fun st i => f st (h (znth l i))) (zrange (Z.of_nat (length l))) s.
Proof.
  revert s. induction l as [|a l IH] using rev_ind; intros s; [reflexivity|].
  rewrite app_length, Nat.add_comm. cbn [length plus]. rewrite zrange_snoc, map_app, !fold_left_app. cbn [map fold_left].
  rewrite znth_of_nat, app_nth2, Nat.sub_diag by lia. cbn [nth]. f_equal.
  rewrite IH. apply fold_left_ext_in. intros i Hi st. apply in_zrange in Hi.
  unfold znth. rewrite app_nth1 by lia. reflexivity.
Qed.

(* two loops over the same list that keep a relation between their states *)
Lemma fold_left_rel {A S1 S2 : Type} (R : S1 -> S2 -> Prop) (g : S1 -> A -> S1) (h : S2 -> A -> S2) (l : list A) :
  (forall a s1 s2, In a l -> R s1 s2 -> R (g s1 a) (h s2 a)) ->
  forall s1 s2, R s1 s2 -> R (fold_left g l s1) (fold_left h l s2).
Proof.
  induction l as [|a l IH]; intros H s1 s2 HR; [exact HR|]. cbn [fold_left].
  apply IH; [intros b t1 t2 Hb; apply H; right; exact Hb|]. apply H; [left; reflexivity|exact HR].
Qed.

(* a family of folds over the same list, each with a state of its own, is one fold over a state indexed by the family *)
Lemma fold_left_family {A I S : Type} (f : I -> S -> A -> S) (l : list A) : forall (z : I -> S) (i : I),
  fold_left (f i) l (z i) = fold_left (fun M a i => f i (M i) a) l z i.
Proof. induction l as [|a l IH]; intros z i; [reflexivity|]. exact (IH (fun i => f i (z i) a) i). Qed.

(* a loop over 0..n-1 whose step i changes entry i of an array only, by a function of the old entry *)
Lemma fold_zrange_pointwise {S A : Type} (step : S -> Z -> S) (get : S -> Z -> A) (F : Z -> A -> A) (n : nat) :
  (forall s i j, (0 <= i < Z.of_nat n)%Z -> get (step s i) j = if Z.eqb j i then F i (get s i) else get s j) ->
  forall s0 j,
    ((0 <= j < Z.of_nat n)%Z -> get (fold_left step (zrange (Z.of_nat n)) s0) j = F j (get s0 j)) /\
    (~ (0 <= j < Z.of_nat n)%Z -> get (fold_left step (zrange (Z.of_nat n)) s0) j = get s0 j).
Proof.
  induction n as [|n IH]; intros Hstep s0 j.
  - split; [lia|reflexivity].
  - rewrite zrange_snoc, fold_left_app. cbn [fold_left]. rewrite Hstep by lia.
    destruct (IH (fun s i j Hi => Hstep s i j ltac:(lia)) s0 j) as [IH1 IH2].
    destruct (Z.eqb_spec j (Z.of_nat n)) as [->|Hne].
    + split; [|lia]. intros _. rewrite IH2 by lia. reflexivity.
    + split; intros H; [apply IH1|apply IH2]; lia.
Qed.
