(* OnlineStatsFloat.v — C16 at the floating-point level (IEEE-754 binary64).
   The SAME model (OnlineStatsModel.v) is instantiated at the rounded dictionary B64Ops of GridMapFloat.v (the generated
   code is, at the same dictionary, in OnlineStatsFloatCode.v): + - * / and integer->double conversions are the real operation followed by ONE
   rounding to nearest-even in FLT(-1074, 53); truncation toward zero and comparisons are exact.  (The format has no
   largest exponent; every quantity below is smaller than 2^64 in magnitude, far from the overflow threshold.)

   Under the property's bounds (window 1..64, precision in [1e-6, 1], |value| / precision <= 1e8):
   (a) multiplier_ = static_cast<int>(1 / averagePrecision) lies in 1..10^6; the truncated samples are at most 1e8 in
       magnitude and within one unit (plus one rounding of the product) of value * multiplier; the integer sums are
       exact (proved in Z: C16_window_is_last_W, C16_sums_fit_64_bits) and |sumOfData_| < 2^53, so double(sumOfData_),
       double(multiplier_), double(data_.size()) and the product double(multiplier_) * data_.size() are all EXACT;
   (b) hence average_ = sumOfData_ / (double(multiplier_) * data_.size()) is the exact mean of the truncated samples
       rounded ONCE: relative error at most 2^-53 (half an ulp), whatever the length of the history — no drift;
   (c) variance_: seven roundings on the way ( double(sumOfSquaredData_), / double(squaredMultiplier_), the average,
       size*average, *average, the subtraction, / windowSizeMinusOne_ ); with A = sum y_i^2 and B = n*mean^2 (y_i the
       truncated samples divided by the multiplier) |variance_ - exact unbiased variance| <= 2^-53 (7A + 9B)/(W-1) + 3*2^-1075,
       again independent of the history length. *)
From Coq Require Import Reals ZArith List Lra Lia.
From Flocq Require Import Core.
From Romea Require Import Num NumR OnlineStatsModel OnlineStatsProofs GridMapFloat.
Import ListNotations.
Local Open Scope R_scope.

Local Notation bp := (bpow radix2).
Definition u64 : R := bp (-53).          (* unit roundoff of binary64: half an ulp of 1 *)
Definition eta64 : R := bp (-1075).      (* half the smallest subnormal *)

Lemma rnd64_int k : (Z.abs k < 2 ^ 53)%Z -> rnd64 (IZR k) = IZR k.
Proof. intros H. apply rnd64_id, b64_int, H. Qed.

Lemma nofZ_b64 k : (Z.abs k < 2 ^ 53)%Z -> nofZ B64Ops k = IZR k.
Proof. exact (rnd64_int k). Qed.

Lemma B64_one : nofZ B64Ops 1 = n_one B64Ops.
Proof. rewrite nofZ_b64 by (simpl; lia). reflexivity. Qed.

Lemma B64_comm : forall a b : R, nmul B64Ops a b = nmul B64Ops b a.
Proof. intros a b. unfold B64Ops. cbn [nmul FlOps]. unfold fl_mul. rewrite Rmult_comm. reflexivity. Qed.

(* zero or outside the subnormal range *)
Definition normal64 (x : R) : Prop := x = 0 \/ bp (-1022) <= Rabs x.

(* one rounding, in terms of u64 and eta64.  Relative form: no underflow *)
Lemma rnd64_rel x : normal64 x -> Rabs (rnd64 x - x) <= u64 * Rabs x.
Proof. exact (rnd_rel 53 (-1074) x). Qed.

Lemma rnd64_abs_err x : Rabs (rnd64 x - x) <= u64 * Rabs x + eta64.
Proof. exact (rnd_err 53 (-1074) x). Qed.

(* one rounding of a value that already carries the absolute error E *)
Lemma rnd64_abs_step x X E : Rabs (x - X) <= E -> Rabs (rnd64 x - X) <= E + (u64 * (Rabs X + E) + eta64).
Proof. exact (rnd_err_step 53 (-1074) x X (Rabs X) E (Rle_refl _)). Qed.

Lemma two53 : (2 ^ 53 = 9007199254740992)%Z.
Proof. reflexivity. Qed.

Lemma u64_val : u64 = / 9007199254740992.
Proof. unfold u64. change (bp (-53)) with (/ IZR (Z.pow_pos 2 53)). f_equal. Qed.

Lemma u64_pos : 0 < u64. Proof. apply bpow_gt_0. Qed.
Lemma eta64_pos : 0 < eta64. Proof. apply bpow_gt_0. Qed.

(* precision in [1e-6, 1]: the lower bound is stated as 2/2000001 (< the double nearest to 1e-6, which is itself
   slightly below 10^-6) so that the double literal 1e-6 is covered *)
Lemma multiplier_b64 p : 2 / 2000001 <= p <= 1 -> (1 <= o_multiplier B64Ops p <= 1000000)%Z.
Proof.
  intros [Hlo Hhi]. unfold o_multiplier, B64Ops. cbn [ntruncZ ndiv n_one FlOps]. unfold fl_div.
  fold rnd64.
  assert (Hp : 0 < p) by lra.
  assert (H1 : 1 <= 1 / p).
  { apply div_ge_l; lra. }
  assert (H2 : 1 / p <= 2000001 / 2).
  { apply div_le_l; [exact Hp|]. lra. }
  assert (F2 : b64 (2000001 / 2)).
  { apply (fmt_dyadic 53 (-1074) _ 2000001 (-1)); [simpl; lra|simpl; lia|lia]. }
  assert (R1 : 1 <= rnd64 (1 / p)) by (apply rnd64_ge; [exact b64_1|exact H1]).
  assert (R2 : rnd64 (1 / p) <= 2000001 / 2) by (apply rnd64_le; assumption).
  rewrite Ztrunc_floor by lra. split.
  - apply Zfloor_lub. exact R1.
  - assert (Zfloor (rnd64 (1 / p)) < 1000001)%Z; [|lia].
    apply lt_IZR. eapply Rle_lt_trans; [apply Zfloor_lb|]. lra.
Qed.

(* static_cast<long long>(value * multiplier_): the conversion of the multiplier is exact *)
Lemma trunc_b64_unf m v : (Z.abs m < 2 ^ 53)%Z -> o_trunc B64Ops m v = Ztrunc (rnd64 (v * IZR m)).
Proof.
  intros Hm. unfold o_trunc. rewrite (nofZ_b64 m Hm). reflexivity.
Qed.

(* |value| * multiplier <= 1e8  =>  |truncated sample| <= 1e8.  This is the form in which the property's
   |value| / precision <= 1e8 is assumed: the multiplier can exceed 1 / precision by a rounding (the double 0.1 gives 10). *)
Lemma trunc_b64_bound m v : (Z.abs m < 2 ^ 53)%Z -> Rabs (v * IZR m) <= 100000000 ->
  (Z.abs (o_trunc B64Ops m v) <= 100000000)%Z.
Proof.
  intros Hm Hv. rewrite (trunc_b64_unf m v Hm).
  assert (F : b64 100000000) by (apply (b64_int 100000000); simpl; lia).
  pose proof (rnd_abs_le 53 (-1074) _ _ F Hv) as Hr.
  rewrite <- Ztrunc_abs. rewrite <- (Ztrunc_IZR 100000000). apply Ztrunc_le. exact Hr.
Qed.

(* the truncated sample is the product value * multiplier rounded once, then cut toward zero *)
Lemma trunc_b64_err m v : (Z.abs m < 2 ^ 53)%Z ->
  Rabs (IZR (o_trunc B64Ops m v) - v * IZR m) < 1 + u64 * Rabs (v * IZR m) + eta64.
Proof.
  intros Hm. rewrite (trunc_b64_unf m v Hm). set (x := v * IZR m).
  pose proof (rnd64_abs_err x) as E.
  assert (T : Rabs (IZR (Ztrunc (rnd64 x)) - rnd64 x) < 1).
  { unfold Ztrunc. destruct (Rlt_bool_spec (rnd64 x) 0) as [Hn|Hn].
    - pose proof (Zceil_ub (rnd64 x)). pose proof (Zceil_lb (rnd64 x)) as L. apply Rabs_def1; lra.
    - pose proof (Zfloor_lb (rnd64 x)). pose proof (Zfloor_ub (rnd64 x)). apply Rabs_def1; lra. }
  replace (IZR (Ztrunc (rnd64 x)) - x) with ((IZR (Ztrunc (rnd64 x)) - rnd64 x) + (rnd64 x - x)) by ring.
  eapply Rle_lt_trans; [apply Rabs_triang|]. lra.
Qed.

(* quantities that are zero or at least 2^-53 in magnitude stay away from the subnormal range through the formula *)
Definition nz53 (x : R) : Prop := x = 0 \/ bp (-53) <= Rabs x.

Lemma nz53_normal x : nz53 x -> normal64 x.
Proof. intros [H|H]; [left; exact H|right]. eapply Rle_trans; [|exact H]. apply bpow_le. lia. Qed.

Lemma nz53_rnd x : nz53 x -> nz53 (rnd64 x).
Proof.
  intros [->|H]; [left; apply (rnd_0 53 (-1074))|right]. apply (rnd_abs_ge 53 (-1074)); [apply (fmt_bpow 53 (-1074)); lia|exact H].
Qed.

Lemma int_ge1 k : IZR k = 0 \/ 1 <= Rabs (IZR k).
Proof.
  destruct (Z.eq_dec k 0) as [->|H]; [left; reflexivity|right]. rewrite <- abs_IZR. apply IZR_le. lia.
Qed.

Lemma rnd_ge1 x : x = 0 \/ 1 <= Rabs x -> rnd64 x = 0 \/ 1 <= Rabs (rnd64 x).
Proof.
  intros [->|H]; [left; apply (rnd_0 53 (-1074))|right]. apply (rnd_abs_ge 53 (-1074)); [exact b64_1|exact H].
Qed.

(* zero or at least 1 in magnitude, divided by an integer below 2^53: zero or at least 2^-53 *)
Lemma ge1_quot_nz53 x d : x = 0 \/ 1 <= Rabs x -> (0 < d < 2 ^ 53)%Z -> nz53 (x / IZR d).
Proof.
  intros [->|Hx] Hd; [left; unfold Rdiv; ring|right].
  assert (Hd' : 0 < IZR d) by (apply IZR_lt; lia).
  unfold Rdiv. rewrite Rabs_mult, (Rabs_pos_eq (/ IZR d)) by (left; apply Rinv_0_lt_compat; exact Hd').
  assert (IZR d <= bp 53) by (change (bp 53) with (IZR (2 ^ 53)); apply IZR_le; lia).
  assert (bp (-53) <= / IZR d) by (change (bp (-53)) with (/ bp 53); apply Rinv_le_contravar; assumption).
  pose proof (bpow_gt_0 radix2 (-53)). nra.
Qed.

Lemma nz53_int_quot s d : (0 < d < 2 ^ 53)%Z -> nz53 (IZR s / IZR d).
Proof. apply ge1_quot_nz53, int_ge1. Qed.

Lemma nz53_int_mul n x : (1 <= n)%Z -> nz53 x -> nz53 (IZR n * x).
Proof.
  intros Hn [->|H]; [left; ring|right]. rewrite Rabs_mult.
  assert (1 <= Rabs (IZR n)) by (rewrite <- abs_IZR; apply IZR_le; lia).
  pose proof (bpow_gt_0 radix2 (-53)). nra.
Qed.

Lemma nz53_mul_normal x y : nz53 x -> nz53 y -> normal64 (x * y).
Proof.
  intros [->|Hx] [->|Hy]; try (left; ring). right. rewrite Rabs_mult.
  assert (bp (-1022) <= bp (-53) * bp (-53)) by (rewrite <- bpow_plus; apply bpow_le; lia).
  pose proof (bpow_gt_0 radix2 (-53)). nra.
Qed.

Definition zmean (m : Z) (l : list Z) : R := rsum (map (fun z => IZR z / IZR m) l) / INR (length l).

Lemma zmean_unf m l : (0 < m)%Z -> l <> [] -> zmean m l = IZR (zsum l) / (IZR m * IZR (Z.of_nat (length l))).
Proof. exact (mean_of_zsum m l). Qed.

Lemma nmul_b64_int a b : (Z.abs (a * b) < 2 ^ 53)%Z -> nmul B64Ops (IZR a) (IZR b) = IZR (a * b).
Proof. intros H. rewrite mult_IZR. apply rnd64_id. rewrite <- mult_IZR. apply b64_int, H. Qed.

(* with at most 64 samples of magnitude at most 1e8 the sum is below 6.4e9 < 2^53 *)
Lemma sum_lt_2p53 W h : (0 < W)%nat -> (W <= 64)%nat ->
  Forall (fun x => (Z.abs x <= 100000000)%Z) (since_reset h []) ->
  (Z.abs (o_sum (fold_left i_step h (o_init W))) < 2 ^ 53)%Z.
Proof.
  intros HW0 HW HB. destruct (sums_le W h 100000000 HW0 ltac:(lia) HB) as [S _].
  pose proof two53. lia.
Qed.

(* (a) for every history: the integer sum is below 2^53 in magnitude and every integer->double conversion of the
   average formula, and the product double(multiplier_) * data_.size(), is exact *)
Lemma conversions_exact_b64 W h (m : Z) : (0 < W)%nat -> (W <= 64)%nat -> (0 < m <= 1000000)%Z ->
  Forall (fun x => (Z.abs x <= 100000000)%Z) (since_reset h []) ->
  let s := fold_left i_step h (o_init W) in
  let n := Z.of_nat (length (o_data s)) in
  (Z.abs (o_sum s) < 2 ^ 53)%Z /\
  nofZ B64Ops (o_sum s) = IZR (o_sum s) /\ nofZ B64Ops m = IZR m /\ nofZ B64Ops n = IZR n /\
  nmul B64Ops (nofZ B64Ops m) (nofZ B64Ops n) = IZR (m * n).
Proof.
  intros HW0 HW Hm HB s n. pose proof (sum_lt_2p53 W h HW0 HW HB) as Hs53. fold s in Hs53.
  destruct (window_is_last_W W h HW0) as (_ & V2 & _). fold s in V2.
  assert (Hn : (0 <= n <= 64)%Z) by (unfold n; lia).
  pose proof two53 as P53.
  rewrite (nofZ_b64 _ Hs53), (nofZ_b64 m), (nofZ_b64 n), nmul_b64_int by nia. repeat split. exact Hs53.
Qed.

(* the formula of the code in binary64: conversions and the product in the denominator are exact *)
Lemma average_b64_unf (m : Z) s : (0 < m)%Z -> o_data s <> [] ->
  (m * Z.of_nat (length (o_data s)) < 2 ^ 53)%Z -> (Z.abs (o_sum s) < 2 ^ 53)%Z ->
  o_average B64Ops m s = Some (rnd64 (IZR (o_sum s) / (IZR m * IZR (Z.of_nat (length (o_data s)))))).
Proof.
  intros Hm Hne Hmn Hs. rewrite (o_average_some _ _ _ Hne).
  pose proof (length_pos _ Hne) as Hn.
  rewrite (nofZ_b64 (o_sum s) Hs), (nofZ_b64 m), (nofZ_b64 (Z.of_nat (length (o_data s)))), nmul_b64_int by nia.
  rewrite mult_IZR. reflexivity.
Qed.

(* for every history of updates and resets: the reported average is the exact mean of the last min(n,W) truncated
   samples rounded once — its relative error is at most 2^-53 and does not depend on the history *)
Lemma average_b64_history W h (m : Z) : (0 < W)%nat -> (W <= 64)%nat -> (0 < m <= 1000000)%Z ->
  Forall (fun x => (Z.abs x <= 100000000)%Z) (since_reset h []) ->
  let s := fold_left i_step h (o_init W) in
  let L := lastn W (since_reset h []) in
  L <> [] ->
  o_average B64Ops m s = Some (rnd64 (zmean m L)) /\
  Rabs (rnd64 (zmean m L) - zmean m L) <= u64 * Rabs (zmean m L).
Proof.
  intros HW0 HW Hm HB s L HL.
  destruct (window_is_last_W W h HW0) as (_ & V2 & V3 & _). fold s L in V2, V3.
  pose proof (sum_lt_2p53 W h HW0 HW HB) as Hs53. fold s in Hs53.
  assert (Hlen : length (o_data s) = length L) by (unfold L; rewrite lastn_length; exact V2).
  assert (HLn : (0 < length L <= 64)%nat) by (destruct L; [congruence|cbn [length] in *; lia]).
  assert (Hmn : (0 < m * Z.of_nat (length L) < 2 ^ 53)%Z).
  { pose proof two53. nia. }
  assert (Hne : o_data s <> []) by (intros E; rewrite E in Hlen; cbn in Hlen; lia).
  rewrite (average_b64_unf m s) by (rewrite ?Hlen; lia || assumption).
  rewrite (zmean_unf m L ltac:(lia) HL), V3, Hlen.
  split; [reflexivity|].
  apply rnd64_rel. rewrite <- mult_IZR. apply nz53_normal, nz53_int_quot, Hmn.
Qed.

(* |value * multiplier| <= 1e8 for every value fed: the hypothesis on the inputs of the theorems about the generated code
   (OnlineStatsFloatCode.v) *)
Definition values_bounded (mult : Z) (ops : list (oop R)) : Prop :=
  Forall (fun o => match o with OUpdate v => Rabs (v * IZR mult) <= 100000000 | OReset => True end) ops.

(* relative perturbation *)
Definition rel (x' x d : R) : Prop := Rabs (x' - x) <= d * Rabs x.

Lemma rel_weaken x' x d d' : rel x' x d -> d <= d' -> rel x' x d'.
Proof. unfold rel. intros H Hd. pose proof (Rabs_pos x). nra. Qed.

Lemma rel_mul x' x y' y d1 d2 : rel x' x d1 -> rel y' y d2 -> 0 <= d1 -> 0 <= d2 ->
  rel (x' * y') (x * y) (d1 + d2 + d1 * d2).
Proof.
  unfold rel. intros Hx Hy H1 H2.
  replace (x' * y' - x * y) with ((x' - x) * y + x * (y' - y) + (x' - x) * (y' - y)) by ring.
  eapply Rle_trans; [apply Rabs_triang|]. eapply Rle_trans; [apply Rplus_le_compat_r, Rabs_triang|].
  rewrite !Rabs_mult. pose proof (Rabs_pos x). pose proof (Rabs_pos y).
  pose proof (Rabs_pos (x' - x)). pose proof (Rabs_pos (y' - y)). nra.
Qed.

Lemma rel_scale c x' x d : rel x' x d -> rel (c * x') (c * x) d.
Proof.
  unfold rel. intros H. replace (c * x' - c * x) with (c * (x' - x)) by ring.
  rewrite !Rabs_mult. pose proof (Rabs_pos c). nra.
Qed.

Lemma rel_div c x' x d : rel x' x d -> rel (x' / c) (x / c) d.
Proof. unfold Rdiv. rewrite !(Rmult_comm _ (/ c)). apply rel_scale. Qed.

Lemma rel_rnd x' x d : rel x' x d -> normal64 x' -> 0 <= d -> rel (rnd64 x') x (d + u64 + u64 * d).
Proof.
  unfold rel. intros H Hn Hd. pose proof (rnd64_rel x' Hn) as E.
  replace (rnd64 x' - x) with ((rnd64 x' - x') + (x' - x)) by ring.
  eapply Rle_trans; [apply Rabs_triang|].
  assert (Rabs x' <= Rabs x + d * Rabs x).
  { replace x' with (x + (x' - x)) at 1 by ring. eapply Rle_trans; [apply Rabs_triang|]. lra. }
  assert (0 < u64) by apply bpow_gt_0. pose proof (Rabs_pos x). nra.
Qed.

Lemma rel_refl x : rel x x 0.
Proof. unfold rel. rewrite Rminus_diag_eq by reflexivity. rewrite Rabs_R0. lra. Qed.

(* the code's formula, operation by operation *)
Lemma variance_b64_unf (m : Z) s : (0 < m <= 1000000)%Z -> o_data s <> [] ->
  (length (o_data s) <= 64)%nat -> (2 <= o_W s <= 64)%nat ->
  (Z.abs (o_sum s) < 2 ^ 53)%Z ->
  let n := IZR (Z.of_nat (length (o_data s))) in
  let a := rnd64 (IZR (o_sum s) / (IZR m * n)) in
  o_variance B64Ops m s =
    Some (rnd64 (rnd64 (rnd64 (rnd64 (IZR (o_sumsq s)) / IZR (m * m)) - rnd64 (rnd64 (n * a) * a)) / (IZR (Z.of_nat (o_W s)) - 1))).
Proof.
  intros Hm Hne Hlen HW Hs n a.
  assert (Hn : (0 < Z.of_nat (length (o_data s)) <= 64)%Z).
  { pose proof (length_pos _ Hne). lia. }
  pose proof two53 as P53.
  unfold o_variance. rewrite (average_b64_unf m s ltac:(lia) Hne ltac:(nia) Hs). fold n a.
  f_equal. rewrite (nofZ_b64 (m * m)) by nia. rewrite (nofZ_b64 (Z.of_nat (length (o_data s)))) by lia.
  rewrite (nofZ_b64 (Z.of_nat (o_W s) - 1)) by lia. rewrite minus_IZR.
  unfold B64Ops. cbn [ndiv nmul nsub nofZ FlOps]. unfold fl_div, fl_mul, fl_sub. reflexivity.
Qed.

(* the last two operations, sqavg - n avg^2 and the division by W - 1, in absolute error: a and b carry the relative
   errors of the three and five roundings before them *)
Lemma sub_div_rounding A B k a b : 0 <= A -> 0 <= B -> 1 <= k -> rel a A (3 * u64) -> rel b B (5 * u64) ->
  Rabs (rnd64 (rnd64 (a - b) / k) - (A - B) / k) <= u64 * (7 * A + 9 * B) / k + 3 * eta64.
Proof.
  intros HA HB Hk R1 R2. unfold rel in R1, R2. rewrite (Rabs_pos_eq A HA) in R1. rewrite (Rabs_pos_eq B HB) in R2.
  pose proof u64_pos as Hu. pose proof eta64_pos as He. pose proof u64_val as Uv.
  assert (S1 : Rabs (a - b - (A - B)) <= 3 * u64 * A + 5 * u64 * B).
  { replace (a - b - (A - B)) with ((a - A) + - (b - B)) by ring.
    eapply Rle_trans; [apply Rabs_triang|]. rewrite Rabs_Ropp. lra. }
  apply rnd64_abs_step in S1.
  assert (Hik : 0 < / k <= 1).
  { split; [apply Rinv_0_lt_compat; lra|]. rewrite <- Rinv_1. apply Rinv_le_contravar; lra. }
  assert (S2 : Rabs (rnd64 (a - b) / k - (A - B) / k) <=
               (u64 * (Rabs (A - B) + (3 * u64 * A + 5 * u64 * B)) + eta64 + (3 * u64 * A + 5 * u64 * B)) * / k).
  { unfold Rdiv. rewrite <- Rmult_minus_distr_r, Rabs_mult, (Rabs_pos_eq (/ k)) by lra.
    apply Rmult_le_compat_r; lra. }
  apply rnd64_abs_step in S2. eapply Rle_trans; [exact S2|].
  (* what is left is linear in A/k, B/k, |A - B|/k, eta64 and eta64/k once u64 is a numeral *)
  unfold Rdiv. rewrite Rabs_mult, (Rabs_pos_eq (/ k)) by lra.
  assert (Ht : Rabs (A - B) <= A + B) by (apply Rabs_le; lra). pose proof (Rabs_pos (A - B)) as Ht0.
  set (t := Rabs (A - B)) in *. set (ik := / k) in *.
  assert (0 <= A * ik) by nra. assert (0 <= B * ik) by nra. assert (t * ik <= A * ik + B * ik) by nra.
  assert (0 <= t * ik) by nra. assert (eta64 * ik <= eta64) by nra.
  rewrite Uv in *. nra.
Qed.

Lemma variance_b64_err (m : Z) s : (0 < m <= 1000000)%Z -> o_data s <> [] ->
  (length (o_data s) <= 64)%nat -> (2 <= o_W s <= 64)%nat ->
  (Z.abs (o_sum s) < 2 ^ 53)%Z -> (0 <= o_sumsq s)%Z ->
  let n := IZR (Z.of_nat (length (o_data s))) in
  let k := IZR (Z.of_nat (o_W s)) - 1 in
  let A := IZR (o_sumsq s) / IZR (m * m) in
  let mu := IZR (o_sum s) / (IZR m * n) in
  let B := n * mu * mu in
  exists v, o_variance B64Ops m s = Some v /\
            Rabs (v - (A - B) / k) <= u64 * (7 * A + 9 * B) / k + 3 * eta64.
Proof.
  intros Hm Hne Hlen HW Hs Hq n k A mu B.
  rewrite (variance_b64_unf m s Hm Hne Hlen HW Hs). fold n k. eexists. split; [reflexivity|].
  assert (Hn : (1 <= Z.of_nat (length (o_data s)) <= 64)%Z).
  { pose proof (length_pos _ Hne). lia. }
  pose proof two53 as P53.
  assert (Hn1 : 1 <= n) by (apply IZR_le; lia).
  assert (Hk : 1 <= k) by (unfold k; assert (2 <= IZR (Z.of_nat (o_W s))) by (apply IZR_le; lia); lra).
  assert (Hmm : 0 < IZR (m * m)) by (apply IZR_lt; nia).
  assert (HA : 0 <= A) by (unfold A; apply Rmult_le_pos; [apply IZR_le; exact Hq|left; apply Rinv_0_lt_compat; exact Hmm]).
  assert (HB : 0 <= B) by (unfold B; rewrite Rmult_assoc; apply Rmult_le_pos; [lra|nra]).
  pose proof u64_pos as Hu. pose proof u64_val as Uv.
  apply sub_div_rounding; try assumption.
  - (* sqavg: the conversion of the sum of squares and the division, then a margin *)
    eapply rel_weaken.
    + apply rel_rnd; [apply rel_div; eapply rel_rnd; [apply rel_refl| |lra]| |].
      * destruct (int_ge1 (o_sumsq s)) as [E|E]; [left; exact E|right].
        eapply Rle_trans; [|exact E]. apply (bpow_le radix2 (-1022) 0). lia.
      * apply nz53_normal, ge1_quot_nz53; [apply rnd_ge1, int_ge1|nia].
      * lra.
    + rewrite Uv. lra.
  - (* size * average * average *)
    set (a := rnd64 (IZR (o_sum s) / (IZR m * n))).
    assert (Hmu : nz53 mu).
    { unfold mu, n. rewrite <- mult_IZR. apply nz53_int_quot. nia. }
    assert (Ra : rel a mu u64).
    { eapply rel_weaken; [apply rel_rnd; [apply rel_refl|apply nz53_normal; exact Hmu|lra]|lra]. }
    assert (Hna : nz53 a) by (apply nz53_rnd; exact Hmu).
    assert (Rt1 : rel (rnd64 (n * a)) (n * mu) (21 / 10 * u64)).
    { eapply rel_weaken.
      - apply rel_rnd; [apply rel_scale; exact Ra|apply nz53_normal, nz53_int_mul; [lia|exact Hna]|lra].
      - rewrite Uv. lra. }
    assert (Hnt1 : nz53 (rnd64 (n * a))) by (apply nz53_rnd, nz53_int_mul; [lia|exact Hna]).
    unfold B. eapply rel_weaken.
    + apply rel_rnd; [apply rel_mul; [exact Rt1|exact Ra|lra|lra]|apply nz53_mul_normal; assumption|nra].
    + rewrite Uv. lra.
Qed.

(* exact statistics of a list of truncated samples z_i, read as y_i = z_i / m *)
Definition zsqsum (m : Z) (l : list Z) : R := rsum (map (fun z => (IZR z / IZR m) * (IZR z / IZR m)) l).
Definition zvar (m : Z) (l : list Z) : R :=
  rsum (map (fun z => (IZR z / IZR m - zmean m l) * (IZR z / IZR m - zmean m l)) l) / (INR (length l) - 1).

Lemma zsqsum_unf m l : (0 < m)%Z -> zsqsum m l = IZR (zsum (map (fun z => (z * z)%Z) l)) / IZR (m * m).
Proof. exact (rsum_sq_div m l). Qed.

Lemma zsum_sq_nonneg l : (0 <= zsum (map (fun z => (z * z)%Z) l))%Z.
Proof. induction l as [|z l IH]; cbn [map zsum]; nia. Qed.

Lemma zvar_unf m l : (2 <= length l)%nat ->
  zvar m l = (zsqsum m l - INR (length l) * zmean m l * zmean m l) / (INR (length l) - 1).
Proof.
  intros Hl. unfold zvar, zsqsum, zmean. f_equal.
  pose proof (rsum_sq_dev (map (fun z => IZR z / IZR m) l)) as E. cbv zeta in E. rewrite !map_map, map_length in E.
  apply E. destruct l; [inversion Hl|discriminate].
Qed.

(* for every history, once the window (2 <= W <= 64) is full: the reported variance is within
   2^-53 (7 A + 9 B)/(W-1) + 3*2^-1075 of the exact unbiased sample variance of the last W truncated samples, where
   A = sum y_i^2 and B = W mean^2 — a bound that does not depend on the history length *)
Lemma variance_b64_history W h (m : Z) : (2 <= W)%nat -> (W <= 64)%nat -> (0 < m <= 1000000)%Z ->
  Forall (fun x => (Z.abs x <= 100000000)%Z) (since_reset h []) ->
  (W <= length (since_reset h []))%nat ->
  let s := fold_left i_step h (o_init W) in
  let L := lastn W (since_reset h []) in
  exists v, o_variance B64Ops m s = Some v /\
    Rabs (v - zvar m L) <= u64 * (7 * zsqsum m L + 9 * (INR W * zmean m L * zmean m L)) / (INR W - 1) + 3 * eta64.
Proof.
  intros HW2 HW Hm HB Hfull s L. assert (HW0 : (0 < W)%nat) by lia.
  destruct (window_is_last_W W h HW0) as (_ & V2 & V3 & V4 & _). fold s L in V2, V3, V4.
  pose proof (o_inv_W W s _ (o_inv_run W HW0 h)) as HWs.
  pose proof (sum_lt_2p53 W h HW0 HW HB) as Hs53. fold s in Hs53.
  assert (HLW : length L = W) by (unfold L; rewrite lastn_length; lia).
  assert (Hlen : length (o_data s) = W) by lia.
  assert (Hne : o_data s <> []) by (intros E; rewrite E in Hlen; cbn in Hlen; lia).
  assert (HL : L <> []) by (intros E; rewrite E in HLW; cbn in HLW; lia).
  destruct (variance_b64_err m s Hm Hne ltac:(lia) ltac:(lia) Hs53 ltac:(rewrite V4; apply zsum_sq_nonneg))
    as (v & Ev & Bv).
  exists v. split; [exact Ev|].
  rewrite HWs, Hlen, V4, V3, <- (zsqsum_unf m L), <- HLW, <- (zmean_unf m L) in Bv by (lia || exact HL).
  rewrite <- !INR_IZR_INZ in Bv. rewrite (zvar_unf m L ltac:(lia)). rewrite HLW in *. exact Bv.
Qed.
