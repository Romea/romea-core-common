(* AnglesProofs.v — AnglesModel at the real-number instance (C10): rot_zyx = Rz*Ry*Rx is a proper rotation, and the
   quaternion builder yields the same matrix.  Also the home of [rcbn], which exposes the real operations behind the
   dictionary and the record projections; the files on rotations and their derivatives (AnglesRoundtrip, AnglesCoords,
   DerivProofs, PoseCovProofs and the PoseJac files) use it. *)
From Coq Require Import Reals Lra.
From Romea Require Import Num NumR AnglesModel.
Local Open Scope R_scope.

Tactic Notation "rcbn" := cbn [nadd nsub nmul ndiv nneg nabs nsqrt nsin ncos natan nasin nacos natan2 nfmod
                  nzero n_one npi nltb nleb neqb ROps ntwo nhalf nsq
                  m00 m01 m02 m10 m11 m12 m20 m21 m22 v0 v1 v2 qw qx qy qz a00 a01 a10 a11].
Tactic Notation "rcbn" "in" hyp(H) := cbn [nadd nsub nmul ndiv nneg nabs nsqrt nsin ncos natan nasin nacos natan2 nfmod
                  nzero n_one npi nltb nleb neqb ROps ntwo nhalf nsq
                  m00 m01 m02 m10 m11 m12 m20 m21 m22 v0 v1 v2 qw qx qy qz a00 a01 a10 a11] in H.

(* the Z-Y-X rotation the property talks about *)
Definition RX (x : R) : mat3 R := Rx_of ROps (cos x) (sin x).
Definition RY (y : R) : mat3 R := Ry_of ROps (cos y) (sin y).
Definition RZ (z : R) : mat3 R := Rz_of ROps (cos z) (sin z).
Definition rot_zyx (x y z : R) : mat3 R := mmul3 ROps (mmul3 ROps (RZ z) (RY y)) (RX x).

Definition proper_rotation (m : mat3 R) : Prop :=
  mmul3 ROps (mtrans3 m) m = mid3 ROps /\ det3 ROps m = 1.

Lemma sc1 a : sin a * sin a + cos a * cos a = 1.
Proof. pose proof (sin2_cos2 a) as H. unfold Rsqr in H. exact H. Qed.

Lemma mat3_ext (a b : mat3 R) :
  m00 a = m00 b -> m01 a = m01 b -> m02 a = m02 b ->
  m10 a = m10 b -> m11 a = m11 b -> m12 a = m12 b ->
  m20 a = m20 b -> m21 a = m21 b -> m22 a = m22 b -> a = b.
Proof. destruct a, b; cbn; intros; subst; reflexivity. Qed.

Lemma rot_zyx_entries x y z :
  rot_zyx x y z = mkM3
    (cos z * cos y) (cos z * sin y * sin x - sin z * cos x) (cos z * sin y * cos x + sin z * sin x)
    (sin z * cos y) (sin z * sin y * sin x + cos z * cos x) (sin z * sin y * cos x - cos z * sin x)
    (- sin y) (cos y * sin x) (cos y * cos x).
Proof. unfold rot_zyx, RX, RY, RZ, mmul3, Rx_of, Ry_of, Rz_of. rcbn. f_equal; ring. Qed.

(* each entry is a polynomial identity modulo sin^2 = 1 - cos^2 of the three angles *)
Lemma rzyx_proper x y z : proper_rotation (rot_zyx x y z).
Proof.
  rewrite rot_zyx_entries. unfold proper_rotation, mmul3, mtrans3, mid3, det3. rcbn.
  assert (Hx : sin x * sin x = 1 - cos x * cos x) by (pose proof (sc1 x); lra).
  assert (Hy : sin y * sin y = 1 - cos y * cos y) by (pose proof (sc1 y); lra).
  assert (Hz : sin z * sin z = 1 - cos z * cos z) by (pose proof (sc1 z); lra).
  split; [f_equal|]; ring [Hx Hy Hz].
Qed.

(* SmartRotation3D::R is that matrix, by construction *)
Lemma smart_R_is_rzyx x y z : sR (smart_init ROps x y z) = rot_zyx x y z.
Proof. reflexivity. Qed.

(* the quaternion builder: on unit quaternions toRotationMatrix turns the quaternion product into the matrix
   product, and it sends the three axis quaternions to RX, RY, RZ *)
Lemma qnorm2_qmul a b : qnorm2 ROps (qmul ROps a b) = qnorm2 ROps a * qnorm2 ROps b.
Proof. unfold qnorm2, qmul. rcbn. ring. Qed.

Lemma qmul_unit a b : qnorm2 ROps a = 1 -> qnorm2 ROps b = 1 -> qnorm2 ROps (qmul ROps a b) = 1.
Proof. intros Ha Hb. rewrite qnorm2_qmul, Ha, Hb. ring. Qed.

Lemma quat_to_mat_qmul a b : qnorm2 ROps a = 1 -> qnorm2 ROps b = 1 ->
  quat_to_mat ROps (qmul ROps a b) = mmul3 ROps (quat_to_mat ROps a) (quat_to_mat ROps b).
Proof.
  destruct a as [aw ax ay az], b as [bw bx b_y bz]. unfold qnorm2, quat_to_mat, qmul, mmul3. rcbn. intros Ha Hb.
  (* toRotationMatrix writes the diagonal as 1 - 2(..): each entry is a polynomial identity modulo the two norms *)
  assert (Ha' : aw * aw = 1 - ax * ax - ay * ay - az * az) by lra.
  assert (Hb' : bw * bw = 1 - bx * bx - b_y * b_y - bz * bz) by lra.
  f_equal; ring [Ha' Hb'].
Qed.

Lemma half_angle a (h := nmul ROps (nhalf ROps) a) : cos a = 1 - 2 * sin h * sin h /\ sin a = 2 * sin h * cos h.
Proof.
  assert (E : a = 2 * h) by (unfold h; rcbn; field).
  rewrite E at 1 2. split; [apply cos_2a_sin|apply sin_2a].
Qed.

Lemma q_axis_x_rot a : qnorm2 ROps (q_axis_x ROps a) = 1 /\ quat_to_mat ROps (q_axis_x ROps a) = RX a.
Proof.
  unfold RX. destruct (half_angle a) as [-> ->]. unfold qnorm2, quat_to_mat, q_axis_x, Rx_of.
  set (h := nmul ROps (nhalf ROps) a). pose proof (sc1 h). rcbn. split; [|f_equal]; lra.
Qed.
Lemma q_axis_y_rot a : qnorm2 ROps (q_axis_y ROps a) = 1 /\ quat_to_mat ROps (q_axis_y ROps a) = RY a.
Proof.
  unfold RY. destruct (half_angle a) as [-> ->]. unfold qnorm2, quat_to_mat, q_axis_y, Ry_of.
  set (h := nmul ROps (nhalf ROps) a). pose proof (sc1 h). rcbn. split; [|f_equal]; lra.
Qed.
Lemma q_axis_z_rot a : qnorm2 ROps (q_axis_z ROps a) = 1 /\ quat_to_mat ROps (q_axis_z ROps a) = RZ a.
Proof.
  unfold RZ. destruct (half_angle a) as [-> ->]. unfold qnorm2, quat_to_mat, q_axis_z, Rz_of.
  set (h := nmul ROps (nhalf ROps) a). pose proof (sc1 h). rcbn. split; [|f_equal]; lra.
Qed.

Lemma euler_quat_unit x y z : qnorm2 ROps (eulerAnglesToQuaternion ROps (mkV3 x y z)) = 1.
Proof. apply qmul_unit; [apply qmul_unit|]; [apply q_axis_z_rot|apply q_axis_y_rot|apply q_axis_x_rot]. Qed.

Lemma quat_builder_eq_matrix_builder x y z :
  eulerAnglesToRotation3D ROps (mkV3 x y z) = rot_zyx x y z.
Proof.
  destruct (q_axis_x_rot x) as [Ux Mx]. destruct (q_axis_y_rot y) as [Uy My]. destruct (q_axis_z_rot z) as [Uz Mz].
  unfold eulerAnglesToRotation3D, eulerAnglesToQuaternion, rot_zyx. cbn [v0 v1 v2].
  rewrite (quat_to_mat_qmul _ _ (qmul_unit _ _ Uz Uy) Ux), (quat_to_mat_qmul _ _ Uz Uy), Mx, My, Mz. reflexivity.
Qed.
