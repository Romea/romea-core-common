(* LsHistoryProofs.v — history independence of the LeastSquares state machine (LsModel.v), for EVERY numeric
   dictionary (so it also holds, bit for bit, for the float instances of the model).
   1. [ls_wf] is an invariant of every op sequence.
   2. The estimate ops read only the "problem" (sizes, A, b, first dataSize rows of J/Y/W).
   3. Loading a problem (setDataSize n, rows 0..n-1, preconditioner) from ANY reachable state yields the same
      problem, hence the same estimate as on a fresh solver. *)
From Coq Require Import List Arith Lia Bool.
From Romea Require Import Num LinAlgBModel LinAlgBProofs LsModel.
Import ListNotations.

Lemma set_nth_0 {A} (x a : A) l : set_nth 0 x (a :: l) = x :: l.
Proof. reflexivity. Qed.
Lemma set_nth_S {A} i (x a : A) l : set_nth (S i) x (a :: l) = a :: set_nth i x l.
Proof. reflexivity. Qed.
Lemma set_nth_nil {A} i (x : A) : set_nth i x [] = [].
Proof. unfold set_nth. destruct i; reflexivity. Qed.

Lemma length_set_nth {A} i (x : A) l : length (set_nth i x l) = length l.
Proof.
  revert i. induction l as [|a l IH]; intros i; [now rewrite set_nth_nil|].
  destruct i; [reflexivity|]. rewrite set_nth_S. cbn. now rewrite IH.
Qed.

Lemma nth_set_nth_eq {A} i (x d : A) l : (i < length l)%nat -> nth i (set_nth i x l) d = x.
Proof.
  revert i. induction l as [|a l IH]; intros i H; [cbn in H; lia|].
  destruct i; [reflexivity|]. rewrite set_nth_S. cbn. apply IH. cbn in H. lia.
Qed.

Lemma nth_set_nth_neq {A} i j (x d : A) l : i <> j -> nth j (set_nth i x l) d = nth j l d.
Proof.
  revert i j. induction l as [|a l IH]; intros i j H; [now rewrite set_nth_nil|].
  destruct i, j; try reflexivity; try lia. rewrite set_nth_S. cbn. apply IH. lia.
Qed.

Lemma Forall_set_nth {A} (P : A -> Prop) i x l : Forall P l -> P x -> Forall P (set_nth i x l).
Proof.
  revert i. induction l as [|a l IH]; intros i Hl Hx; [now rewrite set_nth_nil|].
  inversion Hl; subst. destruct i; [now constructor|]. rewrite set_nth_S. constructor; auto.
Qed.

Lemma nth_map_indexed {A B} (f : nat * A -> B) (l : list A) i (da : A) (db : B) : (i < length l)%nat ->
  nth i (map f (combine (seq 0 (length l)) l)) db = f (i, nth i l da).
Proof.
  intros H. rewrite (nth_map_lt f _ i (0%nat, da)) by (now rewrite combine_length, seq_length, Nat.min_id).
  rewrite combine_nth by apply seq_length. now rewrite seq_nth.
Qed.

Lemma Forall_mtab {T} n m (f : nat -> nat -> T) : Forall (fun r => length r = m) (mtab n m f).
Proof.
  unfold mtab. apply Forall_forall. intros r Hr. unfold tab at 1 in Hr. apply in_map_iff in Hr.
  destruct Hr as (i & <- & _). apply length_tab.
Qed.

Section History.
Context {T : Type} (N : NumOps T).
Variable inverse_of : nat -> list (list T) -> list (list T).
Variable svd_of : nat -> list (list T) -> (list (list T) * list T) * list (list T).
Variable fill : T.
Variable svd_fixed : bool.

Local Notation step := (ls_step N inverse_of svd_of fill svd_fixed).
Local Notation run := (ls_run N inverse_of svd_of fill svd_fixed).

Definition ls_wf (s : ls_state (T:=T)) : Prop :=
  length (ls_J s) = length (ls_Y s) /\ length (ls_W s) = length (ls_Y s) /\
  (ls_n s <= length (ls_Y s))%nat /\ Forall (fun r => length r = ls_jcols s) (ls_J s).

Lemma wf_new0 : ls_wf ls_new0.
Proof. repeat split; cbn; auto. Qed.
Lemma wf_new1 k : ls_wf (ls_new1 N k).
Proof. repeat split; cbn; auto. Qed.
Lemma wf_new2 k n : ls_wf (ls_new2 N k n).
Proof.
  unfold ls_new2, ls_wf; cbn. unfold mzero, vzero. rewrite length_mtab, !length_tab. repeat split; auto.
  apply Forall_mtab.
Qed.

Lemma wf_weight s : ls_wf s -> ls_wf (ls_weight N s).
Proof.
  intros (HJ & HW & Hn & HF). unfold ls_weight, ls_wf; cbn.
  rewrite !map_length, !combine_length, !seq_length, !Nat.min_id. repeat split; auto.
  apply Forall_forall. intros r Hr. apply in_map_iff in Hr. destruct Hr as ([i r0] & <- & Hin).
  apply in_combine_r in Hin. rewrite Forall_forall in HF. specialize (HF r0 Hin).
  cbv beta iota. match goal with |- context [if ?c then _ else _] => destruct c end; [now rewrite map_length|assumption].
Qed.

Lemma weight_J_get s a b : ls_wf s -> (a < length (ls_J s))%nat -> (b < ls_jcols s)%nat ->
  mget N (ls_J (ls_weight N s)) a b =
  if Nat.ltb a (ls_n s) then nmul N (mget N (ls_J s) a b) (vget N (ls_W s) a) else mget N (ls_J s) a b.
Proof.
  intros (_ & _ & _ & HF) Ha Hb. unfold mget, ls_weight; cbn [ls_J]. rewrite (nth_map_indexed _ (ls_J s) a [] []) by exact Ha.
  destruct (Nat.ltb a (ls_n s)); [|reflexivity].
  apply (nth_map_lt (fun x => nmul N x (vget N (ls_W s) a))). rewrite Forall_forall in HF. rewrite (HF _ (nth_In _ _ Ha)). exact Hb.
Qed.

Lemma wf_with_inv s inv : ls_wf s -> ls_wf (ls_with_inv s inv).
Proof. intros H. exact H. Qed.

(* The estimate functions differ only in where the inverse of the normal matrix comes from:
   [ls_estimate_chol N inverse_of] is [estimate_with inverse_of], both SVD paths are [estimate_with pinv_of],
   and [ls_weighted_estimate N inverse_of s] is [estimate_with inverse_of (ls_weight N s)] guarded by [ls_est_ok s]. *)
Definition estimate_with (F : nat -> list (list T) -> list (list T)) (s : ls_state (T:=T)) : option (ls_state (T:=T) * list T) :=
  if ls_est_ok s then Some (ls_with_inv s (F (ls_k s) (ls_JtJ N s)), ls_apply N s (F (ls_k s) (ls_JtJ N s))) else None.

Definition pinv_of (k : nat) (M : list (list T)) : list (list T) :=
  if svd_fixed then svd_pinv N k (nmul N (nepsilon N) (vget N (snd (fst (svd_of k M))) 0)) (svd_of k M)
  else svd_pinv N k (nepsilon N) (svd_of k M).

Lemma chol_estimate_with s : ls_estimate_chol N inverse_of s = estimate_with inverse_of s.
Proof. reflexivity. Qed.

Lemma weighted_estimate_with s :
  ls_weighted_estimate N inverse_of s = if ls_est_ok s then estimate_with inverse_of (ls_weight N s) else None.
Proof. reflexivity. Qed.

Lemma svd_estimate_with s :
  (if svd_fixed then ls_estimate_svd N svd_of s else ls_estimate_svd_abs N svd_of s) = estimate_with pinv_of s.
Proof. unfold pinv_of. destruct svd_fixed; reflexivity. Qed.

Lemma estimate_with_inv F s st x : estimate_with F s = Some (st, x) ->
  ls_est_ok s = true /\ st = ls_with_inv s (F (ls_k s) (ls_JtJ N s)) /\ x = ls_apply N s (F (ls_k s) (ls_JtJ N s)).
Proof. unfold estimate_with. destruct (ls_est_ok s); [|discriminate]. intros [= <- <-]. auto. Qed.

Lemma step_state s o s' out : step s o = Some (s', out) ->
  match o with
  | OpSetEstimateSize k => s' = ls_set_estimate_size N k s
  | OpSetDataSize n => s' = fst (ls_set_data_size N fill n s)
  | OpSetRow i row y w => ls_set_row i row y w s = Some s'
  | OpSetPrecond A b => s' = ls_set_precond A b s
  | OpSetPrecondA A => s' = ls_set_precond_A N A s
  | OpEstimateChol | OpEstimateSVD => exists inv, s' = ls_with_inv s inv
  | OpWeightedEstimate => exists inv, s' = ls_with_inv (ls_weight N s) inv
  | OpCovariance _ => s' = s
  end.
Proof.
  destruct o; cbn [ls_step].
  - now intros [= <- _].
  - destruct (ls_set_data_size N fill n s). now intros [= <- _].
  - destruct (ls_set_row i row y w s); [|discriminate]. now intros [= <- _].
  - now intros [= <- _].
  - now intros [= <- _].
  - rewrite chol_estimate_with. destruct (estimate_with inverse_of s) as [[st x]|] eqn:E; [|discriminate]. intros [= <- _].
    apply estimate_with_inv in E. destruct E as (_ & -> & _). eauto.
  - rewrite svd_estimate_with. destruct (estimate_with pinv_of s) as [[st x]|] eqn:E; [|discriminate]. intros [= <- _].
    apply estimate_with_inv in E. destruct E as (_ & -> & _). eauto.
  - rewrite weighted_estimate_with. destruct (ls_est_ok s); [|discriminate].
    destruct (estimate_with inverse_of (ls_weight N s)) as [[st x]|] eqn:E; [|discriminate]. intros [= <- _].
    apply estimate_with_inv in E. destruct E as (_ & -> & _). eauto.
  - now intros [= <- _].
Qed.

Lemma step_wf s o s' out : ls_wf s -> step s o = Some (s', out) -> ls_wf s'.
Proof.
  intros Hwf Hs. apply step_state in Hs. pose proof Hwf as (HJ & HW & Hn & HF). destruct o.
  - subst. exact Hwf.
  - subst. unfold ls_set_data_size. destruct (Nat.ltb_spec (length (ls_Y s)) n) as [E|E]; cbn [fst].
    + unfold ls_wf; cbn. rewrite length_mtab, !length_tab. repeat split; auto. apply Forall_mtab.
    + repeat split; auto.
  - unfold ls_set_row in Hs. destruct (ls_row_ok i row s) eqn:E; [|discriminate]. injection Hs as <-.
    apply andb_true_iff in E. destruct E as [_ E]. apply Nat.eqb_eq in E.
    unfold ls_wf; cbn. rewrite !length_set_nth. repeat split; auto. now apply Forall_set_nth.
  - subst. exact Hwf.
  - subst. exact Hwf.
  - destruct Hs as (inv & ->). exact Hwf.
  - destruct Hs as (inv & ->). exact Hwf.
  - destruct Hs as (inv & ->). now apply wf_weight.
  - subst. exact Hwf.
Qed.

Lemma run_cons o r s s' outs : run (o :: r) s = Some (s', outs) ->
  exists s1 out outs', step s o = Some (s1, out) /\ run r s1 = Some (s', outs') /\ outs = out :: outs'.
Proof.
  cbn [ls_run]. destruct (step s o) as [[s1 out]|]; [|discriminate].
  destruct (run r s1) as [[s2 outs2]|] eqn:E; [|discriminate]. intros [= <- <-]. exists s1, out, outs2. auto.
Qed.

Theorem run_wf ops : forall s s' outs, ls_wf s -> run ops s = Some (s', outs) -> ls_wf s'.
Proof.
  induction ops as [|o r IH]; intros s s' outs Hwf H.
  - injection H as <- _. exact Hwf.
  - apply run_cons in H. destruct H as (s1 & out & outs' & Hs & Hr & _).
    exact (IH _ _ _ (step_wf _ _ _ _ Hwf Hs) Hr).
Qed.

Lemma run_app ops1 : forall ops2 s, run (ops1 ++ ops2) s =
  match run ops1 s with
  | None => None
  | Some (s1, o1) => match run ops2 s1 with None => None | Some (s2, o2) => Some (s2, o1 ++ o2) end
  end.
Proof.
  induction ops1 as [|o r IH]; intros ops2 s; cbn [app ls_run].
  - destruct (run ops2 s) as [[s2 o2]|]; reflexivity.
  - destruct (step s o) as [[s1 out]|]; [|reflexivity]. rewrite IH.
    destruct (run r s1) as [[s2 o2]|]; [|reflexivity].
    destruct (run ops2 s2) as [[s3 o3]|]; reflexivity.
Qed.

Definition same_problem (s1 s2 : ls_state (T:=T)) : Prop :=
  ls_n s1 = ls_n s2 /\ ls_k s1 = ls_k s2 /\ ls_A s1 = ls_A s2 /\ ls_b s1 = ls_b s2 /\
  forall r, (r < ls_n s1)%nat ->
    nth r (ls_J s1) [] = nth r (ls_J s2) [] /\ nth r (ls_Y s1) (nzero N) = nth r (ls_Y s2) (nzero N) /\
    nth r (ls_W s1) (nzero N) = nth r (ls_W s2) (nzero N).

Lemma same_JtJ s1 s2 : same_problem s1 s2 -> ls_JtJ N s1 = ls_JtJ N s2.
Proof.
  intros (Hn & Hk & _ & _ & Hr). unfold ls_JtJ. rewrite <- Hk, <- Hn. apply mtab_ext. intros i j _ _.
  apply sumn_ext. intros r Hlt. unfold mget. destruct (Hr r Hlt) as (-> & _). reflexivity.
Qed.

Lemma same_JtY s1 s2 : same_problem s1 s2 -> ls_JtY N s1 = ls_JtY N s2.
Proof.
  intros (Hn & Hk & _ & _ & Hr). unfold ls_JtY. rewrite <- Hk, <- Hn. apply tab_ext. intros i _.
  apply sumn_ext. intros r Hlt. unfold mget, vget. destruct (Hr r Hlt) as (-> & -> & _). reflexivity.
Qed.

Definition out_of (r : option (ls_state (T:=T) * list T)) : option (list T) :=
  match r with Some (_, x) => Some x | None => None end.

Lemma same_estimate_with F s1 s2 : same_problem s1 s2 -> ls_est_ok s1 = ls_est_ok s2 ->
  out_of (estimate_with F s1) = out_of (estimate_with F s2).
Proof.
  intros H Hok. unfold estimate_with, ls_apply. rewrite <- Hok, (same_JtJ _ _ H), (same_JtY _ _ H).
  destruct H as (_ & -> & -> & -> & _). now destruct (ls_est_ok s1).
Qed.

Lemma same_weight s1 s2 : ls_wf s1 -> ls_wf s2 -> same_problem s1 s2 -> same_problem (ls_weight N s1) (ls_weight N s2).
Proof.
  intros (HJ1 & HW1 & Hn1 & _) (HJ2 & HW2 & Hn2 & _) (Hn & Hk & HA & Hb & Hr).
  unfold same_problem, ls_weight; cbn [ls_n ls_k ls_A ls_b ls_J ls_Y ls_W]. repeat split; auto; destruct (Hr r H) as (E1 & E2 & E3).
  - rewrite (nth_map_indexed _ (ls_J s1) r []) by lia. rewrite (nth_map_indexed _ (ls_J s2) r []) by lia.
    cbv beta iota. rewrite <- Hn. apply Nat.ltb_lt in H. rewrite H. unfold vget. now rewrite E1, E3.
  - rewrite (nth_map_indexed _ (ls_Y s1) r (nzero N)) by lia. rewrite (nth_map_indexed _ (ls_Y s2) r (nzero N)) by lia.
    cbv beta iota. rewrite <- Hn. apply Nat.ltb_lt in H. rewrite H. unfold vget. now rewrite E2, E3.
  - exact E3.
Qed.

Lemma est_ok_weight s : ls_est_ok (ls_weight N s) = ls_est_ok s.
Proof. unfold ls_est_ok, ls_weight; cbn. now rewrite map_length, combine_length, seq_length, Nat.min_id. Qed.

Definition est_out (o : ls_op (T:=T)) (s : ls_state (T:=T)) : option (list T) :=
  match o with
  | OpEstimateChol => out_of (ls_estimate_chol N inverse_of s)
  | OpEstimateSVD => out_of (if svd_fixed then ls_estimate_svd N svd_of s else ls_estimate_svd_abs N svd_of s)
  | OpWeightedEstimate => out_of (ls_weighted_estimate N inverse_of s)
  | _ => None
  end.

Theorem same_est_out est s1 s2 : ls_wf s1 -> ls_wf s2 -> same_problem s1 s2 -> ls_est_ok s1 = ls_est_ok s2 ->
  est_out est s1 = est_out est s2.
Proof.
  intros W1 W2 H Hok. destruct est; try reflexivity; cbn [est_out].
  - rewrite !chol_estimate_with. now apply same_estimate_with.
  - rewrite !svd_estimate_with. now apply same_estimate_with.
  - rewrite !weighted_estimate_with, <- Hok. destruct (ls_est_ok s1) eqn:E; [|reflexivity].
    apply (same_estimate_with inverse_of); [now apply same_weight|]. rewrite !est_ok_weight. congruence.
Qed.

Local Notation row_ops := (row_ops N).
Local Notation load_ops := (load_ops N).

Lemma run_row_ops rows ys ws m s :
  ls_wf s -> (m <= length (ls_Y s))%nat -> (forall i, (i < m)%nat -> length (nth i rows []) = ls_jcols s) ->
  exists s' outs, run (row_ops rows ys ws 0 m) s = Some (s', outs) /\
    ls_wf s' /\ ls_n s' = ls_n s /\ ls_k s' = ls_k s /\ ls_A s' = ls_A s /\ ls_b s' = ls_b s /\
    ls_jcols s' = ls_jcols s /\ length (ls_Y s') = length (ls_Y s) /\
    (forall i, (i < m)%nat ->
       nth i (ls_J s') [] = nth i rows [] /\ nth i (ls_Y s') (nzero N) = nth i ys (nzero N) /\
       nth i (ls_W s') (nzero N) = nth i ws (nzero N)).
Proof.
  intros Hwf. induction m as [|m IH]; intros Hlen Hrows.
  - exists s, []. split; [reflexivity|]. split; [exact Hwf|]. repeat split; auto; lia.
  - (* rows 0..m-1 first, then row m, which leaves them alone *)
    destruct IH as (s1 & o1 & Hrun & Hwf1 & E1 & E2 & E3 & E4 & E5 & E6 & Hin); [lia|intros; apply Hrows; lia|].
    unfold row_ops. rewrite seq_S, map_app, run_app. fold (row_ops rows ys ws 0 m). rewrite Hrun.
    cbn [map ls_run Nat.add].
    destruct (step s1 (OpSetRow m (nth m rows []) (nth m ys (nzero N)) (nth m ws (nzero N)))) as [[s2 o2]|] eqn:Hs.
    2:{ cbn [ls_step] in Hs. unfold ls_set_row, ls_row_ok in Hs. rewrite E5, E6, Hrows in Hs by lia.
        rewrite Nat.eqb_refl, (proj2 (Nat.ltb_lt _ _)) in Hs by lia. discriminate. }
    exists s2, (o1 ++ [o2]). split; [reflexivity|]. split; [exact (step_wf _ _ _ _ Hwf1 Hs)|].
    apply step_state in Hs. unfold ls_set_row in Hs. destruct (ls_row_ok _ _ s1); [|discriminate]. injection Hs as <-.
    cbn [ls_n ls_k ls_A ls_b ls_jcols ls_J ls_Y ls_W]. rewrite length_set_nth.
    repeat (split; [assumption|]). destruct Hwf1 as (HJ & HW & _). intros i Hi.
    destruct (Nat.eq_dec i m) as [->|Hne].
    + repeat split; apply nth_set_nth_eq; lia.
    + rewrite !nth_set_nth_neq by auto. apply Hin. lia.
Qed.

(* a state is ready for problems of estimate size k: either J_ already has k columns or nothing was allocated yet *)
Definition ready (k : nat) (s : ls_state (T:=T)) : Prop :=
  ls_wf s /\ ls_k s = k /\ (ls_jcols s = k \/ length (ls_Y s) = 0%nat).

Lemma ready_wf k s : ready k s -> ls_wf s.
Proof. intros H. exact (proj1 H). Qed.
Lemma ready_k k s : ready k s -> ls_k s = k.
Proof. intros H. exact (proj1 (proj2 H)). Qed.

(* setDataSize on a ready state: the buffers have room for n rows of k entries, whether or not it reallocates *)
Lemma ready_set_data_size k n s : ready k s -> (1 <= n)%nat ->
  let s1 := fst (ls_set_data_size N fill n s) in
  ls_wf s1 /\ ls_n s1 = n /\ ls_k s1 = k /\ ls_A s1 = ls_A s /\ ls_b s1 = ls_b s /\ ls_jcols s1 = k /\
  (n <= length (ls_Y s1))%nat.
Proof.
  intros (Hwf & Hk & Hj) Hn s1.
  assert (Hs : step s (OpSetDataSize n) = Some (s1, OutFlag (snd (ls_set_data_size N fill n s)))).
  { cbn [ls_step]. subst s1. now destruct (ls_set_data_size N fill n s). }
  split; [exact (step_wf _ _ _ _ Hwf Hs)|]. subst s1. unfold ls_set_data_size.
  destruct (Nat.ltb_spec (length (ls_Y s)) n) as [El|El]; cbn [fst ls_n ls_k ls_A ls_b ls_jcols ls_Y].
  - rewrite length_tab. repeat split; auto.
  - repeat split; auto. destruct Hj as [Hj|Hj]; [exact Hj|lia].
Qed.

Lemma run_load k n rows ys ws s : ready k s -> (1 <= n)%nat ->
  (forall i, (i < n)%nat -> length (nth i rows []) = k) ->
  exists s' outs, run (load_ops n rows ys ws) s = Some (s', outs) /\
    ls_wf s' /\ ls_n s' = n /\ ls_k s' = k /\ ls_A s' = ls_A s /\ ls_b s' = ls_b s /\ ls_est_ok s' = true /\
    (forall i, (i < n)%nat ->
       nth i (ls_J s') [] = nth i rows [] /\ nth i (ls_Y s') (nzero N) = nth i ys (nzero N) /\
       nth i (ls_W s') (nzero N) = nth i ws (nzero N)).
Proof.
  intros R Hn Hrows. destruct (ready_set_data_size k n s R Hn) as (Hwf1 & En & Ek & EA & Eb & Ej & El).
  unfold load_ops. cbn [ls_run ls_step].
  destruct (ls_set_data_size N fill n s) as [s1 f]. cbn [fst] in *.
  destruct (run_row_ops rows ys ws n s1 Hwf1 El) as (s' & outs & Hrun & Hwf' & F1 & F2 & F3 & F4 & F5 & F6 & Hin).
  { intros i Hi. rewrite Ej. apply Hrows. exact Hi. }
  rewrite Hrun. exists s', (OutFlag f :: outs). split; [reflexivity|].
  split; [exact Hwf'|]. repeat (split; [congruence|]). split; [|exact Hin].
  unfold ls_est_ok. apply andb_true_iff. split; [apply Nat.eqb_eq; congruence|apply Nat.leb_le; lia].
Qed.

(* reachable states stay ready as long as the estimate size is not changed *)
Definition keeps_estimate_size (o : ls_op (T:=T)) : bool :=
  match o with OpSetEstimateSize _ => false | _ => true end.

Lemma step_ready k s o s' out : ready k s -> keeps_estimate_size o = true -> step s o = Some (s', out) -> ready k s'.
Proof.
  intros (Hwf & Hk & Hj) Hkeep Hs. split; [eapply step_wf; eauto|].
  apply step_state in Hs. destruct o; try discriminate.
  - subst. unfold ls_set_data_size. destruct (Nat.ltb (length (ls_Y s)) n); cbn; auto.
  - unfold ls_set_row in Hs. destruct (ls_row_ok i row s); [|discriminate]. injection Hs as <-. cbn.
    rewrite length_set_nth. auto.
  - subst. auto.
  - subst. auto.
  - destruct Hs as (inv & ->). auto.
  - destruct Hs as (inv & ->). auto.
  - destruct Hs as (inv & ->). cbn. rewrite map_length, combine_length, seq_length, Nat.min_id. auto.
  - subst. auto.
Qed.

Lemma run_ready k ops : forall s s' outs, ready k s -> forallb keeps_estimate_size ops = true ->
  run ops s = Some (s', outs) -> ready k s'.
Proof.
  induction ops as [|o r IH]; intros s s' outs Hr Hall H.
  - injection H as <- _. exact Hr.
  - cbn in Hall. apply andb_true_iff in Hall. destruct Hall as [Ho Hall].
    apply run_cons in H. destruct H as (s1 & out & outs' & Hs & Hrun & _).
    exact (IH _ _ _ (step_ready _ _ _ _ _ Hr Ho Hs) Hall Hrun).
Qed.

Lemma ready_new1 k : ready k (ls_new1 N k).
Proof. split; [apply wf_new1|]. cbn. auto. Qed.

Lemma run_problem k n rows ys ws A b s : ready k s -> (1 <= n)%nat ->
  (forall i, (i < n)%nat -> length (nth i rows []) = k) ->
  exists t outs, run (load_ops n rows ys ws ++ [OpSetPrecond A b]) s = Some (t, outs) /\
    ls_wf t /\ ls_n t = n /\ ls_k t = k /\ ls_A t = A /\ ls_b t = b /\ ls_est_ok t = true /\
    (forall i, (i < n)%nat ->
       nth i (ls_J t) [] = nth i rows [] /\ nth i (ls_Y t) (nzero N) = nth i ys (nzero N) /\
       nth i (ls_W t) (nzero N) = nth i ws (nzero N)).
Proof.
  intros R Hn Hrows.
  destruct (run_load k n rows ys ws s R Hn Hrows) as (u & p & Hrun & Wu & Nu & Ku & _ & _ & Oku & D).
  exists (ls_set_precond A b u), (p ++ [OutNone]). split; [rewrite run_app, Hrun; reflexivity|].
  split; [exact Wu|]. repeat split; try assumption; apply D; assumption.
Qed.

Theorem load_then_estimate_history_free k n rows ys ws A b est s1 s2 :
  ready k s1 -> ready k s2 -> (1 <= n)%nat -> (forall i, (i < n)%nat -> length (nth i rows []) = k) ->
  exists t1 o1 t2 o2,
    run (load_ops n rows ys ws ++ [OpSetPrecond A b]) s1 = Some (t1, o1) /\
    run (load_ops n rows ys ws ++ [OpSetPrecond A b]) s2 = Some (t2, o2) /\
    est_out est t1 = est_out est t2.
Proof.
  intros R1 R2 Hn Hrows.
  destruct (run_problem k n rows ys ws A b s1 R1 Hn Hrows) as (t1 & o1 & Hr1 & W1 & N1 & K1 & A1 & B1 & Ok1 & D1).
  destruct (run_problem k n rows ys ws A b s2 R2 Hn Hrows) as (t2 & o2 & Hr2 & W2 & N2 & K2 & A2 & B2 & Ok2 & D2).
  exists t1, o1, t2, o2. split; [exact Hr1|]. split; [exact Hr2|].
  apply same_est_out; [exact W1|exact W2| |congruence].
  repeat split; try congruence; rewrite N1 in H; destruct (D1 r H) as (E1 & E2 & E3), (D2 r H) as (G1 & G2 & G3); congruence.
Qed.

(* headline: whatever was solved before with the object, a problem gives the estimate a fresh solver gives *)
Theorem history_independent k hist s outs n rows ys ws A b est :
  forallb keeps_estimate_size hist = true ->
  run hist (ls_new1 N k) = Some (s, outs) ->
  (1 <= n)%nat -> (forall i, (i < n)%nat -> length (nth i rows []) = k) ->
  exists t1 o1 t2 o2,
    run (load_ops n rows ys ws ++ [OpSetPrecond A b]) s = Some (t1, o1) /\
    run (load_ops n rows ys ws ++ [OpSetPrecond A b]) (ls_new1 N k) = Some (t2, o2) /\
    est_out est t1 = est_out est t2.
Proof.
  intros Hkeep Hrun Hn Hrows. apply (load_then_estimate_history_free k); auto.
  - eapply run_ready; [apply ready_new1|exact Hkeep|exact Hrun].
  - apply ready_new1.
Qed.

End History.
