(* LsCovContract.v — C12, least-squares sentence: with the contract of the oracle argument inv = inverseJtJ_
   (inv * J^T J = I, the relation the LDLT solve against the identity is trusted for and that the model checks at
   run time by ls_inv_residual) the reported covariance is the data variance times the INVERSE NORMAL MATRIX mapped
   through the diagonal preconditioner:  A^-1 * cov * A^-1 * (J^T J) = variance * I,  i.e.  cov = variance * A (J^T J)^-1 A. *)
From Coq Require Import Reals ZArith Lra Lia Arith Bool.
From Romea Require Import Num NumR AnglesModel AnglesProofs AnglesRoundtrip PoseCovModel PoseCovProofs PoseJacProofs.
Local Open Scope R_scope.

(* inv is a left inverse of the normal matrix nm on indices < n *)
Definition ls_inv_contract (n : nat) (inv nm : mat R) : Prop :=
  forall i k, (i < n)%nat -> (k < n)%nat -> rsum n (fun r => inv i r * nm r k) = if Nat.eqb i k then 1 else 0.

Lemma ls_covariance_inverse_normal m n (jac a inv : mat R) v :
  gdiagonal n a -> (forall i, (i < n)%nat -> a i i <> 0) ->
  ls_inv_contract n inv (ls_JtJ ROps m n jac) ->
  forall i k, (i < n)%nat -> (k < n)%nat ->
    rsum n (fun j => ls_covariance ROps n a inv v i j / (a i i * a j j) * ls_JtJ ROps m n jac j k) =
    if Nat.eqb i k then v else 0.
Proof.
  intros Hd Hnz Hc i k Hi Hk.
  transitivity (rsum n (fun j => v * (inv i j * ls_JtJ ROps m n jac j k))).
  - apply rsum_ext. intros j Hj.
    rewrite (proj1 (ls_covariance_diag n a inv v i j Hd Hi Hj)).
    pose proof (Hnz i Hi). pose proof (Hnz j Hj). field. split; assumption.
  - rewrite rsum_scal, (Hc i k Hi Hk). destruct (Nat.eqb i k); ring.
Qed.

(* the contract determines inv: a left inverse of a matrix that has a right inverse is that right inverse,
   inv = inv (nm rinv) = (inv nm) rinv = rinv; in particular the statement above pins cov down to
   variance * A * (J^T J)^-1 * A whenever J^T J is invertible *)
Lemma ls_inv_contract_unique n (inv1 inv2 nm rinv : mat R) :
  ls_inv_contract n inv1 nm -> ls_inv_contract n inv2 nm ->
  (forall i k, (i < n)%nat -> (k < n)%nat -> rsum n (fun r => nm i r * rinv r k) = if Nat.eqb i k then 1 else 0) ->
  forall i k, (i < n)%nat -> (k < n)%nat -> inv1 i k = inv2 i k.
Proof.
  intros H1 H2 Hr i k Hi Hk.
  assert (E : forall inv, ls_inv_contract n inv nm -> inv i k = rinv i k).
  { intros inv Hc.
    rewrite <- (gmul_id_r n inv (gmul ROps n nm rinv) i k Hk) by (intros s Hs; apply Hr; assumption).
    rewrite <- gmul_assoc. apply gmul_id_l; [exact Hi|]. intros s Hs. apply Hc; assumption. }
  rewrite (E inv1 H1), (E inv2 H2). reflexivity.
Qed.

(* witness: one unknown, one row J = (2): J^T J = 4, inv = 1/4, preconditioner 3 *)
Lemma ex_ls_contract :
  ls_inv_contract 1 (fun _ _ => / 4) (ls_JtJ ROps 1 1 (fun _ _ => 2)) /\
  gdiagonal 1 (fun _ _ => 3) /\ (forall i, (i < 1)%nat -> (fun _ _ : nat => 3) i i <> 0).
Proof.
  split; [|split].
  - intros i k Hi Hk. assert (i = 0%nat) by lia. assert (k = 0%nat) by lia. subst. unfold ls_JtJ. cbn. field.
  - intros i j Hi Hj Hne. lia.
  - intros i _. lra.
Qed.
