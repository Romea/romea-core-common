(* Properties_C15.v — C15: scrolling grid keeps surviving cells and blanks entering cells after any scrolls. *)
From Coq Require Import ZArith List Bool Arith Lia.
From Romea Require Import WrapGridModel WrapGridProofs WrapGridImp WrapGridImpFacts SrcTieC15.
From Romea.gen Require Import SrcWrapGrid.
Import ListNotations.

(* Refinement, for every grid size (2D and 3D), every valid starting state and EVERY sequence of translations
   and writes: the concrete grid (wrapped offsets + flat buffer + blanking loops) reads, at every in-window cell,
   exactly what the sliding-window spec reads:
     spec_translate w k e = fun i => if i + k is inside the window then w (i + k) else e
     spec_write w i v     = w with i := v
   i.e. a cell that stays inside the window keeps its value, a cell entering the window reads the empty value
   supplied to that translation. *)
Theorem C15_wrap_refines_window : forall (V : Type) (ops : list (gop (V:=V))) g w, valid g -> refines g w ->
  let g' := fold_left gstep ops g in
  valid g' /\ same_shape g g' /\ refines g' (fold_left (sstep g) ops w).
Proof. exact @wrap_refines_window. Qed.
Print Assumptions C15_wrap_refines_window.

(* the reported index offset = accumulated offset modulo the grid size (size_t/int wrap-around included) *)
Theorem C15_offset_is_sum_mod : forall (V : Type) (ops : list (gop (V:=V))) g,
  valid g -> g_ox g = 0 -> g_oy g = 0 -> g_oz g = 0 ->
  let g' := fold_left gstep ops g in
  let '(sx, sy, sz) := fold_left acc_k ops (0, 0, 0)%Z in
  Z.of_nat (g_ox g') = (sx mod Z.of_nat (g_nx g))%Z /\
  Z.of_nat (g_oy g') = (sy mod Z.of_nat (g_ny g))%Z /\
  (g_dim3 g = true -> Z.of_nat (g_oz g') = (sz mod Z.of_nat (g_nz g))%Z).
Proof. exact @offset_is_sum_mod. Qed.
Print Assumptions C15_offset_is_sum_mod.

(* one translation, spelled out per axis (what the refinement is built from) *)
Theorem C15_translate_x_read : forall (V : Type) (g : wgrid V) k e x y z, valid g -> in_window g (x, y, z) = true ->
  g_read (translate_x g k e) (x, y, z) = if inb (g_nx g) x k then g_read g (shift x k, y, z) else Some e.
Proof. intros V g k e x y z. exact (translate_axis_read AX g k e (x, y, z)). Qed.
Theorem C15_translate_y_read : forall (V : Type) (g : wgrid V) k e x y z, valid g -> in_window g (x, y, z) = true ->
  g_read (translate_y g k e) (x, y, z) = if inb (g_ny g) y k then g_read g (x, shift y k, z) else Some e.
Proof. intros V g k e x y z. exact (translate_axis_read AY g k e (x, y, z)). Qed.
Theorem C15_translate_z_read : forall (V : Type) (g : wgrid V) k e x y z, valid g -> in_window g (x, y, z) = true ->
  g_read (translate_z g k e) (x, y, z) = if inb (g_nz g) z k then g_read g (x, y, shift z k) else Some e.
Proof. intros V g k e x y z. exact (translate_axis_read AZ g k e (x, y, z)). Qed.
Print Assumptions C15_translate_z_read.

(* the size_t expression (offset + n + k % (int)n) % n computes (offset + k) mod n, also for k < -n *)
Theorem C15_new_offset_spec : forall off n k, 0 < n -> off < n -> (Z.of_nat n < 2 ^ 31)%Z ->
  Z.of_nat (new_offset off n k) = ((Z.of_nat off + k) mod Z.of_nat n)%Z.
Proof. exact new_offset_spec. Qed.

(* a freshly constructed grid meets the hypotheses (non-vacuity of valid/refines) *)
Theorem C15_init_valid : forall (V : Type) dim3 nx ny nz (d : V), 0 < nx -> 0 < ny -> 0 < nz ->
  (Z.of_nat nx < 2 ^ 31)%Z -> (Z.of_nat ny < 2 ^ 31)%Z -> (Z.of_nat nz < 2 ^ 31)%Z ->
  valid (g_init dim3 nx ny nz d) /\ refines (g_init dim3 nx ny nz d) (fun _ => d).
Proof.
  intros V dim3 nx ny nz d Hx Hy Hz Bx By Bz.
  assert (Hv : valid (g_init dim3 nx ny nz d)).
  { unfold valid, g_init. cbn. rewrite repeat_length. destruct dim3; repeat split; try lia; try reflexivity; try discriminate. }
  split; [exact Hv|]. intros i Hi. unfold g_read. rewrite Hi.
  pose proof (lin_lt _ i Hv) as L. unfold g_init in *. cbn [g_buf] in *.
  destruct (nth_error (repeat d _) _) eqn:E.
  - apply nth_error_In in E. apply repeat_spec in E. subst. reflexivity.
  - apply nth_error_None in E. lia.
Qed.
Print Assumptions C15_init_valid.

(* ================================================================== SYNTACTIC SOURCE TIE
   gen/SrcWrapGrid.v holds the bodies of WrappableGrid<int, 2|3>::translate, computeCellLinearIndex_ (with wrapCellIndexes_
   inlined), operator() and the constructor / Grid::init, regenerated on every run from the clang AST as programs of the
   small imperative language of WrapGridImp.v (size_t arithmetic reduced mod 2^64, int arithmetic with overflow = None,
   C++ `%`, counted for-loops whose condition is re-checked on every pass).  The theorems below say that RUNNING those
   programs computes exactly the model's translate step / linear index — for every grid size allowed by `valid` whose
   buffer is addressable (`fits`: nx*ny*nz < 2^64), every int offset and every state: so the refinement theorems above
   apply to the code as written.  `represents s g`: the object state s (members numberOfCellsAlongAxes_, ...MinusOne_,
   indexCoefficients_, indexOffsetsAlongAxes_, buffer_) is the model grid g. *)
Theorem C15_source_tie_translate_2d : forall (V : Type) (g : wgrid V) (e : V) (kx ky kz : Z) (s : state V),
  valid g -> g_dim3 g = false -> fits g ->
  (- two31 <= kx < two31)%Z -> (- two31 <= ky < two31)%Z ->
  represents s g -> get s (VPar 0) = kx -> get s (VPar 1) = ky ->
  exists s', exec e src_translate_2d s = Some s' /\ represents s' (translate g kx ky kz e).
Proof. exact @translate_2d_tie. Qed.
Print Assumptions C15_source_tie_translate_2d.

Theorem C15_source_tie_translate_3d : forall (V : Type) (g : wgrid V) (e : V) (kx ky kz : Z) (s : state V),
  valid g -> g_dim3 g = true -> fits g ->
  (- two31 <= kx < two31)%Z -> (- two31 <= ky < two31)%Z -> (- two31 <= kz < two31)%Z ->
  represents s g -> get s (VPar 0) = kx -> get s (VPar 1) = ky -> get s (VPar 2) = kz ->
  exists s', exec e src_translate_3d s = Some s' /\ represents s' (translate g kx ky kz e).
Proof. exact @translate_3d_tie. Qed.
Print Assumptions C15_source_tie_translate_3d.

(* computeCellLinearIndex_(cellIndexes) = wrapCellIndexes_(cellIndexes).dot(indexCoefficients_) in size_t arithmetic is the
   model's lin (no size_t operation wraps); 2D and 3D *)
Theorem C15_source_tie_linear_index : forall (V : Type) (g : wgrid V) (s : state V) (x y z : nat),
  valid g -> fits g -> frame g s -> in_window g (x, y, z) = true ->
  get s (VArg 0) = Z.of_nat x -> get s (VArg 1) = Z.of_nat y ->
  (g_dim3 g = false -> eval src_linear_index_2d s = Some (Z.of_nat (lin g (x, y, z)))) /\
  (g_dim3 g = true -> get s (VArg 2) = Z.of_nat z -> eval src_linear_index_3d s = Some (Z.of_nat (lin g (x, y, z)))).
Proof.
  intros V g s x y z Hv Hf F Hw A0 A1. apply in_window_spec in Hw. destruct Hw as (Lx & Ly & Lz). split.
  - intros Hd. apply (frame_2d g s Hd) in F.
    assert (z = 0)%nat by (rewrite (valid_2d g Hv Hd) in Lz; lia). subst z.
    apply linear_index_2d; assumption.
  - intros Hd A2. apply (frame_3d g s Hd) in F. apply linear_index_3d; assumption.
Qed.
Print Assumptions C15_source_tie_linear_index.

(* operator()(cellIndexes) (const and non-const) indexes buffer_ at lin; reading / writing there is g_read / g_write *)
Theorem C15_source_tie_cell_index_2d : forall (V : Type) (g : wgrid V) (s : state V) (x y : nat),
  valid g -> g_dim3 g = false -> fits g -> frame g s -> (x < g_nx g)%nat -> (y < g_ny g)%nat ->
  get s (VArg 0) = Z.of_nat x -> get s (VArg 1) = Z.of_nat y ->
  eval src_cell_index_2d s = Some (Z.of_nat (lin g (x, y, 0%nat))) /\
  eval src_cell_index_const_2d s = Some (Z.of_nat (lin g (x, y, 0%nat))).
Proof.
  intros V g s x y Hv Hd Hf F Lx Ly A0 A1. apply (frame_2d g s Hd) in F.
  assert (E : eval src_linear_index_2d (set (set s (VArg 0) (get s (VArg 0))) (VArg 1) (get s (VArg 1)))
              = Some (Z.of_nat (lin g (x, y, 0%nat)))) by (apply linear_index_2d; assumption).
  split; exact E.
Qed.
Theorem C15_source_tie_cell_index_3d : forall (V : Type) (g : wgrid V) (s : state V) (x y z : nat),
  valid g -> g_dim3 g = true -> fits g -> frame g s -> (x < g_nx g)%nat -> (y < g_ny g)%nat -> (z < g_nz g)%nat ->
  get s (VArg 0) = Z.of_nat x -> get s (VArg 1) = Z.of_nat y -> get s (VArg 2) = Z.of_nat z ->
  eval src_cell_index_3d s = Some (Z.of_nat (lin g (x, y, z))) /\
  eval src_cell_index_const_3d s = Some (Z.of_nat (lin g (x, y, z))).
Proof.
  intros V g s x y z Hv Hd Hf F Lx Ly Lz A0 A1 A2. apply (frame_3d g s Hd) in F.
  assert (E : eval src_linear_index_3d (set (set (set s (VArg 0) (get s (VArg 0))) (VArg 1) (get s (VArg 1))) (VArg 2) (get s (VArg 2)))
              = Some (Z.of_nat (lin g (x, y, z)))) by (apply linear_index_3d; assumption).
  split; exact E.
Qed.
Theorem C15_source_tie_cell_access : forall (V : Type) (g : wgrid V) (s : state V) (i : idx),
  represents s g -> in_window g i = true ->
  nth_error (s_buf s) (lin g i) = g_read g i /\
  forall v, represents (set_buf s (set_nth (lin g i) v (s_buf s))) (g_write g i v).
Proof.
  intros V g s i (F & B) Hw. unfold g_read, g_write. rewrite Hw, B. split; [reflexivity|]. intros v. split; [|reflexivity].
  exact F.
Qed.

(* the constructor (Grid::init, then the member initialisers) establishes the members of a fresh model grid *)
Theorem C15_source_tie_constructor_2d : forall (V : Type) (e : V) (s : state V) nx ny nz (d : V),
  (0 < nx)%nat -> (0 < ny)%nat -> (Z.of_nat nx < 2 ^ 31)%Z -> (Z.of_nat ny < 2 ^ 31)%Z ->
  get s (VArg 0) = Z.of_nat nx -> get s (VArg 1) = Z.of_nat ny ->
  exists s', exec e (SSeq src_init_2d src_ctor_2d) s = Some s' /\ frame (g_init false nx ny nz d) s'.
Proof.
  intros V e s nx ny nz d Px Py Bx By A0 A1. eexists. split; [reflexivity|].
  assert (T : (2 ^ 31 < two64)%Z) by reflexivity.
  unfold get in *. cbn [frame frame2 g_init g_dim3 g_nx g_ny g_nz g_ox g_oy g_oz set s_var var_eqb Nat.eqb eval norm binop].
  rewrite A0, A1. rewrite !(Z.mod_small 1), !(Z.mod_small 0) by (unfold two64; lia).
  rewrite !Z.mod_small by lia. repeat split; reflexivity.
Qed.
Theorem C15_source_tie_constructor_3d : forall (V : Type) (e : V) (s : state V) nx ny nz (d : V),
  (0 < nx)%nat -> (0 < ny)%nat -> (0 < nz)%nat -> (Z.of_nat nx < 2 ^ 31)%Z -> (Z.of_nat ny < 2 ^ 31)%Z -> (Z.of_nat nz < 2 ^ 31)%Z ->
  get s (VArg 0) = Z.of_nat nx -> get s (VArg 1) = Z.of_nat ny -> get s (VArg 2) = Z.of_nat nz ->
  exists s', exec e (SSeq src_init_3d src_ctor_3d) s = Some s' /\ frame (g_init true nx ny nz d) s'.
Proof.
  intros V e s nx ny nz d Px Py Pz Bx By Bz A0 A1 A2. eexists. split; [reflexivity|].
  assert (T : (2 ^ 62 < two64)%Z) by reflexivity.
  assert (M : (0 <= Z.of_nat ny * Z.of_nat nx < 2 ^ 62)%Z) by nia.
  unfold get in *. cbn [frame frame3 frame2 g_init g_dim3 g_nx g_ny g_nz g_ox g_oy g_oz set s_var var_eqb Nat.eqb eval norm binop].
  rewrite A0, A1, A2. rewrite !(Z.mod_small 1), !(Z.mod_small 0) by (unfold two64; lia).
  rewrite !Z.mod_small by lia. repeat split; reflexivity.
Qed.
Print Assumptions C15_source_tie_constructor_3d.

(* non-vacuity: a concrete object state representing a fresh 3 x 2 grid / a 2 x 2 x 2 grid; and the generated programs run
   on them (a computation, only as a smoke test of the interpreter — the theorems above are the tie) *)
Definition ex_state2 : state Z :=
  {| s_var := fun v => match v with VN 0 => 3 | VN 1 => 2 | VNm1 0 => 2 | VNm1 1 => 1 | VCoef 0 => 1 | VCoef 1 => 3
                                  | VPar 0 => 4 | VPar 1 => (-1) | _ => 0 end%Z;
     s_buf := [10; 11; 12; 13; 14; 15]%Z |}.
Definition ex_grid2 : wgrid Z := with_buf (g_init false 3 2 1 0%Z) [10; 11; 12; 13; 14; 15]%Z.
Example C15_ex_represents_2d : valid ex_grid2 /\ fits ex_grid2 /\ represents ex_state2 ex_grid2.
Proof. split; [|split]; [ repeat split; cbn; try lia; try reflexivity | reflexivity | repeat split; reflexivity ]. Qed.
Example C15_ex_run_2d :
  option_map (fun s => (s_buf s, get s (VOff 0), get s (VOff 1))) (exec (-7)%Z src_translate_2d ex_state2)
  = Some (g_buf (translate ex_grid2 4 (-1) 0 (-7)%Z), 1%Z, 1%Z).
Proof. vm_compute. reflexivity. Qed.

Definition ex_state3 : state Z :=
  {| s_var := fun v => match v with VN _ => 2 | VNm1 _ => 1 | VCoef 0 => 1 | VCoef 1 => 2 | VCoef 2 => 4
                                  | VPar 0 => 1 | VPar 1 => (-3) | VPar 2 => (-1) | _ => 0 end%Z;
     s_buf := [1; 2; 3; 4; 5; 6; 7; 8]%Z |}.
Definition ex_grid3 : wgrid Z := with_buf (g_init true 2 2 2 0%Z) [1; 2; 3; 4; 5; 6; 7; 8]%Z.
Example C15_ex_represents_3d : valid ex_grid3 /\ fits ex_grid3 /\ represents ex_state3 ex_grid3.
Proof. split; [|split]; [ repeat split; cbn; try lia; try reflexivity; try discriminate | reflexivity | repeat split; reflexivity ]. Qed.
Example C15_ex_run_3d :
  option_map (fun s => s_buf s) (exec 0%Z src_translate_3d ex_state3) = Some (g_buf (translate ex_grid3 1 (-3) (-1) 0%Z)).
Proof. vm_compute. reflexivity. Qed.

(* the offset update of the code before commit ec245f6 (documented defect; the witnesses are replayed on that implementation) *)
(* stored offset overwritten instead of accumulated: two translations by +1 on 3 cells reported 1, not 2 *)
Definition legacy_offset (n : nat) (k : Z) : Z := ((Z.of_nat n + k) mod two64 mod Z.of_nat n)%Z.
Theorem C15_offset_not_accumulated_refuted : exists n k1 k2, legacy_offset n k2 <> ((k1 + k2) mod Z.of_nat n)%Z.
Proof. exists 3, 1%Z, 1%Z. vm_compute. discriminate. Qed.
(* (n + k) % n in size_t for k < -n *)
Theorem C15_negative_beyond_size_refuted : exists n k, legacy_offset n k <> (k mod Z.of_nat n)%Z.
Proof. exists 3, (-4)%Z. vm_compute. discriminate. Qed.

Example C15_ex_translate :
  let g := fold_left gstep [GWrite (0,0,0) 5%Z; GWrite (1,0,0) 6%Z; GWrite (2,0,0) 7%Z; GTranslate 1 0 0 (-1)%Z;
                            GTranslate 1 0 0 (-2)%Z] (g_init false 3 1 1 0%Z) in
  dump g = ((2,0,0), [Some 7%Z; Some (-1)%Z; Some (-2)%Z]).
Proof. vm_compute. reflexivity. Qed.
