(* RayCastBounds.v — C14: what the size of the grid gives.
   1. [norm_le], [envelope_no_overflow]: |e - o| <= DIM * D for points of an extent of side <= D, so for the property's
      envelope (at most 2000 cells of resolution <= 1 per axis: D = 2000) the numeric premise |e - o| < max() of the
      end-to-end theorems holds.
   2. [cast_indexes_fit_int], [cast_fits_int]: the integer side.  For a grid of n_i cells on axis i with
      sum n_i <= 2^31 - 1, every visited index lies in [0, n_i) and the number of cells computed by
      computeRayNumberOfCells (an int sum) is <= 2^31 - 1: the model's Z arithmetic agrees with the C++ int / size_t
      arithmetic. *)
From Coq Require Import Reals ZArith List Bool Arith Lia Lra Psatz.
From Flocq Require Import Core.Raux.
From Romea Require Import Num NumR GridMapModel RayCastModel RayCastProofs RayCastSegment RayCastAssembly.
Import ListNotations.
Local Open Scope R_scope.

(* ------------------------------------------------------------------ the numeric premise from the size of the extent *)
Lemma sqrt_le_of_sq x y : 0 <= y -> x <= y * y -> sqrt x <= y.
Proof.
  intros Hy Hx. destruct (Rle_dec 0 x) as [P|P].
  - rewrite <- (sqrt_square y Hy). apply sqrt_le_1_alt. exact Hx.
  - rewrite sqrt_neg_0 by lra. exact Hy.
Qed.

Lemma sum_squares_le D : forall (l : list R) a, Forall (fun x => Rabs x <= D) l ->
  fold_left (fun s x => s + x * x) l a <= a + INR (length l) * (D * D).
Proof.
  induction l as [|x l IH]; intros a H; cbn [fold_left length]; [cbn; lra|]. inversion H as [|? ? Hx Hl]; subst.
  specialize (IH (a + x * x) Hl). rewrite S_INR. apply Rabs_le_inv in Hx. assert (x * x <= D * D) by nra. lra.
Qed.

(* crude: sqrt(n) <= n *)
Lemma norm_le (l : list R) D : Forall (fun x => Rabs x <= D) l -> 0 <= D -> norm ROps l <= INR (length l) * D.
Proof.
  intros H HD. unfold norm. cbn [nsqrt nadd nmul nzero ROps]. pose proof (sum_squares_le D l 0 H) as Hs.
  pose proof (pos_INR (length l)) as P. apply sqrt_le_of_sq; [nra|].
  destruct (length l) as [|n]; [cbn [INR] in *; lra|]. assert (1 <= INR (S n)) by (rewrite S_INR; pose proof (pos_INR n); lra).
  assert (INR (S n) <= INR (S n) * INR (S n)) by nra. assert (0 <= D * D) by nra. nra.
Qed.

(* a segment between two points of an extent of side at most 2000 (the property's envelope: <= 2000 cells of
   resolution <= 1 per axis), in 2D or 3D, is shorter than max() *)
Lemma envelope_no_overflow d (l : list R) c : (length l <= 3)%nat -> Forall (fun x => Rabs x <= 2000) l ->
  no_overflow d (norm ROps l) c.
Proof.
  intros L H. left. pose proof (norm_le l 2000 H ltac:(lra)) as N. pose proof M_big.
  assert (INR (length l) <= 3) by (replace 3 with (INR 3) by (simpl; lra); apply le_INR; exact L). nra.
Qed.

(* ------------------------------------------------------------------ the integer side: indexes and the cell count fit *)
(* C++: CellIndexes are size_t; computeRayNumberOfCells casts both index vectors to int and sums |difference| in int;
   next() adds an int step (+-1) to a size_t index (modular arithmetic, exact whenever the mathematical result is >= 0).
   Generic statement on the conclusions of the walk theorem: if origin and end indexes lie in [0, n_i) and
   sum n_i <= 2^31 - 1, every visited index lies in [0, n_i) (so the size_t arithmetic is exact and the casts to int are
   lossless) and the cell count is in [1, 2^31 - 1] with every partial sum below it (the int sum cannot overflow). *)
Lemma sumf_le n f g : (forall i, (i < n)%nat -> (f i <= g i)%Z) -> (RayCastProofs.sumf n f <= RayCastProofs.sumf n g)%Z.
Proof.
  induction n as [|n IH]; intros H; cbn; [lia|]. specialize (H n ltac:(lia)) as Hn.
  assert (RayCastProofs.sumf n f <= RayCastProofs.sumf n g)%Z by (apply IH; intros; apply H; lia). lia.
Qed.

Lemma sumf_prefix_le n m f : (forall i, (i < n)%nat -> (0 <= f i)%Z) -> (m <= n)%nat ->
  (RayCastProofs.sumf m f <= RayCastProofs.sumf n f)%Z.
Proof.
  induction n as [|n IH]; intros H Hm; [replace m with 0%nat by lia; lia|].
  destruct (Nat.eq_dec m (S n)) as [->|Hne]; [lia|]. cbn.
  assert (0 <= f n)%Z by (apply H; lia).
  assert (RayCastProofs.sumf m f <= RayCastProofs.sumf n f)%Z by (apply IH; [intros; apply H; lia|lia]). lia.
Qed.

Theorem cast_indexes_fit_int (d : nat) (oidx eidx : list Z) (nc : nat -> Z) (cells : list (list Z)) :
  (forall i, (i < d)%nat -> (0 <= nth i oidx 0 < nc i)%Z) ->
  (forall i, (i < d)%nat -> (0 <= nth i eidx 0 < nc i)%Z) ->
  (RayCastProofs.sumf d nc <= 2147483647)%Z ->
  Forall (fun cl => forall i, (i < d)%nat ->
            (Z.min (nth i oidx 0) (nth i eidx 0) <= nth i cl 0 <= Z.max (nth i oidx 0) (nth i eidx 0))%Z) cells ->
  Forall (fun cl => forall i, (i < d)%nat -> (0 <= nth i cl 0 < nc i)%Z /\ (nth i cl 0 <= 2147483647)%Z) cells /\
  (forall m, (m <= d)%nat ->
     (0 <= RayCastProofs.sumf m (fun i => Z.abs (nth i eidx 0 - nth i oidx 0)) <= 2147483647 - 1)%Z) /\
  (1 <= RayCastProofs.sumf d (fun i => Z.abs (nth i eidx 0 - nth i oidx 0)) + 1 <= 2147483647)%Z.
Proof.
  intros Ho He Hn Hbox.
  assert (Hncpos : forall i, (i < d)%nat -> (0 <= nc i)%Z) by (intros i Hi; specialize (Ho i Hi); lia).
  assert (Hpart : forall m, (m <= d)%nat -> (1 <= m)%nat ->
     (0 <= RayCastProofs.sumf m (fun i => Z.abs (nth i eidx 0 - nth i oidx 0)) <= RayCastProofs.sumf m nc - 1)%Z).
  { intros m Hm Hm1. split; [apply sumf_nonneg; intros; lia|].
    assert (G : (RayCastProofs.sumf m (fun i => Z.abs (nth i eidx 0 - nth i oidx 0)) <= RayCastProofs.sumf m nc - Z.of_nat m)%Z).
    { clear Hm1. induction m as [|m IH]; [cbn; lia|]. cbn. specialize (IH ltac:(lia)).
      specialize (Ho m ltac:(lia)). specialize (He m ltac:(lia)). lia. }
    lia. }
  split; [|split].
  - eapply Forall_impl; [|exact Hbox]. cbn. intros cl H i Hi. specialize (H i Hi).
    pose proof (sumf_term_le d nc i Hncpos Hi). specialize (Ho i Hi). specialize (He i Hi). lia.
  - intros m Hm. destruct m as [|m]; [cbn; lia|].
    specialize (Hpart (S m) Hm ltac:(lia)). pose proof (sumf_prefix_le d (S m) nc Hncpos Hm). lia.
  - destruct d as [|d']; [cbn in *; lia|]. specialize (Hpart (S d') (Nat.le_refl _) ltac:(lia)). lia.
Qed.

(* the cast as a whole: n_i = numberOfCellsAlongAxes_[i] of the grid *)
Theorem cast_fits_int (d : nat) (c : caster (T:=R)) (nc : nat -> Z) (Q : list Z -> Prop) :
  cast_visits d c Q -> length (rc_oidx c) = d -> length (rc_eidx c) = d ->
  (forall i, (i < d)%nat -> (0 <= nth i (rc_oidx c) 0 < nc i)%Z) ->
  (forall i, (i < d)%nat -> (0 <= nth i (rc_eidx c) 0 < nc i)%Z) ->
  (RayCastProofs.sumf d nc <= 2147483647)%Z ->
  Forall (fun cl => forall i, (i < d)%nat -> (0 <= nth i cl 0 < nc i)%Z /\ (nth i cl 0 <= 2147483647)%Z)
         (cast_cells ROps c) /\
  (forall m, (m <= d)%nat ->
     (0 <= RayCastProofs.sumf m (fun i => Z.abs (nth i (rc_eidx c) 0 - nth i (rc_oidx c) 0)) <= 2147483647 - 1)%Z) /\
  ncells c = Z.of_nat (length (cast_cells ROps c)) /\ (1 <= ncells c <= 2147483647)%Z.
Proof.
  intros (L & _ & _ & _ & Hbox & _) Lo Le Io Ie Hn.
  destruct (cast_indexes_fit_int d (rc_oidx c) (rc_eidx c) nc (cast_cells ROps c) Io Ie Hn Hbox) as (F & P & N).
  split; [exact F|]. split; [exact P|].
  assert (E : ncells c = (RayCastProofs.sumf d (fun i => Z.abs (nth i (rc_eidx c) 0 - nth i (rc_oidx c) 0)) + 1)%Z)
    by (unfold ncells; rewrite fold_abs_sumf, Le by lia; reflexivity).
  rewrite E. split; [lia|exact N].
Qed.

Definition nc2 (r lo0 hi0 lo1 hi1 : R) (i : nat) : Z :=
  match i with O => gm_ncells ROps r lo0 hi0 | _ => gm_ncells ROps r lo1 hi1 end.
Definition nc3 (r lo0 hi0 lo1 hi1 lo2 hi2 : R) (i : nat) : Z :=
  match i with O => gm_ncells ROps r lo0 hi0 | 1%nat => gm_ncells ROps r lo1 hi1 | _ => gm_ncells ROps r lo2 hi2 end.
