(* PoseJacCharts.v — C12, the reported angles and the whole 6x6 matrix (read last, after PoseJacDeriv): the angular block of
   the Jacobian of operator*(Affine3d, Pose3D) is the derivative of the angles of l*Rz*Ry*Rx as the library reports them (PoseJacDeriv.v has the raw angles atan2(M21,M22), -asin(M20),
   atan2(M10,M00), wherever atan2 is differentiable):
     1. the derivatives of the two reported angle functions (after between0And2Pi) wherever the reported angle is not 0,
        where the [0,2pi) representative jumps (what C12_pose_jacobian_angular_reported hands to pose_J_angular_jacobian);
     2. the reported angles as maps into the circle R/2piZ, wherever the transformed pose is off gimbal lock;
     3. the whole 6x6 matrix J, entry by entry, for the model's own pose map (pose_transform_mean), and the
        covariance J*C*J^T written out. *)
From Coq Require Import Reals ZArith Lra Lia Psatz Arith Bool.
From Coquelicot Require Import Coquelicot.
From Romea Require Import Num NumR AnglesModel AnglesProofs AnglesRoundtrip PoseCovModel PoseCovProofs DerivProofs
  PoseJacProofs PoseJacDeriv Atan2Deriv.
Local Open Scope R_scope.

Lemma Z_between k : -1 < IZR k < 1 -> k = 0%Z.
Proof. intros [A B]. apply lt_IZR in A. apply lt_IZR in B. lia. Qed.

(* ---------------- 1. the reported angles (after between0And2Pi) ---------------- *)
(* "the reported angle is not 0": the point (cos, sin) of the angle is not on the closed positive x axis *)
Definition off_zero (y x : R) : Prop := ~ (y = 0 /\ 0 <= x).

Lemma b02_cong a b : cong2pi a b -> b02 a = b02 b.
Proof.
  intros C. destruct (b02_spec a) as [Ca Ra]. destruct (b02_spec b) as [Cb Rb].
  assert (C2 : cong2pi (b02 a) (b02 b)).
  { apply (cong2pi_trans _ a); [exact Ca|]. apply (cong2pi_trans _ b); [exact C|]. apply cong2pi_sym. exact Cb. }
  destruct C2 as [k Hk].
  assert (k = 0%Z); [|subst; lra]. apply Z_between. pose proof PI_RGT_0. split; nra.
Qed.

(* away from the reported angle 0, the reported angle is pi + the angle of the antipodal point *)
Lemma b02_Ratan2_antipode y x : off_cut (- y) (- x) -> b02 (Ratan2 y x) = PI + Ratan2 (- y) (- x).
Proof.
  intros H.
  assert (Hne : x <> 0 \/ y <> 0).
  { destruct (off_axis_nonzero (fun x => x <= 0) _ _ (Rle_refl 0) H); [right|left]; lra. }
  pose proof (Ratan2_range_off_cut _ _ H) as Rg.
  rewrite <- (b02_id (PI + Ratan2 (- y) (- x))) by lra.
  apply b02_cong.
  destruct (Ratan2_antipode y x Hne) as [E|E]; rewrite E.
  - exists 0%Z. lra.
  - exists (-1)%Z. lra.
Qed.

Lemma is_derive_b02_Ratan2 (u v : R -> R) t du dv :
  is_derive u t du -> is_derive v t dv -> off_zero (u t) (v t) ->
  is_derive (fun s => b02 (Ratan2 (u s) (v s))) t ((v t * du - u t * dv) / (u t * u t + v t * v t)).
Proof.
  intros Hu Hv H.
  assert (Hoff : off_cut (- u t) (- v t)) by (intros [E L]; apply H; split; lra).
  apply (is_derive_ext_loc (fun s => PI + Ratan2 (- u s) (- v s))).
  - generalize (locally_off_cut (fun s => - u s) (fun s => - v s) t (- du) (- dv)
                  (is_derive_opp u t du Hu) (is_derive_opp v t dv Hv) Hoff).
    apply filter_imp. intros s Hs. symmetry. apply b02_Ratan2_antipode. exact Hs.
  - apply is_derive_Ratan2_antipode; assumption.
Qed.

(* the normalised angle has the derivative of the angle wherever it is not 0: near t it is the angle shifted by a
   fixed multiple of 2 pi *)
Lemma is_derive_b02 (g : R -> R) t d : is_derive g t d -> b02 (g t) <> 0 -> is_derive (fun s => b02 (g s)) t d.
Proof.
  intros Hg Hne. destruct (b02_spec (g t)) as [[k Hk] [[Hlo|E] Hhi]]; [|exfalso; apply Hne; symmetry; exact E].
  apply (is_derive_ext_loc (fun s => g s + 2 * PI * IZR k)).
  - assert (A0 : - (2 * PI * IZR k) < g t) by lra. assert (B0 : g t < 2 * PI - 2 * PI * IZR k) by lra.
    generalize (filter_and _ _ (locally_gt g t d _ Hg A0) (locally_lt g t d _ Hg B0)). apply filter_imp. intros s [A B]. rewrite <- (b02_id (g s + 2 * PI * IZR k)) by lra.
    apply b02_cong. exists k. reflexivity.
  - evar_last.
    + apply (is_derive_plus g (fun _ => 2 * PI * IZR k)); [exact Hg|apply is_derive_const].
    + unfold plus, zero; simpl. lra.
Qed.

Lemma is_derive_b02_neg_asin (w : R -> R) t dw :
  is_derive w t dw -> -1 < w t < 1 -> w t <> 0 ->
  is_derive (fun s => b02 (- asin (w s))) t (- dw / sqrt (1 - w t * w t)).
Proof.
  intros Hw Hr Hne. apply (is_derive_b02 (fun s => - asin (w s))); [apply is_derive_neg_asin; assumption|].
  (* a multiple of 2 pi inside (-pi/2, pi/2) is 0, and asin vanishes only at 0 *)
  intros E. destruct (b02_spec (- asin (w t))) as [[k Hk] _]. rewrite E in Hk.
  pose proof (asin_bound_lt (w t) Hr) as B. pose proof PI_RGT_0 as Hpi.
  assert (k = 0%Z) by (apply Z_between; split; nra).
  subst k. apply Hne. rewrite <- (sin_asin (w t)) by lra. replace (asin (w t)) with 0 by lra. apply sin_0.
Qed.

(* the angles rotation3DToEulerAngles reports *)
Definition rep_roll (m : mat3 R) : R := b02 (raw_roll m).
Definition rep_pitch (m : mat3 R) : R := b02 (raw_pitch m).
Definition rep_yaw (m : mat3 R) : R := b02 (raw_yaw m).

Lemma r2e_reports m : Rabs (m20 m) <= 1 -> r2e m = Some (mkV3 (rep_roll m) (rep_pitch m) (rep_yaw m)).
Proof.
  intros H. unfold r2e, rotation3DToEulerAngles. rcbn.
  replace (Rleb (Rabs (m20 m)) 1) with true by (symmetry; apply Rleb_true; exact H).
  reflexivity.
Qed.

(* ---------------- 2. angles as points of the circle R/2piZ ----------------
   f has derivative d at t modulo 2 pi: near t, f is congruent modulo 2 pi to a function that is differentiable
   at t with derivative d.  (For a real-valued f that is itself differentiable this is the ordinary derivative;
   the value d is unique: is_derive_mod2pi_unique.) *)
Definition is_derive_mod2pi (f : R -> R) (t d : R) : Prop :=
  exists g : R -> R, locally t (fun s => cong2pi (f s) (g s)) /\ is_derive g t d.

Lemma is_derive_mod2pi_of_derive f t d : is_derive f t d -> is_derive_mod2pi f t d.
Proof. intros H. exists f. split; [|exact H]. apply filter_forall. intros s. apply cong2pi_refl. Qed.

Lemma is_derive_mod2pi_ext_loc f g t d :
  locally t (fun s => f s = g s) -> is_derive_mod2pi f t d -> is_derive_mod2pi g t d.
Proof.
  intros L [h [C D]]. exists h. split; [|exact D].
  generalize (filter_and _ _ L C). apply filter_imp. intros s [E Cs]. rewrite <- E. exact Cs.
Qed.

Lemma is_derive_mod2pi_unique f t d1 d2 : is_derive_mod2pi f t d1 -> is_derive_mod2pi f t d2 -> d1 = d2.
Proof.
  intros [g1 [C1 D1]] [g2 [C2 D2]]. pose proof PI_RGT_0 as Hpi.
  set (h := fun s => g1 s - g2 s).
  assert (Dh : is_derive h t (d1 - d2)).
  { unfold h. apply (is_derive_minus g1 g2 t d1 d2 D1 D2). }
  (* h takes values in 2 pi Z near t and is continuous at t: it is constant near t *)
  assert (Hint : locally t (fun s => exists k : Z, h s = 2 * PI * IZR k)).
  { generalize (filter_and _ _ C1 C2). apply filter_imp. intros s [[k1 E1] [k2 E2]].
    exists (k2 - k1)%Z. unfold h. rewrite minus_IZR. lra. }
  assert (Hconst : locally t (fun s => h t = h s)).
  { destruct (locally_singleton _ _ Hint) as [k0 E0].
    pose proof (locally_gt h t _ (h t - 2 * PI) Dh ltac:(lra)) as L1.
    pose proof (locally_lt h t _ (h t + 2 * PI) Dh ltac:(lra)) as L2.
    generalize (filter_and _ _ Hint (filter_and _ _ L1 L2)). apply filter_imp.
    intros s [[k E] [A B]]. rewrite E0, E in A, B. rewrite E0, E.
    assert ((k - k0)%Z = 0%Z) by (apply Z_between; rewrite minus_IZR; split; nra).
    replace k with k0 by lia. reflexivity. }
  assert (D0 : is_derive h t 0).
  { apply (is_derive_ext_loc (fun _ => h t)); [exact Hconst|]. apply (is_derive_const (h t) t). }
  pose proof (is_derive_unique _ _ _ D0) as U0. pose proof (is_derive_unique _ _ _ Dh) as U1.
  rewrite U0 in U1. lra.
Qed.

(* modulo 2 pi the normalised angle has the derivative of the angle everywhere *)
Lemma is_derive_mod2pi_b02 (g : R -> R) t d : is_derive g t d -> is_derive_mod2pi (fun s => b02 (g s)) t d.
Proof. intros H. exists g. split; [|exact H]. apply filter_forall. intros s. apply (proj1 (b02_spec _)). Qed.

(* the reported atan2 angle, everywhere except at the origin: the raw angle is differentiable off the cut, where the
   reported one may jump between 0 and 2 pi, and the reported one across the cut *)
Lemma is_derive_mod2pi_b02_Ratan2 (u v : R -> R) t du dv :
  is_derive u t du -> is_derive v t dv -> u t <> 0 \/ v t <> 0 ->
  is_derive_mod2pi (fun s => b02 (Ratan2 (u s) (v s))) t ((v t * du - u t * dv) / (u t * u t + v t * v t)).
Proof.
  intros Hu Hv Hne. destruct (Rle_dec (v t) 0) as [P|P].
  - apply is_derive_mod2pi_of_derive. apply is_derive_b02_Ratan2; [exact Hu|exact Hv|].
    intros [E L]. destruct Hne; lra.
  - apply (is_derive_mod2pi_b02 (fun s => Ratan2 (u s) (v s))). apply is_derive_Ratan2; [exact Hu|exact Hv|].
    intros [_ L]. lra.
Qed.

Lemma is_derive_mod2pi_b02_neg_asin (w : R -> R) t dw :
  is_derive w t dw -> -1 < w t < 1 ->
  is_derive_mod2pi (fun s => b02 (- asin (w s))) t (- dw / sqrt (1 - w t * w t)).
Proof. intros Hw Hr. exact (is_derive_mod2pi_b02 (fun s => - asin (w s)) t _ (is_derive_neg_asin w t dw Hw Hr)). Qed.

(* for a rigid transform, "off gimbal lock after transformation" is all that is needed *)
Lemma proper_Mrot l x y z : proper_rotation l -> proper_rotation (Mrot l x y z).
Proof. intros H. apply proper_mul; [exact H|apply rzyx_proper]. Qed.

Lemma proper_off_lock m : proper_rotation m -> Rabs (m20 m) < 1 ->
  (m21 m <> 0 \/ m22 m <> 0) /\ (m10 m <> 0 \/ m00 m <> 0).
Proof.
  intros Hp H20. pose proof (proper_right_inverse m Hp) as Hri. destruct Hp as [Ho _].
  pose proof (f_equal m00 Ho) as Ucol. pose proof (f_equal m22 Hri) as Urow.
  apply Rabs_def2 in H20.
  destruct m as [a b c d e f g h i]. unfold mmul3, mtrans3, mid3 in *. rcbn in Ucol. rcbn in Urow.
  cbn [m00 m01 m02 m10 m11 m12 m20 m21 m22] in *.
  split.
  - destruct (Req_dec h 0) as [E|N]; [|left; exact N]. right. intros E2. subst. nra.
  - destruct (Req_dec d 0) as [E|N]; [|left; exact N]. right. intros E2. subst. nra.
Qed.

Theorem pose_J_angular_is_jacobian_mod2pi l x y z :
  proper_rotation l -> Rabs (m20 (Mrot l x y z)) < 1 ->
  let J := pose_J_angular ROps l (mkV3 x y z) in
  (is_derive_mod2pi (fun t => rep_roll (Mrot l t y z)) x (m00 J) /\ is_derive_mod2pi (fun t => rep_pitch (Mrot l t y z)) x (m10 J) /\
   is_derive_mod2pi (fun t => rep_yaw (Mrot l t y z)) x (m20 J)) /\
  (is_derive_mod2pi (fun t => rep_roll (Mrot l x t z)) y (m01 J) /\ is_derive_mod2pi (fun t => rep_pitch (Mrot l x t z)) y (m11 J) /\
   is_derive_mod2pi (fun t => rep_yaw (Mrot l x t z)) y (m21 J)) /\
  (is_derive_mod2pi (fun t => rep_roll (Mrot l x y t)) z (m02 J) /\ is_derive_mod2pi (fun t => rep_pitch (Mrot l x y t)) z (m12 J) /\
   is_derive_mod2pi (fun t => rep_yaw (Mrot l x y t)) z (m22 J)).
Proof.
  intros Hl H20. destruct (proper_off_lock _ (proper_Mrot l x y z Hl) H20) as [H22 H00].
  exact (pose_J_angular_jacobian is_derive_mod2pi (fun y x => b02 (Ratan2 y x)) (fun w => b02 (- asin w))
           (fun y x => y <> 0 \/ x <> 0) (fun _ => True) nonzero_norm
           is_derive_mod2pi_b02_Ratan2 (fun w t dw Hw Hr _ => is_derive_mod2pi_b02_neg_asin w t dw Hw Hr)
           l x y z (conj H22 (conj H00 (conj H20 I)))).
Qed.

(* ---------------- 3. the whole 6x6 Jacobian of the model's own pose map ----------------
   pose_map l t q = the mean part of operator*(Affine3d, Pose3D) as the model computes it (pose_transform_mean, the
   function the correspondence run compares with the C++), as a map R^6 -> R^6:
   q = (position, roll, pitch, yaw) |-> (l*position + t, reported angles of l*Rz*Ry*Rx). *)
Definition pose_map (l : mat3 R) (t : vec3 R) (q : vec R) : vec R := fun i =>
  let r := act_mean l t (mkV3 (q 0%nat) (q 1%nat) (q 2%nat)) (mkV3 (q 3%nat) (q 4%nat) (q 5%nat)) in
  if Nat.ltb i 3 then vget3 (fst r) i
  else match snd r with Some e => vget3 e (i - 3) | None => 0 end.

(* q with component j replaced by s *)
Definition upd (q : vec R) (j : nat) (s : R) : vec R := fun k => if Nat.eqb k j then s else q k.

Definition ang_of (m : mat3 R) (k : nat) : R := match r2e m with Some e => vget3 e k | None => 0 end.

Lemma pose_map_pos l t q i : (i < 3)%nat ->
  pose_map l t q i = vget3 (vadd3 ROps (mvmul3 ROps l (mkV3 (q 0%nat) (q 1%nat) (q 2%nat))) t) i.
Proof. intros H. unfold pose_map. cbv zeta. rewrite (proj2 (Nat.ltb_lt i 3) H). reflexivity. Qed.

Lemma pose_map_ang l t q i : (3 <= i)%nat ->
  pose_map l t q i = ang_of (Mrot l (q 3%nat) (q 4%nat) (q 5%nat)) (i - 3).
Proof.
  intros H. unfold pose_map, act_mean, pose_transform_mean. cbv zeta. cbn [snd v0 v1 v2].
  rewrite (proj2 (Nat.ltb_ge i 3) H), smart_R_is_rzyx. reflexivity.
Qed.

Lemma ang_of_rep m : Rabs (m20 m) <= 1 ->
  ang_of m 0 = rep_roll m /\ ang_of m 1 = rep_pitch m /\ ang_of m 2 = rep_yaw m.
Proof. intros H. unfold ang_of. rewrite (r2e_reports m H). repeat split. Qed.

(* along a path that stays off gimbal lock near x, the angle outputs are the reported angles near x *)
Lemma ang_of_column (f : R -> mat3 R) x d dr dp dy : mderive f x d -> Rabs (m20 (f x)) < 1 ->
  is_derive_mod2pi (fun s => rep_roll (f s)) x dr /\ is_derive_mod2pi (fun s => rep_pitch (f s)) x dp /\
  is_derive_mod2pi (fun s => rep_yaw (f s)) x dy ->
  is_derive_mod2pi (fun s => ang_of (f s) 0) x dr /\ is_derive_mod2pi (fun s => ang_of (f s) 1) x dp /\
  is_derive_mod2pi (fun s => ang_of (f s) 2) x dy.
Proof.
  intros Hd H20 (Hr & Hp & Hy). apply Rabs_def2 in H20.
  assert (L : locally x (fun s => Rabs (m20 (f s)) <= 1)).
  { generalize (filter_and _ _ (locally_gt (fun s => m20 (f s)) x _ (-1) (Hd 2%nat 0%nat) (proj2 H20))
                               (locally_lt (fun s => m20 (f s)) x _ 1 (Hd 2%nat 0%nat) (proj1 H20))).
    apply filter_imp. intros s [A B]. apply Rabs_le. lra. }
  assert (T : forall k (g : mat3 R -> R) dg, (forall m, Rabs (m20 m) <= 1 -> ang_of m k = g m) ->
            is_derive_mod2pi (fun s => g (f s)) x dg -> is_derive_mod2pi (fun s => ang_of (f s) k) x dg).
  { intros k g dg Hg. apply is_derive_mod2pi_ext_loc. generalize L. apply filter_imp. intros s Hs. symmetry. exact (Hg _ Hs). }
  split; [|split].
  - exact (T 0%nat rep_roll dr (fun m H => proj1 (ang_of_rep m H)) Hr).
  - exact (T 1%nat rep_pitch dp (fun m H => proj1 (proj2 (ang_of_rep m H))) Hp).
  - exact (T 2%nat rep_yaw dy (fun m H => proj2 (proj2 (ang_of_rep m H))) Hy).
Qed.

Lemma upd_other q j s k : k <> j -> upd q j s k = q k.
Proof. intros H. unfold upd. rewrite (proj2 (Nat.eqb_neq k j) H). reflexivity. Qed.

(* pose_map is rewritten into its position / angle form for an arbitrary row first (pose_map_pos, pose_map_ang), so that
   the case analysis on the indices only has to evaluate upd *)
Theorem pose_J_is_jacobian l t q :
  proper_rotation l -> Rabs (m20 (Mrot l (q 3%nat) (q 4%nat) (q 5%nat))) < 1 ->
  let J := pose_J ROps l (mkV3 (q 3%nat) (q 4%nat) (q 5%nat)) in
  forall i j, (i < 6)%nat -> (j < 6)%nat ->
    ((i < 3)%nat -> is_derive (fun s => pose_map l t (upd q j s) i) (q j) (J i j)) /\
    is_derive_mod2pi (fun s => pose_map l t (upd q j s) i) (q j) (J i j).
Proof.
  intros Hl H20. cbv zeta. intros i j Hi Hj.
  set (x := q 3%nat) in *. set (y := q 4%nat) in *. set (z := q 5%nat) in *.
  unfold pose_J, block6. destruct (Nat.ltb_spec i 3) as [Hi3|Hi3].
  - (* position rows *)
    assert (P : is_derive (fun s => pose_map l t (upd q j s) i) (q j) (if Nat.ltb j 3 then mget3 l i j else nzero ROps)).
    { destruct (Nat.ltb_spec j 3) as [Hj3|Hj3].
      + destruct j as [|[|[|j]]]; [| | |lia];
          (eapply is_derive_ext; [|apply (pose_J_position l t (mkV3 (q 0%nat) (q 1%nat) (q 2%nat)) i)]);
          intros s; rewrite pose_map_pos by exact Hi3; reflexivity.
      + (* the position does not depend on the angles *)
        apply (is_derive_ext (fun _ => vget3 (vadd3 ROps (mvmul3 ROps l (mkV3 (q 0%nat) (q 1%nat) (q 2%nat))) t) i)).
        * intros s. rewrite pose_map_pos, !upd_other by lia. reflexivity.
        * exact (is_derive_const _ (q j)). }
    split; [intros _; exact P|apply is_derive_mod2pi_of_derive; exact P].
  - (* angular rows *)
    split; [lia|]. destruct (Nat.ltb_spec j 3) as [Hj3|Hj3].
    + (* the angles do not depend on the position *)
      apply is_derive_mod2pi_of_derive. apply (is_derive_ext (fun _ => ang_of (Mrot l x y z) (i - 3))).
      * intros s. rewrite pose_map_ang, !upd_other by lia. reflexivity.
      * exact (is_derive_const _ (q j)).
    + destruct (pose_J_angular_is_jacobian_mod2pi l x y z Hl H20) as (AX & AY & AZ).
      destruct (ang_of_column _ _ _ _ _ _ (dM_x l x y z) H20 AX) as (X0 & X1 & X2).
      destruct (ang_of_column _ _ _ _ _ _ (dM_y l x y z) H20 AY) as (Y0 & Y1 & Y2).
      destruct (ang_of_column _ _ _ _ _ _ (dM_z l x y z) H20 AZ) as (Z0 & Z1 & Z2).
      apply (is_derive_mod2pi_ext_loc (fun s => ang_of (Mrot l (upd q j s 3%nat) (upd q j s 4%nat) (upd q j s 5%nat)) (i - 3))).
      * apply filter_forall. intros s. symmetry. apply pose_map_ang. exact Hi3.
      * destruct i as [|[|[|[|[|[|i]]]]]]; try lia; destruct j as [|[|[|[|[|[|j]]]]]]; try lia; assumption.
Qed.

(* the model's covariance of the transformed pose is J*C*J^T, written out *)
Lemma pose_cov_entries (j c : mat R) a b :
  pose_cov ROps j c a b = rsum 6 (fun m => rsum 6 (fun k => j a k * c k m) * j b m).
Proof. reflexivity. Qed.
