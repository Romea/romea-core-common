(* LambertContraction.v — the latitude iteration of LambertConverter::computeLatitude is a global contraction
   with factor e^2/(1-e^2); accuracy of the value returned on exit (C03). *)
From Coq Require Import Reals Lra Lia.
From Coquelicot Require Import Coquelicot.
From Romea Require Import Num NumR GeodesyModel GeodesyProofs GeodesyContraction LambertModel LambertProofs.
Local Open Scope R_scope.

Definition step_deriv (L e x : R) : R :=
  2 * step_u L e x / (1 + step_u L e x * step_u L e x) * (e * e * cos x / (1 - e * e * (sin x * sin x))).

Lemma latitude_step_derivative L e x : 0 <= e < 1 ->
  is_derive (fun t => latitude_step ROps L e t) x (step_deriv L e x).
Proof.
  intros He. destruct (es_bounds e x He) as [Em Ep]. pose proof (one_minus_e2s2_pos e x He) as E2.
  apply (is_derive_ext (fun t => 2 * atan (step_u L e t) - PI / 2)); [intros t; symmetry; apply latitude_step_eq|].
  unfold step_deriv, step_u, Rpower. auto_derive.
  - split; [lra|]. split; [|exact I]. apply Rdiv_lt_0_compat; lra.
  - set (A := exp (e / 2 * ln _)). assert (Ap : 0 < A) by apply exp_pos.
    set (E := exp L). assert (Epos : 0 < E) by apply exp_pos.
    assert (U : 0 < 1 + A * E * (A * E)) by nra.
    field. repeat split; lra.
Qed.

(* |2u/(1+u^2)| <= 1 and |e^2 cos x / (1 - e^2 sin^2 x)| <= e^2 / (1 - e^2) *)
Lemma step_deriv_bound L e x : 0 <= e < 1 -> Rabs (step_deriv L e x) <= e * e / (1 - e * e).
Proof.
  intros He. pose proof (one_minus_e2s2_pos e x He) as E2. pose proof (sin_sq_le_1 x) as S1.
  unfold step_deriv. set (u := step_u L e x).
  assert (Up : 0 < u) by apply step_u_pos.
  assert (Ee : 0 < 1 - e * e) by nra.
  assert (B1 : 0 <= 2 * u / (1 + u * u) <= 1).
  { pose proof (Rle_0_sqr (u - 1)) as Sq. unfold Rsqr in Sq. split; [apply Rdiv_le_0_compat|apply Rle_div_l]; lra. }
  assert (B2 : Rabs (e * e * cos x / (1 - e * e * (sin x * sin x))) <= e * e / (1 - e * e)).
  { unfold Rdiv. rewrite Rmult_assoc, Rabs_mult, (Rabs_pos_eq (e * e)) by nra. apply Rmult_le_compat_l; [nra|].
    rewrite Rabs_mult, (Rabs_pos_eq (/ _)) by (left; apply Rinv_0_lt_compat; exact E2).
    rewrite <- (Rmult_1_l (/ (1 - e * e))).
    apply Rmult_le_compat; [apply Rabs_pos|left; apply Rinv_0_lt_compat; exact E2| |].
    - apply Rabs_le. pose proof (COS_bound x). lra.
    - apply Rinv_le_contravar; nra. }
  rewrite Rabs_mult, (Rabs_pos_eq (2 * u / (1 + u * u))) by lra.
  pose proof (Rabs_pos (e * e * cos x / (1 - e * e * (sin x * sin x)))). nra.
Qed.

Lemma latitude_step_lipschitz L e x y : 0 <= e < 1 ->
  Rabs (latitude_step ROps L e y - latitude_step ROps L e x) <= e * e / (1 - e * e) * Rabs (y - x).
Proof.
  intros He. apply (lipschitz_of_derive (fun t => latitude_step ROps L e t) (step_deriv L e)). intros z _.
  split; [apply latitude_step_derivative|apply step_deriv_bound]; exact He.
Qed.

Lemma factor_nonneg e : 0 <= e < 1 -> 0 <= e * e / (1 - e * e).
Proof. intros He. apply Rmult_le_pos; [nra|]. left. apply Rinv_0_lt_compat. nra. Qed.

Lemma factor_small e : 0 <= e <= / 10 -> e * e / (1 - e * e) <= / 99.
Proof.
  intros He. assert (Ee : 0 < 1 - e * e) by nra.
  apply (Rmult_le_reg_r (1 - e * e)); [exact Ee|]. unfold Rdiv. rewrite Rmult_assoc, Rinv_l by lra. nra.
Qed.

(* error on exit, for any eccentricity whose factor q = e^2/(1-e^2) is below 1: the last step was shorter than EPSILON,
   so the value returned on the isometric latitude of lat is within q EPSILON / (1 - q) of lat *)
Lemma computeLatitude_error fuel e lat r : 0 <= e < 1 -> e * e / (1 - e * e) < 1 -> - PI / 2 < lat < PI / 2 ->
  computeLatitude ROps fuel (isolat e lat) e = Some r ->
  Rabs (r - lat) <= e * e / (1 - e * e) * lambert_eps ROps / (1 - e * e / (1 - e * e)).
Proof.
  intros He Hq1 Hl Hr. pose proof (factor_nonneg e He) as Hq0. set (q := e * e / (1 - e * e)) in *.
  unfold computeLatitude in Hr. apply latitude_iter_exit in Hr. destruct Hr as [prev [Er Hd]].
  pose proof (latitude_step_fixed_point e lat He Hl) as Fix.
  subst r.
  apply (contraction_exit_error (fun t => latitude_step ROps (isolat e lat) e t) q (lambert_eps ROps) prev lat (conj Hq0 Hq1) Fix).
  - apply latitude_step_lipschitz. exact He.
  - left. exact Hd.
Qed.

(* for e <= 1/10: q <= 1/99, hence within EPSILON/98 *)
Lemma computeLatitude_accuracy fuel e lat r : 0 <= e <= / 10 -> - PI / 2 < lat < PI / 2 ->
  computeLatitude ROps fuel (isolat e lat) e = Some r ->
  Rabs (r - lat) <= lambert_eps ROps / 98.
Proof.
  intros He Hl Hr. assert (He' : 0 <= e < 1) by lra.
  pose proof (factor_nonneg e He') as Hq0. pose proof (factor_small e He) as Hq99.
  eapply Rle_trans; [apply (computeLatitude_error fuel e lat r He'); [lra|assumption..]|].
  set (q := e * e / (1 - e * e)) in *. rewrite lambert_eps_eq.
  apply Rle_div_l; [lra|]. unfold Rdiv. nra.
Qed.

(* 2 atan u - pi/2 for u > 0: the form of the first guess and of every iterate *)
Lemma two_atan_range u : 0 < u -> - PI / 2 < 2 * atan u - PI / 2 < PI / 2.
Proof.
  intros Up. pose proof (atan_bound u) as [_ B].
  assert (0 < atan u) by (rewrite <- atan_0; apply atan_increasing; exact Up). lra.
Qed.

Lemma latitude_step_range L e x : - PI / 2 < latitude_step ROps L e x < PI / 2.
Proof. rewrite latitude_step_eq. apply two_atan_range, step_u_pos. Qed.

(* each pass shrinks the step by q, so n + 1 passes suffice once q^n times the first step is below EPSILON *)
Lemma latitude_iter_terminates n L e : 0 <= e < 1 -> forall fuel x,
  (e * e / (1 - e * e)) ^ n * Rabs (latitude_step ROps L e x - x) < lambert_eps ROps -> (n < fuel)%nat ->
  exists r, latitude_iter ROps fuel L e x = Some r.
Proof.
  intros He. pose proof (factor_nonneg e He) as Hq. set (q := e * e / (1 - e * e)) in *.
  induction n as [|n IH]; intros fuel x Hd Hf; (destruct fuel as [|f]; [lia|]).
  - eexists. apply latitude_iter_done. cbn [pow] in Hd. lra.
  - destruct (Rlt_or_le (Rabs (latitude_step ROps L e x - x)) (lambert_eps ROps)) as [H|H].
    { eexists. apply latitude_iter_done. exact H. }
    rewrite latitude_iter_step by exact H. apply IH; [|lia].
    eapply Rle_lt_trans; [|exact Hd]. cbn [pow]. rewrite (Rmult_comm q), Rmult_assoc.
    apply Rmult_le_compat_l; [apply pow_le; exact Hq|]. apply latitude_step_lipschitz. exact He.
Qed.

(* first guess and first iterate lie in (-pi/2, pi/2), so the first step is shorter than 4 *)
Lemma computeLatitude_terminates_within n L e k : 0 <= e < 1 ->
  (e * e / (1 - e * e)) ^ n * 4 < lambert_eps ROps -> exists r, computeLatitude ROps (S n + k) L e = Some r.
Proof.
  intros He Hn. pose proof (factor_nonneg e He) as Hq.
  unfold computeLatitude, half_pi, ntwo. cbn [nmul nsub natan nexp ndiv nadd n_one npi ROps].
  replace (1 + 1) with 2 by ring. set (x0 := 2 * atan (exp L) - PI / 2).
  apply (latitude_iter_terminates n L e He); [|lia].
  pose proof (latitude_step_range L e x0) as R1. pose proof (two_atan_range (exp L) (exp_pos L)) as R0. fold x0 in R0.
  assert (D : Rabs (latitude_step ROps L e x0 - x0) < 4).
  { apply Rabs_def1; pose proof PI_4 as P4; pose proof PI_RGT_0; lra. }
  eapply Rle_lt_trans; [|exact Hn]. apply Rmult_le_compat_l; [apply pow_le; exact Hq|lra].
Qed.

(* for e <= 1/10 the loop of computeLatitude exits within 8 passes, whatever the isometric latitude:
   q <= 1/99 and 4 / 99^7 < EPSILON = 1e-12 *)
Lemma computeLatitude_terminates L e k : 0 <= e <= / 10 -> exists r, computeLatitude ROps (8 + k) L e = Some r.
Proof.
  intros He. assert (He' : 0 <= e < 1) by lra. apply (computeLatitude_terminates_within 7); [exact He'|].
  pose proof (conj (factor_nonneg e He') (factor_small e He)) as Hq. set (q := e * e / (1 - e * e)) in *.
  assert (Q7 : q ^ 7 <= (/ 99) ^ 7) by (apply pow_incr; exact Hq).
  rewrite lambert_eps_eq. cbn [pow] in Q7 |- *. lra.
Qed.
