(* GridMapProofs.v — C13 over the reals: one axis of GridMapModel with resolution r > 0 and extent [lo, hi].  The key
   fact is half_cell_margin: a point of the extent sits, in cell units from the floored origin, at least half a cell
   inside the index range, so truncation toward zero is floor there (index_in_bounds, point_within_half). *)
From Coq Require Import Reals ZArith Lra Lia.
From Flocq Require Import Core.Raux.
From Romea Require Import Num NumR GridMapModel.
Local Open Scope R_scope.

Lemma nhalf_R : nhalf ROps = 1 / 2.
Proof. unfold nhalf, ntwo. cbn. lra. Qed.

Section G.
Variables r lo hi : R.
Hypothesis Hr : 0 < r.
Hypothesis Hlh : lo <= hi.

Let org := gm_origin ROps r lo.
Let n := gm_ncells ROps r lo hi.
Let idx p := gm_index ROps r org p.
Let centre k := gm_centre ROps r org k.

Lemma gm_origin_R : org = r * (IZR (Zfloor (lo / r)) - 1 / 2).
Proof. unfold org, gm_origin. rewrite nhalf_R. reflexivity. Qed.

Lemma gm_index_R p : idx p = Ztrunc ((p - org) / r).
Proof. reflexivity. Qed.

Lemma gm_centre_R k : centre k = org + (IZR k + 1 / 2) * r.
Proof. unfold centre, gm_centre. rewrite nhalf_R. reflexivity. Qed.

Lemma gm_ncells_R : n = (Zceil (hi / r) - Zfloor (lo / r) + 1)%Z.
Proof.
  unfold n, gm_ncells. cbn [ntruncZ nadd nsub nceil nfloor ndiv n_one ROps].
  rewrite <- minus_IZR. rewrite <- (plus_IZR _ 1). apply Ztrunc_IZR.
Qed.

Lemma q_eq p : (p - org) / r = p / r - IZR (Zfloor (lo / r)) + 1 / 2.
Proof. rewrite gm_origin_R. field. lra. Qed.

Lemma div_r_le a b : a <= b -> a / r <= b / r.
Proof. intros H. apply Rmult_le_compat_r; [left; apply Rinv_0_lt_compat; lra|exact H]. Qed.

Theorem half_cell_margin p : lo <= p <= hi -> 1 / 2 <= (p - org) / r <= IZR n - 1 / 2.
Proof.
  intros [H1 H2]. rewrite q_eq, gm_ncells_R. rewrite plus_IZR, minus_IZR.
  pose proof (div_r_le lo p H1). pose proof (div_r_le p hi H2).
  generalize (Zfloor_lb (lo / r)) (Zceil_ub (hi / r)). simpl. lra.
Qed.

Theorem index_in_bounds p : lo <= p <= hi -> (0 <= idx p < n)%Z.
Proof.
  intros H. destruct (half_cell_margin p H) as [A B]. rewrite gm_index_R.
  rewrite Ztrunc_floor by lra. split.
  - apply Zfloor_lub. simpl. lra.
  - apply lt_IZR. eapply Rle_lt_trans; [apply Zfloor_lb|lra].
Qed.

Theorem point_within_half p : lo <= p <= hi -> Rabs (p - centre (idx p)) <= r / 2.
Proof.
  intros H. destruct (half_cell_margin p H) as [A B]. rewrite gm_centre_R, gm_index_R.
  rewrite Ztrunc_floor by lra. set (u := (p - org) / r) in *.
  assert (Hp : p = org + u * r) by (unfold u; field; lra).
  generalize (Zfloor_lb u) (Zfloor_ub u). intros L U.
  rewrite Hp at 1. apply Rabs_le. split; nra.
Qed.

Theorem centre_fixed k : (0 <= k)%Z -> idx (centre k) = k.
Proof.
  intros Hk. rewrite gm_index_R, gm_centre_R.
  replace ((org + (IZR k + 1 / 2) * r - org) / r) with (IZR k + 1 / 2) by (field; lra).
  assert (0 <= IZR k) by (apply IZR_le; exact Hk).
  rewrite Ztrunc_floor by lra. apply Zfloor_imp. rewrite plus_IZR. simpl. lra.
Qed.

Theorem centres_spaced k : centre (k + 1) - centre k = r.
Proof. rewrite !gm_centre_R. rewrite plus_IZR. simpl. ring. Qed.

Theorem bounds_covered : centre 0 - r / 2 <= lo /\ hi <= centre (n - 1) + r / 2.
Proof.
  rewrite !gm_centre_R, gm_origin_R, gm_ncells_R. split.
  - pose proof (Zfloor_lb (lo / r)) as L. simpl.
    assert (IZR (Zfloor (lo / r)) * r <= lo).
    { replace lo with (lo / r * r) at 2 by (field; lra). apply Rmult_le_compat_r; lra. }
    lra.
  - pose proof (Zceil_ub (hi / r)) as U.
    replace (Zceil (hi / r) - Zfloor (lo / r) + 1 - 1)%Z with (Zceil (hi / r) - Zfloor (lo / r))%Z by lia.
    rewrite minus_IZR.
    assert (hi <= IZR (Zceil (hi / r)) * r).
    { replace hi with (hi / r * r) at 1 by (field; lra). apply Rmult_le_compat_r; lra. }
    lra.
Qed.

Theorem ncells_positive : (1 <= n)%Z.
Proof.
  rewrite gm_ncells_R. pose proof (div_r_le lo hi Hlh) as D.
  assert (Zfloor (lo / r) <= Zceil (hi / r))%Z.
  { apply le_IZR. eapply Rle_trans; [apply Zfloor_lb|]. eapply Rle_trans; [exact D|apply Zceil_ub]. }
  lia.
Qed.
End G.
