(* PoseJacDeriv.v — C12, the Jacobian theorem (read after Atan2Deriv, DerivProofs, PoseJacProofs; before PoseJacCharts):
   the angular block of the repaired Jacobian of operator*(Affine3d, Pose3D) is the
   derivative of the extracted angles of l*Rz*Ry*Rx with respect to roll, pitch, yaw.  One theorem for every way of
   reading the angles (raw, reported, modulo 2 pi): the notion of derivative and the two angle functions are
   parameters, and what is asked of them is the quotient rule of atan2 and of -asin on their domain.  Instantiated
   here with the raw angles (before normalisation to [0,2pi), which is piecewise a constant shift) on every chart
   of atan2; PoseJacCharts.v instantiates it with the reported angles. *)
From Coq Require Import Reals ZArith Lra Lia Psatz.
From Coquelicot Require Import Coquelicot.
From Romea Require Import Num NumR AnglesModel AnglesProofs AnglesRoundtrip PoseCovModel PoseCovProofs DerivProofs PoseJacProofs
  Atan2Deriv.
From Romea Require Export PoseJacMrot.
Local Open Scope R_scope.

Lemma is_derive_neg_asin (w : R -> R) t dw :
  is_derive w t dw -> -1 < w t < 1 ->
  is_derive (fun s => - asin (w s)) t (- dw / sqrt (1 - w t * w t)).
Proof.
  intros Hw Hr.
  evar_last.
  - apply (is_derive_opp (fun s => asin (w s)) t). apply (is_derive_comp asin w).
    + apply is_derive_Reals. apply (derive_pt_eq_1 asin (w t) _ (derivable_pt_asin (w t) Hr)). apply derive_pt_asin.
    + exact Hw.
  - unfold scal, opp; simpl; unfold mult, opp; simpl. unfold Rsqr. field.
    assert (0 < 1 - w t * w t) by nra. pose proof (sqrt_lt_R0 _ H). lra.
Qed.

Lemma dM_x l x y z : mderive (fun t => Mrot l t y z) x (mmul3 ROps l (dRdX_true x y z)).
Proof. apply mderive_mul_l, dR_true_x. Qed.
Lemma dM_y l x y z : mderive (fun t => Mrot l x t z) y (mmul3 ROps l (dRdY_true x y z)).
Proof. apply mderive_mul_l, dR_true_y. Qed.
Lemma dM_z l x y z : mderive (fun t => Mrot l x y t) z (mmul3 ROps l (dRdZ_true x y z)).
Proof. apply mderive_mul_l, dR_true_z. Qed.

(* the angles rotation3DToEulerAngles extracts, before between0And2Pi *)
Definition raw_roll (m : mat3 R) : R := Ratan2 (m21 m) (m22 m).
Definition raw_pitch (m : mat3 R) : R := - asin (m20 m).
Definition raw_yaw (m : mat3 R) : R := Ratan2 (m10 m) (m00 m).

(* the code's J, column by column, in the quotient-rule coefficients of the transformed rotation *)
Lemma pose_J_angular_unfold l x y z :
  let r := Mrot l x y z in
  let col := fun d : mat3 R => mkV3
    (m22 r / (m21 r * m21 r + m22 r * m22 r) * m21 d - m21 r / (m21 r * m21 r + m22 r * m22 r) * m22 d)
    (- 1 / sqrt (1 - m20 r * m20 r) * m20 d)
    (m00 r / (m00 r * m00 r + m10 r * m10 r) * m10 d - m10 r / (m00 r * m00 r + m10 r * m10 r) * m00 d) in
  pose_J_angular ROps l (mkV3 x y z) =
  mcols3 (col (mmul3 ROps l (dRdX_true x y z))) (col (mmul3 ROps l (dRdY_true x y z))) (col (mmul3 ROps l (dRdZ_true x y z))).
Proof.
  cbv zeta. unfold pose_J_angular. cbn [v0 v1 v2].
  change (sR (smart_init ROps x y z)) with (rot_zyx x y z).
  destruct (dSd_of_true x y z) as [E1 [E2 E3]]. rewrite E1, E2, E3.
  fold (Mrot l x y z). unfold mcols3. cbn [v0 v1 v2]. rcbn. reflexivity.
Qed.

Section Angular.
  (* D f t d: "f has derivative d at t";  roll = yaw = A (y, x) and pitch = B (sine), differentiable in that sense
     along a path with the derivatives of atan2 and of -asin, where PA / PB hold *)
  Variable D : (R -> R) -> R -> R -> Prop.
  Variables (A : R -> R -> R) (B : R -> R) (PA : R -> R -> Prop) (PB : R -> Prop).
  Hypothesis PA_norm : forall y x, PA y x -> 0 < y * y + x * x.
  Hypothesis D_A : forall (u v : R -> R) t du dv, is_derive u t du -> is_derive v t dv -> PA (u t) (v t) ->
    D (fun s => A (u s) (v s)) t ((v t * du - u t * dv) / (u t * u t + v t * v t)).
  Hypothesis D_B : forall (w : R -> R) t dw, is_derive w t dw -> -1 < w t < 1 -> PB (w t) ->
    D (fun s => B (w s)) t (- dw / sqrt (1 - w t * w t)).

  Let roll (m : mat3 R) := A (m21 m) (m22 m).
  Let pitch (m : mat3 R) := B (m20 m).
  Let yaw (m : mat3 R) := A (m10 m) (m00 m).
  Let dom (m : mat3 R) := PA (m21 m) (m22 m) /\ PA (m10 m) (m00 m) /\ Rabs (m20 m) < 1 /\ PB (m20 m).

  (* one column of the angular block, for an arbitrary direction of differentiation *)
  Lemma J_column (f : R -> mat3 R) (d : mat3 R) t : mderive f t d -> dom (f t) ->
    let r := f t in
    D (fun s => roll (f s)) t
      (m22 r / (m21 r * m21 r + m22 r * m22 r) * m21 d - m21 r / (m21 r * m21 r + m22 r * m22 r) * m22 d) /\
    D (fun s => pitch (f s)) t (- 1 / sqrt (1 - m20 r * m20 r) * m20 d) /\
    D (fun s => yaw (f s)) t
      (m00 r / (m00 r * m00 r + m10 r * m10 r) * m10 d - m10 r / (m00 r * m00 r + m10 r * m10 r) * m00 d).
  Proof.
    intros Hd (H22 & H00 & H20 & Hb). cbv zeta. apply Rabs_def2 in H20.
    pose proof (PA_norm _ _ H22) as N22. pose proof (PA_norm _ _ H00) as N00.
    split; [|split]; evar_last.
    - exact (D_A (fun s => m21 (f s)) (fun s => m22 (f s)) t _ _ (Hd 2%nat 1%nat) (Hd 2%nat 2%nat) H22).
    - cbn [mget3]. field. lra.
    - exact (D_B (fun s => m20 (f s)) t _ (Hd 2%nat 0%nat) ltac:(lra) Hb).
    - cbn [mget3]. field. assert (0 < 1 - m20 (f t) * m20 (f t)) by nra. pose proof (sqrt_lt_R0 _ H). lra.
    - exact (D_A (fun s => m10 (f s)) (fun s => m00 (f s)) t _ _ (Hd 1%nat 0%nat) (Hd 0%nat 0%nat) H00).
    - cbn [mget3]. field. lra.
  Qed.

  (* the angular block of J, column by column, is the derivative of (roll', pitch', yaw') in roll, pitch, yaw.
     This is the theorem to instantiate; pose_J_angular_is_jacobian below is its instance on one chart of the raw angles. *)
  Theorem pose_J_angular_jacobian l x y z : dom (Mrot l x y z) ->
    let J := pose_J_angular ROps l (mkV3 x y z) in
    (D (fun t => roll (Mrot l t y z)) x (m00 J) /\ D (fun t => pitch (Mrot l t y z)) x (m10 J) /\
     D (fun t => yaw (Mrot l t y z)) x (m20 J)) /\
    (D (fun t => roll (Mrot l x t z)) y (m01 J) /\ D (fun t => pitch (Mrot l x t z)) y (m11 J) /\
     D (fun t => yaw (Mrot l x t z)) y (m21 J)) /\
    (D (fun t => roll (Mrot l x y t)) z (m02 J) /\ D (fun t => pitch (Mrot l x y t)) z (m12 J) /\
     D (fun t => yaw (Mrot l x y t)) z (m22 J)).
  Proof.
    intros H. cbv zeta. rewrite pose_J_angular_unfold. cbv zeta. unfold mcols3.
    cbn [m00 m01 m02 m10 m11 m12 m20 m21 m22 v0 v1 v2].
    split; [|split].
    - exact (J_column (fun t => Mrot l t y z) _ x (dM_x l x y z) H).
    - exact (J_column (fun t => Mrot l x t z) _ y (dM_y l x y z) H).
    - exact (J_column (fun t => Mrot l x y t) _ z (dM_z l x y z) H).
  Qed.
End Angular.

(* the raw angles: atan2 wherever it is differentiable (off its branch cut), -asin everywhere *)
Lemma raw_angles_jacobian l x y z :
  off_cut (m21 (Mrot l x y z)) (m22 (Mrot l x y z)) -> off_cut (m10 (Mrot l x y z)) (m00 (Mrot l x y z)) ->
  Rabs (m20 (Mrot l x y z)) < 1 ->
  let J := pose_J_angular ROps l (mkV3 x y z) in
  (is_derive (fun t => raw_roll (Mrot l t y z)) x (m00 J) /\ is_derive (fun t => raw_pitch (Mrot l t y z)) x (m10 J) /\
   is_derive (fun t => raw_yaw (Mrot l t y z)) x (m20 J)) /\
  (is_derive (fun t => raw_roll (Mrot l x t z)) y (m01 J) /\ is_derive (fun t => raw_pitch (Mrot l x t z)) y (m11 J) /\
   is_derive (fun t => raw_yaw (Mrot l x t z)) y (m21 J)) /\
  (is_derive (fun t => raw_roll (Mrot l x y t)) z (m02 J) /\ is_derive (fun t => raw_pitch (Mrot l x y t)) z (m12 J) /\
   is_derive (fun t => raw_yaw (Mrot l x y t)) z (m22 J)).
Proof.
  intros H22 H00 H20.
  exact (pose_J_angular_jacobian is_derive Ratan2 (fun w => - asin w) off_cut (fun _ => True) off_cut_norm is_derive_Ratan2
           (fun w t dw Hw Hr _ => is_derive_neg_asin w t dw Hw Hr) l x y z (conj H22 (conj H00 (conj H20 I)))).
Qed.

(* the chart atan2 = atan(y/x) alone: transformed roll and yaw inside (-pi/2, pi/2) *)
Lemma pose_J_angular_is_jacobian l x y z :
  0 < m22 (Mrot l x y z) -> 0 < m00 (Mrot l x y z) -> Rabs (m20 (Mrot l x y z)) < 1 ->
  let J := pose_J_angular ROps l (mkV3 x y z) in
  (is_derive (fun t => raw_roll (Mrot l t y z)) x (m00 J) /\ is_derive (fun t => raw_pitch (Mrot l t y z)) x (m10 J) /\
   is_derive (fun t => raw_yaw (Mrot l t y z)) x (m20 J)) /\
  (is_derive (fun t => raw_roll (Mrot l x t z)) y (m01 J) /\ is_derive (fun t => raw_pitch (Mrot l x t z)) y (m11 J) /\
   is_derive (fun t => raw_yaw (Mrot l x t z)) y (m21 J)) /\
  (is_derive (fun t => raw_roll (Mrot l x y t)) z (m02 J) /\ is_derive (fun t => raw_pitch (Mrot l x y t)) z (m12 J) /\
   is_derive (fun t => raw_yaw (Mrot l x y t)) z (m22 J)).
Proof.
  intros H22 H00. apply raw_angles_jacobian; apply off_cut_cases; left; assumption.
Qed.

(* the position block: position' = l*p + t is linear in p with matrix l *)
Lemma pose_J_position l (t p : vec3 R) i j :
  is_derive (fun s => vget3 (vadd3 ROps (mvmul3 ROps l
      (match j with 0%nat => mkV3 s (v1 p) (v2 p) | 1%nat => mkV3 (v0 p) s (v2 p) | _ => mkV3 (v0 p) (v1 p) s end)) t) i)
    (vget3 p j) (mget3 l i j).
Proof.
  destruct l as [l0 l1 l2 l3 l4 l5 l6 l7 l8], t as [t0 t1 t2], p as [p0 p1 p2].
  destruct i as [|[|i]]; destruct j as [|[|j]]; unfold vadd3, mvmul3; cbn [vget3 mget3 v0 v1 v2]; rcbn;
    auto_derive; trivial; ring.
Qed.
