(* Properties_C10.v — C10: angle, rotation and coordinate parametrisations are mutually consistent.
   Over the real-number instance ROps of the model AnglesModel.v, except the theorems whose names end in _binary64:
   the two angle normalisers at the rounded binary64 dictionary B64Ops.  Only the C10_source_* theorems use the
   SrcTie* / gen modules.
   Notation:  rot_zyx x y z = Rz(z)*Ry(y)*Rx(x)  (x = roll, y = pitch, z = yaw);
              r2e = rotation3DToEulerAngles, q2e = quaternionToEulerAngles, r2a/a2r the planar pair,
              b02 = between0And2Pi, bpi = betweenMinusPiAndPi  (Scalar = double = R);
              cong2pi a b := exists k : Z, a = b + 2*PI*k. *)
From Coq Require Import Reals ZArith Lra Lia List String.
From Flocq Require Import Core.
From Romea Require Import Num NumR AnglesModel AnglesProofs AnglesRoundtrip AnglesCoords GridMapFloat AnglesFloat.
From Romea Require Import AnglesFloatTie SrcTieAngles SrcTiePolar SrcTieC10Eigen.
From Romea.gen Require Import SrcFunsC10 SrcEigenC10.
Import ListNotations.
Local Open Scope R_scope.

(* --- all produced matrices are proper rotations --- *)
Theorem C10_rzyx_proper_rotation : forall x y z,
  mmul3 ROps (mtrans3 (rot_zyx x y z)) (rot_zyx x y z) = mid3 ROps /\ det3 ROps (rot_zyx x y z) = 1.
Proof. exact rzyx_proper. Qed.
Print Assumptions C10_rzyx_proper_rotation.

(* --- the three builders produce the same matrix: quaternion -> matrix, and SmartRotation3D::R --- *)
Theorem C10_quat_builder_eq_matrix_builder : forall x y z,
  eulerAnglesToRotation3D ROps (mkV3 x y z) = rot_zyx x y z /\
  quat_to_mat ROps (eulerAnglesToQuaternion ROps (mkV3 x y z)) = rot_zyx x y z /\
  qnorm2 ROps (eulerAnglesToQuaternion ROps (mkV3 x y z)) = 1 /\
  sR (smart_init ROps x y z) = rot_zyx x y z.
Proof.
  intros x y z. split; [exact (quat_builder_eq_matrix_builder x y z)|].
  split; [exact (quat_builder_eq_matrix_builder x y z)|].
  split; [exact (euler_quat_unit x y z)|exact (smart_R_is_rzyx x y z)].
Qed.
Print Assumptions C10_quat_builder_eq_matrix_builder.

(* --- angles -> rotation -> angles: the same angles modulo 2*pi, each reported in [0, 2*pi);
       any roll and yaw, |pitch| < pi/2 --- *)
Theorem C10_angles_roundtrip : forall roll pitch yaw, - PI / 2 < pitch < PI / 2 ->
  exists a b c,
    r2e (eulerAnglesToRotation3D ROps (mkV3 roll pitch yaw)) = Some (mkV3 a b c) /\
    cong2pi a roll /\ cong2pi b pitch /\ cong2pi c yaw /\
    0 <= a < 2 * PI /\ 0 <= b < 2 * PI /\ 0 <= c < 2 * PI.
Proof. intros x y z H. rewrite quat_builder_eq_matrix_builder. exact (angles_roundtrip_rzyx x y z H). Qed.
Print Assumptions C10_angles_roundtrip.

(* --- angles -> quaternion -> angles --- *)
Theorem C10_quaternion_angles_roundtrip : forall roll pitch yaw, - PI / 2 < pitch < PI / 2 ->
  exists a b c,
    q2e (eulerAnglesToQuaternion ROps (mkV3 roll pitch yaw)) = Some (mkV3 a b c) /\
    cong2pi a roll /\ cong2pi b pitch /\ cong2pi c yaw /\
    0 <= a < 2 * PI /\ 0 <= b < 2 * PI /\ 0 <= c < 2 * PI.
Proof.
  intros x y z Hy. unfold q2e, quaternionToEulerAngles.
  rewrite (qnormalized_unit _ (euler_quat_unit x y z)).
  change (quat_to_mat ROps (eulerAnglesToQuaternion ROps (mkV3 x y z))) with (eulerAnglesToRotation3D ROps (mkV3 x y z)).
  rewrite quat_builder_eq_matrix_builder. exact (angles_roundtrip_rzyx x y z Hy).
Qed.
Print Assumptions C10_quaternion_angles_roundtrip.

(* --- rotation -> angles -> rotation: identity on every proper rotation off gimbal lock --- *)
Theorem C10_rotation_roundtrip : forall m : mat3 R,
  mmul3 ROps (mtrans3 m) m = mid3 ROps -> det3 ROps m = 1 -> Rabs (m20 m) < 1 ->
  exists e, r2e m = Some e /\ eulerAnglesToRotation3D ROps e = m.
Proof.
  intros m Ho Hd H. destruct (rotation_roundtrip_lemma m (conj Ho Hd) H) as [e [E1 E2]].
  exists e. split; [exact E1|]. destruct e as [a b c]. rewrite quat_builder_eq_matrix_builder. exact E2.
Qed.
Print Assumptions C10_rotation_roundtrip.

(* --- non-unit quaternions: quaternionToEulerAngles normalises, so scale is irrelevant, and the matrix it
       extracts from is a proper rotation (hence C10_rotation_roundtrip applies to it) --- *)
Theorem C10_quat_scale_invariant : forall s q, 0 < s -> 0 < qnorm2 ROps q ->
  q2e (qscale s q) = q2e q /\ proper_rotation (quat_to_mat ROps (qnormalized ROps q)).
Proof.
  intros s q Hs Hq. destruct (quat_scale_invariant s q Hs Hq) as [E U]. split.
  - unfold q2e, quaternionToEulerAngles. rewrite E. reflexivity.
  - apply quat_to_mat_proper. exact U.
Qed.
Print Assumptions C10_quat_scale_invariant.

(* --- normalisers: congruent modulo 2*pi and inside the advertised interval (for every real input, in
       particular on the asserted domain |x| < 4*pi) --- *)
Theorem C10_normaliser_congruent_in_range : forall x,
  (cong2pi (b02 x) x /\ 0 <= b02 x < 2 * PI) /\ (cong2pi (bpi x) x /\ - PI <= bpi x <= PI).
Proof. intros x. split; [exact (b02_spec x)|exact (bpi_spec x)]. Qed.
Print Assumptions C10_normaliser_congruent_in_range.

(* --- planar pair --- *)
Theorem C10_rot2d_roundtrip :
  (forall a, cong2pi (r2a (a2r a)) a /\ 0 <= r2a (a2r a) < 2 * PI) /\
  (forall a, proper_rotation2 (a2r a)) /\
  (forall m, proper_rotation2 m -> a2r (r2a m) = m).
Proof. split; [exact rot2d_angle_roundtrip|split; [exact a2r_proper|exact rot2d_matrix_roundtrip]]. Qed.
Print Assumptions C10_rot2d_roundtrip.

(* --- polar <-> Cartesian, r > 0 --- *)
Theorem C10_polar_roundtrip :
  (forall x y, 0 < x * x + y * y ->
     let '(r, az) := toPolar ROps x y in
     polarToCartesian ROps r az = (x, y) /\ r * r = x * x + y * y /\ 0 < r /\ - PI < az <= PI) /\
  (forall r az, 0 < r -> - PI < az <= PI ->
     let '(x, y) := polarToCartesian ROps r az in toPolar ROps x y = (r, az)).
Proof. split; [exact polar_roundtrip|exact polar_roundtrip_inv]. Qed.
Print Assumptions C10_polar_roundtrip.

(* --- spherical <-> Cartesian, r > 0 (elevation is the polar angle from +z; the azimut is not
       determined on the z axis, so the inverse direction asks 0 < elevation < pi) --- *)
Theorem C10_spherical_roundtrip :
  (forall x y z, 0 < x * x + y * y + z * z ->
     exists r az el, toSpherical ROps x y z = Some (r, az, el) /\
       sphericalToCartesian ROps r az el = mkV3 x y z /\
       r * r = x * x + y * y + z * z /\ 0 < r /\ - PI <= az <= PI /\ 0 <= el <= PI) /\
  (forall r az el, 0 < r -> - PI < az <= PI -> 0 < el < PI ->
     let p := sphericalToCartesian ROps r az el in toSpherical ROps (v0 p) (v1 p) (v2 p) = Some (r, az, el)).
Proof. split; [exact spherical_roundtrip|exact spherical_roundtrip_inv]. Qed.
Print Assumptions C10_spherical_roundtrip.

(* --- non-vacuity --- *)
Example C10_ex_rotation_hyp : (* the identity is a proper rotation off gimbal lock *)
  mmul3 ROps (mtrans3 (mid3 ROps)) (mid3 ROps) = mid3 ROps /\ det3 ROps (mid3 ROps) = 1 /\ Rabs (m20 (mid3 ROps)) < 1.
Proof.
  unfold mmul3, mtrans3, mid3, det3. rcbn. split; [f_equal; ring|]. split; [ring|]. rewrite Rabs_R0. lra.
Qed.
Example C10_ex_pitch : - PI / 2 < 1 < PI / 2.
Proof. pose proof PI_RGT_0. pose proof (PI2_3_2). lra. Qed.
Example C10_ex_quat : 0 < qnorm2 ROps (mkQ 2 0 0 0).
Proof. unfold qnorm2. rcbn. lra. Qed.
Example C10_ex_rot2 : proper_rotation2 (mkM2 0 (-1) 1 0).
Proof. unfold proper_rotation2. cbn. repeat split; ring. Qed.

(* --- SOURCE TIE (translator translate/srcfuns.py): the two angle normalisers and the rotation -> angle extractors of
       EulerAngles.hpp, regenerated on every run from the clang AST of their instantiation at double (gen/SrcFunsC10.v),
       are the model functions b02 / bpi / r2a / r2e of the theorems above --- *)
Theorem C10_source_tie_normalisers : forall v,
  src_between0And2Pi ROps v = b02 v /\ src_betweenMinusPiAndPi ROps v = bpi v.
Proof. intros v. exact (conj (tie_between0And2Pi v) (tie_betweenMinusPiAndPi v)). Qed.
Print Assumptions C10_source_tie_normalisers.

Theorem C10_source_tie_rotation_to_angles :
  (forall m : mat2 R, src_rotation2DToEulerAngle ROps (a00 m) (a01 m) (a10 m) (a11 m) = rotation2DToEulerAngle ROps ROps idR idR m) /\
  (forall m : mat3 R, nleb ROps (nabs ROps (m20 m)) (n_one ROps) = true ->
     rotation3DToEulerAngles ROps ROps idR idR m =
     (let '(r, p, y) := src_rotation3DToEulerAngles ROps (m00 m) (m10 m) (m20 m) (m21 m) (m22 m) in Some (mkV3 r p y))).
Proof. exact (conj tie_rotation2DToEulerAngle tie_rotation3DToEulerAngles). Qed.
Print Assumptions C10_source_tie_rotation_to_angles.

(* polar / spherical maps: every overload (scalar, Cartesian point, homogeneous point) of PolarTransform /
   SphericalTransform, regenerated from the source, is the model function of the round-trip theorems above — for every
   numeric dictionary.  In particular the homogeneous overloads measure the range over the Cartesian part only. *)
Theorem C10_source_tie_polar : forall (T : Type) (N : NumOps T) (x y r az : T),
  (toPolar N x y = (src_polarRange N x y, src_polarAzimut N x y) /\
   toPolar N x y = (src_polarRangeCartesian N x y, src_polarAzimutCartesian N x y) /\
   toPolar N x y = (src_polarRangeHomogeneous N x y, src_polarAzimutHomogeneous N x y)) /\
  polarToCartesian N r az = (src_polarX N r az, src_polarY N r az).
Proof. intros T N x y r az. exact (conj (tie_toPolar N x y) (tie_polarToCartesian N r az)). Qed.
Print Assumptions C10_source_tie_polar.

Theorem C10_source_tie_spherical : forall (T : Type) (N : NumOps T),
  (forall r az el, sphericalToCartesian N r az el = mkV3 (src_sphX N r az el) (src_sphY N r az el) (src_sphZ N r el)) /\
  (forall x y z r az el, toSpherical N x y z = Some (r, az, el) ->
     r = src_sphRange N x y z /\ az = src_sphAzimut N x y /\ el = src_sphElevation N z (src_sphRange N x y z) /\
     r = src_sphRangeCartesian N x y z /\ el = src_sphElevationCartesian N x y z /\
     r = src_sphRangeHomogeneous N x y z /\ el = src_sphElevationHomogeneous N x y z).
Proof. intros T N. exact (conj (tie_sphericalToCartesian N) (tie_toSpherical_overloads N)). Qed.
Print Assumptions C10_source_tie_spherical.

(* ====================================================================================================================
   FLOATING POINT (IEEE-754 binary64), sentence "angle normalisers return a value congruent to their input modulo 2*pi
   inside their advertised interval".  The SAME model functions, instantiated at the rounded dictionary B64Ops
   (GridMapFloat.v: + and - are the real operation followed by one rounding to nearest-even in FLT(-1074,53), comparisons
   exact, npi = the double nearest to pi, fmod = the exact real remainder — exact in double by C10_fmod_exact_binary64).
     b64 x        : x is a binary64 number            rnd64 : rounding to nearest-even
     M_PI64  = rnd64 PI   (the constant M_PI)         M_2PI64 = 2 * M_PI64   (M_2PI; M_4PI = 2 * M_2PI64)
   Lemmas in AnglesFloat.v.  Trusted: the hardware/compiler arithmetic is that rounding (one rounding per C++ operation:
   no FMA contraction, no x87 excess precision), std::fmod returns the exact remainder (IEEE-754 / C Annex F), the
   exponent range is not exceeded (every quantity here is below 16). *)

(* --- M_PI is 0x1.921fb54442d18p+1, BELOW pi by 1.2246e-16 (less than half an ulp, 2^-52); M_2PI = 2*M_PI is a double
       (the doubling is exact) and is what the model's constant evaluates to in binary64 --- *)
Theorem C10_M_PI_binary64 :
  npi B64Ops = M_PI64 /\ m_2pi B64Ops = M_2PI64 /\
  M_PI64 = 884279719003555 / 281474976710656 /\ b64 M_PI64 /\ b64 M_2PI64 /\
  12246 / 100000000000000000000 < PI - M_PI64 < 12247 / 100000000000000000000 /\
  Rabs (M_PI64 - PI) <= bpow radix2 (-52).
Proof.
  exact (conj eq_refl (conj m_2pi_b64 (conj M_PI64_val (conj M_PI64_b64 (conj M_2PI64_b64
        (conj M_PI64_err M_PI64_err_half_ulp)))))).
Qed.
Print Assumptions C10_M_PI_binary64.

(* --- std::fmod is exact: the remainder x - y*trunc(x/y) of two floating-point numbers is a floating-point number, in
       FULL generality (every x and every y — also negative or zero —, every precision and minimal exponent; binary64 and
       binary32 spelled out).  Hence leaving nfmod unrounded in the rounded dictionaries is faithful. --- *)
Theorem C10_fmod_exact_binary64 :
  (forall x y, b64 x -> b64 y -> b64 (nfmod B64Ops x y)) /\
  (forall x y, b32 x -> b32 y -> b32 (nfmod B32Ops x y)) /\
  (forall prec emin, Prec_gt_0 prec -> forall x y,
     ffmt prec emin x -> ffmt prec emin y -> ffmt prec emin (nfmod (FlOps prec emin) x y)).
Proof. exact (conj Rfmod_b64 (conj Rfmod_b32 Rfmod_fmt)). Qed.
Print Assumptions C10_fmod_exact_binary64.

(* --- between0And2Pi<double>: for every double v of the asserted domain |v| < M_4PI the result r is a double in the
       CLOSED interval [0, M_2PI] (M_2PI < 2*pi as real numbers, but r = M_2PI is attained: next theorem — the half-open
       [0, 2*pi) of the real theorem closes in double), congruent to v modulo M_2PI up to ONE rounding: for some integer
       k in -2..1, |r - (v - k*M_2PI)| <= ulp(M_2PI)/2 = 2^-51, with equality r = v - k*M_2PI whenever the fmod is >= 0
       (no addition) or <= -M_PI (the addition is exact by Sterbenz); and the distance to the congruence modulo the TRUE
       2*pi is at most 2^-51 + |k| * 2|M_PI - pi| <= 9.4e-16. --- *)
Theorem C10_between0And2Pi_binary64 : forall v, b64 v -> Rabs v < 2 * M_2PI64 ->
  let r := between0And2Pi B64Ops idR idR v in
  exists k : Z, (-2 <= k <= 1)%Z /\
    0 <= r <= M_2PI64 /\ M_2PI64 < 2 * PI /\ b64 r /\
    Rabs (r - (v - IZR k * M_2PI64)) <= bpow radix2 (-51) /\
    (0 <= nfmod B64Ops v M_2PI64 \/ nfmod B64Ops v M_2PI64 <= - M_PI64 -> r = v - IZR k * M_2PI64) /\
    Rabs (r - (v - IZR k * (2 * PI))) <= bpow radix2 (-51) + IZR (Z.abs k) * (2 * Rabs (M_PI64 - PI)) /\
    Rabs (r - (v - IZR k * (2 * PI))) <= 94 / 100000000000000000.
Proof.
  intros v Fv Hd. cbv zeta. change (between0And2Pi B64Ops idR idR v) with (b02_64 v).
  destruct (b02_64_spec v Fv) as (k & Hr & Fr & He & Hx & Hk). specialize (Hk Hd).
  exists k. split; [exact Hk|]. split; [exact Hr|]. split; [exact M_2PI64_lt_2pi|]. split; [exact Fr|].
  split; [exact He|]. split; [exact Hx|]. split; [exact (cong_true_2pi _ _ _ _ He)|].
  assert (Hk2 : (Z.abs k <= 2)%Z) by lia. pose proof (cong_true_2pi_num _ _ k _ Hk2 He) as Hn.
  replace (bpow radix2 (-51)) with (/ 2251799813685248) in Hn by (simpl; lra). lra.
Qed.
Print Assumptions C10_between0And2Pi_binary64.

(* --- the closed upper end IS attained: every v in (-2^-51, 0) — e.g. every negative double of magnitude below 4.4e-16,
       subnormals included — is sent to M_2PI itself (v + M_2PI rounds to M_2PI), not to a value below it --- *)
Theorem C10_between0And2Pi_reaches_2pi_binary64 : forall v, - bpow radix2 (-51) < v < 0 ->
  between0And2Pi B64Ops idR idR v = M_2PI64.
Proof. exact b02_64_reaches_2pi. Qed.
Print Assumptions C10_between0And2Pi_reaches_2pi_binary64.

(* --- between0And2Pi<float> computes in double and rounds the RETURN value to binary32 (rnd32): the result lies in
       [0, 6.2831855f], and for the same tiny negative inputs it is the float 13176795 * 2^-21 = 6.2831855, which is
       ABOVE the real 2*pi by 1.7e-7 --- *)
Theorem C10_between0And2Pi_float_return_binary64 :
  (forall v, b64 v -> 0 <= between0And2Pi B64Ops idR rnd32 v <= 13176795 / 2097152) /\
  (forall v, - bpow radix2 (-51) < v < 0 ->
     between0And2Pi B64Ops idR rnd32 v = 13176795 / 2097152 /\
     2 * PI + 17 / 100000000 < between0And2Pi B64Ops idR rnd32 v).
Proof. exact (conj b02_32_range b02_32_exceeds_2pi). Qed.
Print Assumptions C10_between0And2Pi_float_return_binary64.

(* --- betweenMinusPiAndPi<double>: for every double v with |v| < M_4PI the result r is a double in [-M_PI, M_PI]
       (inside (-pi, pi) as real numbers since M_PI < pi; both ends attained) and r = v - k*M_2PI EXACTLY for an integer
       k in -2..2: both conditional operations (value + M_2PI for value < -M_PI, value - M_2PI for value > M_PI) are exact
       by Sterbenz' lemma, so NO rounding occurs at all.  Distance to the true 2*pi congruence <= |k|*2|M_PI - pi| <= 4.9e-16. --- *)
Theorem C10_betweenMinusPiAndPi_binary64 : forall v, b64 v -> Rabs v < 2 * M_2PI64 ->
  let r := betweenMinusPiAndPi B64Ops idR idR v in
  exists k : Z, (-2 <= k <= 2)%Z /\
    - M_PI64 <= r <= M_PI64 /\ M_PI64 < PI /\ b64 r /\
    r = v - IZR k * M_2PI64 /\
    Rabs (r - (v - IZR k * (2 * PI))) <= IZR (Z.abs k) * (2 * Rabs (M_PI64 - PI)) /\
    Rabs (r - (v - IZR k * (2 * PI))) <= 49 / 100000000000000000.
Proof.
  intros v Fv Hd. cbv zeta. change (betweenMinusPiAndPi B64Ops idR idR v) with (bpi_64 v).
  destruct (bpi_64_spec v Fv) as (k & Hr & Fr & He & Hk). specialize (Hk Hd).
  assert (H0 : Rabs (bpi_64 v - (v - IZR k * M_2PI64)) <= 0).
  { rewrite He. replace (v - IZR k * M_2PI64 - (v - IZR k * M_2PI64)) with 0 by ring. rewrite Rabs_R0. lra. }
  exists k. split; [exact Hk|]. split; [exact Hr|]. split; [pose proof M_PI64_err; lra|]. split; [exact Fr|].
  split; [exact He|]. split.
  - pose proof (cong_true_2pi _ _ _ _ H0). lra.
  - assert (Hk2 : (Z.abs k <= 2)%Z) by lia. pose proof (cong_true_2pi_num _ _ k _ Hk2 H0). lra.
Qed.
Print Assumptions C10_betweenMinusPiAndPi_binary64.

(* --- SOURCE TIE in binary64: the normalisers regenerated from the clang AST of the current source, instantiated at the
       binary64 dictionary, are the functions of the four theorems above --- *)
Theorem C10_source_tie_normalisers_binary64 : forall v,
  src_between0And2Pi B64Ops v = between0And2Pi B64Ops idR idR v /\
  src_betweenMinusPiAndPi B64Ops v = betweenMinusPiAndPi B64Ops idR idR v.
Proof. intros v. exact (conj (tie_between0And2Pi_b64 v) (tie_betweenMinusPiAndPi_b64 v)). Qed.
Print Assumptions C10_source_tie_normalisers_binary64.

(* --- concrete binary64 inputs (non-vacuity and evaluation) --- *)
Example C10_ex_b64_domain : b64 (-1) /\ Rabs (-1) < 2 * M_2PI64 /\ b64 7 /\ Rabs 7 < 2 * M_2PI64 /\ b64 4 /\
  b64 (- bpow radix2 (-70)) /\ - bpow radix2 (-51) < - bpow radix2 (-70) < 0.
Proof.
  pose proof M_2PI64_box. split; [exact b64_m1|]. split; [rewrite Rabs_left; lra|]. split; [exact b64_7|].
  split; [rewrite Rabs_pos_eq; lra|]. split; [exact b64_4|]. split; [exact b64_tiny|].
  split; [apply Ropp_lt_contravar, bpow_lt; reflexivity|pose proof (bpow_gt_0 radix2 (-70)); lra].
Qed.
Example C10_ex_between0And2Pi_binary64 :
  between0And2Pi B64Ops idR idR (-1) = M_2PI64 - 1 /\                       (* sum exact *)
  between0And2Pi B64Ops idR idR 7 = 7 - M_2PI64 /\                          (* no addition *)
  between0And2Pi B64Ops idR idR (- bpow radix2 (-70)) = M_2PI64 /\          (* -8.5e-22 -> M_2PI *)
  between0And2Pi B64Ops idR idR (- 3 * bpow radix2 (-52)) = M_2PI64 - bpow radix2 (-50) /\   (* rounded: error 2^-52 *)
  between0And2Pi B64Ops idR idR (- 3 * bpow radix2 (-52)) - (- 3 * bpow radix2 (-52) + M_2PI64) = - bpow radix2 (-52).
Proof.
  exact (conj b02_64_ex_m1 (conj b02_64_ex_7 (conj b02_64_ex_tiny b02_64_ex_rounded))).
Qed.
Example C10_ex_betweenMinusPiAndPi_binary64 :
  (betweenMinusPiAndPi B64Ops idR idR 4 = 4 - M_2PI64 /\ betweenMinusPiAndPi B64Ops idR idR (-4) = M_2PI64 - 4) /\
  (betweenMinusPiAndPi B64Ops idR idR M_PI64 = M_PI64 /\ betweenMinusPiAndPi B64Ops idR idR (- M_PI64) = - M_PI64).
Proof. exact (conj bpi_64_ex_4 bpi_64_ex_ends). Qed.

(* ================= SYNTACTIC SOURCE TIE of the builders (translate/eigensym.py, translate/tr_C10_eigensym.py -> gen/SrcEigenC10.v) =================
   eulerAngleToRotation2D, eulerAnglesToQuaternion, eulerAnglesToRotation3D and quaternionToEulerAngles, regenerated on every run
   from the clang AST of their instantiation at double by the symbolic Eigen evaluator, equal the models the theorems above are
   about.  (Eigen's AngleAxis -> Quaternion, quaternion product, toRotationMatrix and normalized are formulas of the evaluator;
   the tie is on the composition written in EulerAngles.hpp: angle index / axis pairing, the order Z * Y * X, the conversions.) *)
Theorem C10_source_tie_euler_builders :
  (forall a, src_eulerAngleToRotation2D ROps a = eulerAngleToRotation2D ROps a) /\
  (forall e : vec3 R, src_eulerAnglesToQuaternion ROps e = eulerAnglesToQuaternion ROps e) /\
  (forall e : vec3 R, src_eulerAnglesToRotation3D ROps e = eulerAnglesToRotation3D ROps e) /\
  (forall q : quat R, nleb ROps (nabs ROps (m20 (quat_to_mat ROps (qnormalized ROps q)))) (n_one ROps) = true ->
     quaternionToEulerAngles ROps ROps idR idR q = Some (src_quaternionToEulerAngles ROps q)).
Proof.
  exact (conj tie_eulerAngleToRotation2D (conj tie_eulerAnglesToQuaternion
        (conj tie_eulerAnglesToRotation3D tie_quaternionToEulerAngles))).
Qed.
Print Assumptions C10_source_tie_euler_builders.

(* the polar / spherical conversions of include/romea_core_common/coordinates (template classes with a base class, getters and
   static member templates, all inlined by the evaluator) — the maps C10_polar_* / C10_spherical_* are about.  toSpherical:
   wherever the C++ does not produce NaN (range > 0, |z/range| <= 1), as the model's guards say. *)
Theorem C10_source_tie_coordinates :
  (forall x y, src_toPolar ROps (x, y) = toPolar ROps x y) /\
  (forall r az, src_polarToCartesian ROps az r = polarToCartesian ROps r az) /\
  (forall x y z, let r := nsqrt ROps (x * x + y * y + z * z) in
     nltb ROps 0 r = true -> nleb ROps (nabs ROps (z / r)) 1 = true ->
     toSpherical ROps x y z = Some (src_toSpherical ROps (mkV3 x y z))) /\
  (forall r az el, src_sphericalToCartesian ROps az el r = sphericalToCartesian ROps r az el) /\
  (src_toPolar_outputs = ["range_"; "azimut_"]%string /\ src_polarToCartesian_inputs = ["arg0.azimut_"; "arg0.range_"]%string /\
   src_toSpherical_outputs = ["range_"; "azimut_"; "elevation_"]%string /\
   src_sphericalToCartesian_inputs = ["arg0.azimut_"; "arg0.elevation_"; "arg0.range_"]%string).
Proof.
  split; [reflexivity|]. split; [reflexivity|]. split; [exact tie_toSpherical|]. split; [reflexivity|repeat split].
Qed.
