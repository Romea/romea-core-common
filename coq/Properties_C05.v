(* Properties_C05.v — C05: point-to-plane least-squares registration solves its linearised problem.
   Each Theorem is followed by Print Assumptions; the longer proofs, and the lemmas the proofs given here use, are in
   P2pProofs.v, P2pSecondOrder.v, SrcTieC05.v and SrcTieC05R.v.
   Model: P2pModel.v on top of LsModel.v.  A triple is ((source point, target point), target normal), points as lists of
   their stored coordinates.  [Jp d triples] / [Yp ps triples] are the design matrix [n ; s x n] and the right-hand side
   n.(t - s) of the property's linearised problem; unknowns (tau, omega). *)
From Coq Require Import Reals List Arith Lia Lra Bool.
From Romea Require Import Num NumR LinAlgBModel LinAlgBProofs LsModel LsProofs LsHistoryProofs P2pModel P2pProofs P2pSecondOrder.
From Romea Require Import SrcP2pLib SrcTieC05 SrcTieC05R.
From Romea.gen Require Import SrcP2p.
Import ListNotations.
Local Open Scope R_scope.

(* residual identity, 2D:  row_i . x - y_i = n_i . ((I + [w]x) s_i + tau - t_i)  with x = (tau_x, tau_y, w) *)
Theorem C05_p2p_residual_identity_2d : forall (s t n : list R) (x : nat -> R),
  Rsum 3 (fun c => vget ROps (p2p_row ROps 2 s n) c * x c) - p2p_y ROps 2 s t n =
  vget ROps n 0 * ((vget ROps s 0 - x 2%nat * vget ROps s 1) + x 0%nat - vget ROps t 0) +
  vget ROps n 1 * ((vget ROps s 1 + x 2%nat * vget ROps s 0) + x 1%nat - vget ROps t 1).
Proof. exact p2p_residual_identity_2d. Qed.
Print Assumptions C05_p2p_residual_identity_2d.

(* residual identity, 3D:  (I + [w]x) s = s + w x s,  x = (tau, w) *)
Theorem C05_p2p_residual_identity_3d : forall (s t n : list R) (x : nat -> R),
  Rsum 6 (fun c => vget ROps (p2p_row ROps 3 s n) c * x c) - p2p_y ROps 3 s t n =
  vget ROps n 0 * ((vget ROps s 0 + (x 4%nat * vget ROps s 2 - x 5%nat * vget ROps s 1)) + x 0%nat - vget ROps t 0) +
  vget ROps n 1 * ((vget ROps s 1 + (x 5%nat * vget ROps s 0 - x 3%nat * vget ROps s 2)) + x 1%nat - vget ROps t 1) +
  vget ROps n 2 * ((vget ROps s 2 + (x 3%nat * vget ROps s 1 - x 4%nat * vget ROps s 0)) + x 2%nat - vget ROps t 2).
Proof. exact p2p_residual_identity_3d. Qed.
Print Assumptions C05_p2p_residual_identity_3d.

(* representation: for homogeneous points the extra stored coordinate does not change the residual *)
Theorem C05_p2p_repr_invariant_residual : forall d (s t n : list R),
  vget ROps s d = vget ROps t d -> p2p_y ROps (S d) s t n = p2p_y ROps d s t n.
Proof. exact p2p_y_homogeneous. Qed.
Print Assumptions C05_p2p_repr_invariant_residual.

(* the estimate (from ANY state of the estimator's solver that is ready for this estimate size, i.e. after any earlier
   calls): H = scatter x, x = Ac z + Bc, and z satisfies the normal equations of the linearised problem built from THESE
   triples, minimises its cost, and is the only minimiser — under the SVD contract with all singular values above the
   relative threshold (cond(J^T J) < 1/epsilon). *)
Theorem C05_p2p_normal_equations_and_minimiser :
  forall inverse_of svd_of (fill : R) d ps triples (st st2 : ls_state (T:=R)) (H : list (list R)),
  (d = 2 \/ d = 3)%nat -> ready (p2p_k d) st -> (1 <= length triples)%nat ->
  p2p_estimate ROps inverse_of svd_of fill true d ps triples st = Some (st2, H) ->
  exists st1 x,
    p2p_load ROps inverse_of svd_of fill true d ps triples st = Some st1 /\
    ls_estimate_svd ROps svd_of st1 = Some (st2, x) /\ H = p2p_scatter ROps d x /\
    (svd_contract (p2p_k d) (ls_JtJ ROps st1) (svd_of (p2p_k d) (ls_JtJ ROps st1)) -> svd_all_above svd_of st1 ->
     let n := length triples in let k := p2p_k d in
     let z := ls_z st1 (svd_pinv ROps k (svd_thr svd_of st1) (svd_of k (ls_JtJ ROps st1))) in
     (forall i, (i < k)%nat -> vget ROps x i = Rsum k (fun l => mget ROps (ls_A st) i l * z l) + vget ROps (ls_b st) i) /\
     (forall i, (i < k)%nat -> grad n k (Jp d triples) (Yp ps triples) z i = 0) /\
     (forall y, cost n k (Jp d triples) (Yp ps triples) z <= cost n k (Jp d triples) (Yp ps triples) y) /\
     (forall y, cost n k (Jp d triples) (Yp ps triples) y = cost n k (Jp d triples) (Yp ps triples) z ->
                forall i, (i < k)%nat -> y i = z i)).
Proof. exact p2p_estimate_correct. Qed.
Print Assumptions C05_p2p_normal_equations_and_minimiser.

(* pure translation: a zero-residual parameter vector is THE minimiser; and for t = s + tau0 the vector (tau0, 0) has zero
   residual in every row (2D and 3D).  Together with the previous theorem: a pure translation is recovered exactly
   whenever the design matrix has full rank (normals span the space). *)
Theorem C05_p2p_zero_residual_recovered : forall n k J Y (z zs : nat -> R),
  (forall r, (r < n)%nat -> Jx k J zs r = Y r) ->
  (forall y, cost n k J Y z <= cost n k J Y y) ->
  (forall y, cost n k J Y y = cost n k J Y z -> forall i, (i < k)%nat -> y i = z i) ->
  forall i, (i < k)%nat -> z i = zs i.
Proof.
  intros n k J Y z zs Hres Hmin Huniq i Hi. symmetry. apply Huniq; [|exact Hi].
  assert (E0 : cost n k J Y zs = 0) by (apply Rsum_zero; intros r Hr; rewrite Hres by exact Hr; ring).
  pose proof (cost_nonneg n k J Y z). pose proof (Hmin zs). lra.
Qed.
Print Assumptions C05_p2p_zero_residual_recovered.

Theorem C05_p2p_pure_translation_rows_2d : forall (s t n : list R) (tau : nat -> R),
  vget ROps t 0 = vget ROps s 0 + tau 0%nat -> vget ROps t 1 = vget ROps s 1 + tau 1%nat ->
  Rsum 3 (fun c => vget ROps (p2p_row ROps 2 s n) c * (if Nat.ltb c 2 then tau c else 0)) = p2p_y ROps 2 s t n.
Proof. intros s t n tau H0 H1. unfold p2p_row, p2p_y. cbn [sumn]. unfold vget in *. cbn in *. rewrite H0, H1. ring. Qed.
Print Assumptions C05_p2p_pure_translation_rows_2d.

Theorem C05_p2p_pure_translation_rows_3d : forall (s t n : list R) (tau : nat -> R),
  vget ROps t 0 = vget ROps s 0 + tau 0%nat -> vget ROps t 1 = vget ROps s 1 + tau 1%nat -> vget ROps t 2 = vget ROps s 2 + tau 2%nat ->
  Rsum 6 (fun c => vget ROps (p2p_row ROps 3 s n) c * (if Nat.ltb c 3 then tau c else 0)) = p2p_y ROps 3 s t n.
Proof. intros s t n tau H0 H1 H2. unfold p2p_row, p2p_y. cbn [sumn]. unfold vget in *. cbn in *. rewrite H0, H1, H2. ring. Qed.
Print Assumptions C05_p2p_pure_translation_rows_3d.

(* isotropic preconditioning by c: the rows of the preconditioned problem are the original rows with the rotation columns
   times c, the right-hand side is times c; and, for any column scaling D and any c <> 0, a solution z' of the scaled normal
   equations mapped to D z'/c solves the original ones.  With D = (1,..,1,c,..,c) that map is diag(1/c,..,1/c,1,..,1), the
   shape of p2p_precond_matrix; no theorem below mentions p2p_precond_matrix or p2p_set_preconditioner themselves (the
   source tie shows that setPreconditioner is p2p_set_preconditioner). *)
Theorem C05_p2p_precond_rows : forall d c (s n : list R) i, (d = 2 \/ d = 3)%nat ->
  vget ROps (p2p_row ROps d (scaled c s) n) i = vget ROps (p2p_row ROps d s n) i * (if Nat.ltb i d then 1 else c).
Proof.
  intros d c s n i [->| ->]; unfold p2p_row; rewrite !vg_scaled; rsimpl;
    do 7 (destruct i as [|i]; [unfold vget; cbn; ring|]); unfold vget; cbn; destruct i; ring.
Qed.
Print Assumptions C05_p2p_precond_rows.

Theorem C05_p2p_precond_rhs : forall ps c (s t n : list R),
  p2p_y ROps ps (scaled c s) (scaled c t) n = c * p2p_y ROps ps s t n.
Proof.
  intros ps c s t n. unfold p2p_y. rewrite <- Rsum_scal_l. apply Rsum_ext. intros i _. rsimpl. rewrite !vg_scaled. ring.
Qed.
Print Assumptions C05_p2p_precond_rhs.

Theorem C05_p2p_precond_invariant : forall n k (J : nat -> nat -> R) (Y : nat -> R) (D : nat -> R) (c : R) (z' : nat -> R) i,
  c <> 0 ->
  grad n k (fun r a => J r a * D a) (fun r => c * Y r) z' i = (D i * c) * grad n k J Y (fun a => D a * z' a / c) i.
Proof.
  intros n k J Y D c z' i Hc. unfold grad, Jx. rewrite <- Rsum_scal_l. apply Rsum_ext. intros r _.
  assert (E : Rsum k (fun a => J r a * D a * z' a) = c * Rsum k (fun a => J r a * (D a * z' a / c))).
  { rewrite <- Rsum_scal_l. apply Rsum_ext. intros a _. field. exact Hc. }
  rewrite E. ring.
Qed.
Print Assumptions C05_p2p_precond_invariant.

(* ---------------- a rotation of angle theta is recovered with error O(theta^2) ----------------
   Definitions used below (coq/P2pSecondOrder.v), points as coordinate functions [vget ROps p]:
     rot2 t s         = [[cos t, -sin t],[sin t, cos t]] s
     cross u v        = u x v,   rodrigues k t s = s + sin t (k x s) + (1 - cos t) (k x (k x s))   (rotation by t about k)
     sq2 / sq3 / dot3 = squared norms and scalar product
     xtrue2 tau theta = (tau_x, tau_y, theta),   xtrue3 tau k theta = (tau, theta k)   (the estimator's parameter order)
     tsrc / ttgt / tnrm triples r = source / target / normal of correspondence r
     same_w d ps s t  = Cartesian storage (ps = d) or homogeneous storage with equal last coordinate
     exact_motion_2d theta tau ps triples  = every normal is a unit vector and target = rot2 theta source + tau
     exact_motion_3d theta k tau ps triples = ... target = rodrigues k theta source + tau. *)

(* analytic facts, every real t *)
Theorem C05_rotation_remainder_analytic : forall t : R,
  0 <= 1 - cos t <= t ^ 2 / 2 /\
  (1 - cos t) ^ 2 + (t - sin t) ^ 2 = 2 - 2 * cos t - 2 * t * sin t + t ^ 2 /\
  (1 - cos t) ^ 2 + (t - sin t) ^ 2 <= t ^ 4 / 4.
Proof. exact (fun t => conj (one_sub_cos_bounds t) (conj (rot_rem2_closed t) (rot_rem2_le t))). Qed.
Print Assumptions C05_rotation_remainder_analytic.

(* rot2 and rodrigues are rotations: isometries, the axis is fixed, about e_z it is the planar rotation *)
Theorem C05_rotations_are_rotations :
  (forall t s, sq2 (rot2 t s) = sq2 s) /\
  (forall k t s, sq3 k = 1 -> sq3 (rodrigues k t s) = sq3 s) /\
  (forall k t, rodrigues k t k 0%nat = k 0%nat /\ rodrigues k t k 1%nat = k 1%nat /\ rodrigues k t k 2%nat = k 2%nat) /\
  (forall t s, let ez := fun i => match i with 2%nat => 1 | _ => 0 end in
     rodrigues ez t s 0%nat = rot2 t s 0%nat /\ rodrigues ez t s 1%nat = rot2 t s 1%nat /\ rodrigues ez t s 2%nat = s 2%nat).
Proof. exact (conj rot2_isometry (conj rodrigues_isometry (conj rodrigues_axis rodrigues_ez))). Qed.
Print Assumptions C05_rotations_are_rotations.

(* linearisation remainder, 2D: |((I + t [[0,-1],[1,0]]) - R(t)) s|^2 = ((1 - cos t)^2 + (t - sin t)^2) |s|^2 <= t^4/4 |s|^2 *)
Theorem C05_rotation_remainder_2d : forall (t : R) (s : nat -> R),
  sq2 (fun i => match i with O => s 0%nat - t * s 1%nat | _ => s 1%nat + t * s 0%nat end - rot2 t s i)
    = ((1 - cos t) ^ 2 + (t - sin t) ^ 2) * sq2 s /\
  sq2 (fun i => match i with O => s 0%nat - t * s 1%nat | _ => s 1%nat + t * s 0%nat end - rot2 t s i)
    <= t ^ 4 / 4 * sq2 s.
Proof. exact (fun t s => conj (rot2_remainder_eq t s) (rot2_remainder_le t s)). Qed.
Print Assumptions C05_rotation_remainder_2d.

(* linearisation remainder, 3D, unit axis k: |(I + t K - R) s|^2 = ((1 - cos t)^2 + (t - sin t)^2) (|s|^2 - (k.s)^2) <= t^4/4 |s|^2 *)
Theorem C05_rotation_remainder_3d : forall (k : nat -> R) (t : R) (s : nat -> R), sq3 k = 1 ->
  sq3 (fun i => s i + t * cross k s i - rodrigues k t s i)
    = ((1 - cos t) ^ 2 + (t - sin t) ^ 2) * (sq3 s - dot3 k s ^ 2) /\
  sq3 (fun i => s i + t * cross k s i - rodrigues k t s i) <= t ^ 4 / 4 * sq3 s.
Proof. exact (fun k t s Hk => conj (rodrigues_remainder_eq k t s Hk) (rodrigues_remainder_le k t s Hk)). Qed.
Print Assumptions C05_rotation_remainder_3d.

(* one correspondence of exact-motion data: the linearised residual of the TRUE parameters, squared, is at most
   theta^4/4 |s|^2  (Cauchy-Schwarz with |n| = 1) *)
Theorem C05_p2p_true_residual_2d : forall theta tau ps (s t n : list R),
  sq2 (vget ROps n) = 1 -> same_w 2 ps s t ->
  (forall c, (c < 2)%nat -> vget ROps t c = rot2 theta (vget ROps s) c + tau c) ->
  (Rsum 3 (fun c => vget ROps (p2p_row ROps 2 s n) c * xtrue2 tau theta c) - p2p_y ROps ps s t n) *
  (Rsum 3 (fun c => vget ROps (p2p_row ROps 2 s n) c * xtrue2 tau theta c) - p2p_y ROps ps s t n)
  <= theta ^ 4 / 4 * sq2 (vget ROps s).
Proof. exact p2p_true_residual_2d. Qed.
Print Assumptions C05_p2p_true_residual_2d.

Theorem C05_p2p_true_residual_3d : forall theta tau k ps (s t n : list R),
  sq3 (vget ROps n) = 1 -> sq3 k = 1 -> same_w 3 ps s t ->
  (forall c, (c < 3)%nat -> vget ROps t c = rodrigues k theta (vget ROps s) c + tau c) ->
  (Rsum 6 (fun c => vget ROps (p2p_row ROps 3 s n) c * xtrue3 tau k theta c) - p2p_y ROps ps s t n) *
  (Rsum 6 (fun c => vget ROps (p2p_row ROps 3 s n) c * xtrue3 tau k theta c) - p2p_y ROps ps s t n)
  <= theta ^ 4 / 4 * sq3 (vget ROps s).
Proof. exact p2p_true_residual_3d. Qed.
Print Assumptions C05_p2p_true_residual_3d.

(* abstract least squares: for ANY solution z of the normal equations, cost x = cost z + |J (z - x)|^2 *)
Theorem C05_pythagoras_from_normal_equations : forall n k J Y (z : nat -> R),
  (forall i, (i < k)%nat -> grad n k J Y z i = 0) ->
  forall x, cost n k J Y x = cost n k J Y z + Jerr2 n k J z x.
Proof. exact pythagoras_Jerr2. Qed.
Print Assumptions C05_pythagoras_from_normal_equations.

(* THE SECOND-ORDER BOUND: exact-motion data, z any solution of the normal equations of the model's linearised problem
   (the estimate is one: C05_p2p_normal_equations_and_minimiser):  |J (z - x_true)|^2 <= theta^4/4 sum_i |s_i|^2 *)
Theorem C05_p2p_rotation_second_order_2d : forall theta tau ps triples (z : nat -> R),
  exact_motion_2d theta tau ps triples ->
  (forall i, (i < 3)%nat -> grad (length triples) 3 (Jp 2 triples) (Yp ps triples) z i = 0) ->
  Rsum (length triples) (fun r => (Rsum 3 (fun a => Jp 2 triples r a * (z a - xtrue2 tau theta a))) ^ 2)
  <= theta ^ 4 / 4 * Rsum (length triples) (fun r => sq2 (vget ROps (tsrc triples r))).
Proof. exact p2p_rotation_second_order_2d. Qed.
Print Assumptions C05_p2p_rotation_second_order_2d.

Theorem C05_p2p_rotation_second_order_3d : forall theta k tau ps triples (z : nat -> R),
  sq3 k = 1 -> exact_motion_3d theta k tau ps triples ->
  (forall i, (i < 6)%nat -> grad (length triples) 6 (Jp 3 triples) (Yp ps triples) z i = 0) ->
  Rsum (length triples) (fun r => (Rsum 6 (fun a => Jp 3 triples r a * (z a - xtrue3 tau k theta a))) ^ 2)
  <= theta ^ 4 / 4 * Rsum (length triples) (fun r => sq3 (vget ROps (tsrc triples r))).
Proof. exact p2p_rotation_second_order_3d. Qed.
Print Assumptions C05_p2p_rotation_second_order_3d.

(* the same in the form the oracle measures: |J (z - x_true)| <= theta^2/2 sqrt(sum_i |s_i|^2) *)
Theorem C05_p2p_rotation_second_order_sqrt_2d : forall theta tau ps triples (z : nat -> R),
  exact_motion_2d theta tau ps triples ->
  (forall i, (i < 3)%nat -> grad (length triples) 3 (Jp 2 triples) (Yp ps triples) z i = 0) ->
  sqrt (Rsum (length triples) (fun r => (Rsum 3 (fun a => Jp 2 triples r a * (z a - xtrue2 tau theta a))) ^ 2))
  <= theta ^ 2 / 2 * sqrt (Rsum (length triples) (fun r => sq2 (vget ROps (tsrc triples r)))).
Proof. intros theta tau ps triples z Hm Hz. apply sqrt_form. now apply (p2p_rotation_second_order_2d theta tau ps). Qed.
Print Assumptions C05_p2p_rotation_second_order_sqrt_2d.

Theorem C05_p2p_rotation_second_order_sqrt_3d : forall theta k tau ps triples (z : nat -> R),
  sq3 k = 1 -> exact_motion_3d theta k tau ps triples ->
  (forall i, (i < 6)%nat -> grad (length triples) 6 (Jp 3 triples) (Yp ps triples) z i = 0) ->
  sqrt (Rsum (length triples) (fun r => (Rsum 6 (fun a => Jp 3 triples r a * (z a - xtrue3 tau k theta a))) ^ 2))
  <= theta ^ 2 / 2 * sqrt (Rsum (length triples) (fun r => sq3 (vget ROps (tsrc triples r)))).
Proof. intros theta k tau ps triples z Hk Hm Hz. apply sqrt_form. now apply (p2p_rotation_second_order_3d theta k tau ps). Qed.
Print Assumptions C05_p2p_rotation_second_order_sqrt_3d.

(* parameter error: with lam > 0 a lower bound of the spectrum of J^T J (lam |v|^2 <= |J v|^2 for every v),
   |z - x_true|^2 <= theta^4/(4 lam) sum_i |s_i|^2 *)
Theorem C05_p2p_rotation_param_error_2d : forall theta tau ps triples (z : nat -> R) lam,
  exact_motion_2d theta tau ps triples ->
  (forall i, (i < 3)%nat -> grad (length triples) 3 (Jp 2 triples) (Yp ps triples) z i = 0) ->
  0 < lam ->
  (forall v : nat -> R, lam * Rsum 3 (fun a => v a * v a) <=
                        Rsum (length triples) (fun r => Jx 3 (Jp 2 triples) v r * Jx 3 (Jp 2 triples) v r)) ->
  Rsum 3 (fun a => (z a - xtrue2 tau theta a) * (z a - xtrue2 tau theta a))
  <= theta ^ 4 / 4 * Rsum (length triples) (fun r => sq2 (vget ROps (tsrc triples r))) / lam.
Proof.
  intros theta tau ps triples z lam Hm Hz Hl Hev. apply (param_error_of_Jerr _ _ _ _ _ _ _ Hl Hev).
  now apply (p2p_rotation_second_order_2d theta tau ps).
Qed.
Print Assumptions C05_p2p_rotation_param_error_2d.

Theorem C05_p2p_rotation_param_error_3d : forall theta k tau ps triples (z : nat -> R) lam,
  sq3 k = 1 -> exact_motion_3d theta k tau ps triples ->
  (forall i, (i < 6)%nat -> grad (length triples) 6 (Jp 3 triples) (Yp ps triples) z i = 0) ->
  0 < lam ->
  (forall v : nat -> R, lam * Rsum 6 (fun a => v a * v a) <=
                        Rsum (length triples) (fun r => Jx 6 (Jp 3 triples) v r * Jx 6 (Jp 3 triples) v r)) ->
  Rsum 6 (fun a => (z a - xtrue3 tau k theta a) * (z a - xtrue3 tau k theta a))
  <= theta ^ 4 / 4 * Rsum (length triples) (fun r => sq3 (vget ROps (tsrc triples r))) / lam.
Proof.
  intros theta k tau ps triples z lam Hk Hm Hz Hl Hev. apply (param_error_of_Jerr _ _ _ _ _ _ _ Hl Hev).
  now apply (p2p_rotation_second_order_3d theta k tau ps).
Qed.
Print Assumptions C05_p2p_rotation_param_error_3d.

(* end to end, the modelled estimator from ANY ready state: H = scatter x, x = Ac z + Bc, and z obeys the bound
   (SVD contract, all singular values above the relative threshold, as in C05_p2p_normal_equations_and_minimiser) *)
Theorem C05_p2p_estimate_rotation_second_order_2d :
  forall inverse_of svd_of (fill : R) ps triples (st st2 : ls_state (T:=R)) (H : list (list R)) theta tau,
  ready 3%nat st -> (1 <= length triples)%nat -> exact_motion_2d theta tau ps triples ->
  p2p_estimate ROps inverse_of svd_of fill true 2 ps triples st = Some (st2, H) ->
  exists st1 x,
    p2p_load ROps inverse_of svd_of fill true 2 ps triples st = Some st1 /\
    ls_estimate_svd ROps svd_of st1 = Some (st2, x) /\ H = p2p_scatter ROps 2 x /\
    (svd_contract 3%nat (ls_JtJ ROps st1) (svd_of 3%nat (ls_JtJ ROps st1)) -> svd_all_above svd_of st1 ->
     let n := length triples in
     let z := ls_z st1 (svd_pinv ROps 3%nat (svd_thr svd_of st1) (svd_of 3%nat (ls_JtJ ROps st1))) in
     (forall i, (i < 3)%nat -> vget ROps x i = Rsum 3 (fun l => mget ROps (ls_A st) i l * z l) + vget ROps (ls_b st) i) /\
     Rsum n (fun r => (Rsum 3 (fun a => Jp 2 triples r a * (z a - xtrue2 tau theta a))) ^ 2)
     <= theta ^ 4 / 4 * Rsum n (fun r => sq2 (vget ROps (tsrc triples r)))).
Proof.
  intros inverse_of svd_of fill ps triples st st2 H theta tau Hr Hn Hm.
  apply (p2p_estimate_normal_solution inverse_of svd_of fill 2 ps triples (or_introl eq_refl) Hn
           (fun z => Rsum _ (fun r => (Rsum 3 (fun a => Jp 2 triples r a * (z a - xtrue2 tau theta a))) ^ 2) <= _) st st2 H Hr).
  intros z. now apply (p2p_rotation_second_order_2d theta tau ps).
Qed.
Print Assumptions C05_p2p_estimate_rotation_second_order_2d.

Theorem C05_p2p_estimate_rotation_second_order_3d :
  forall inverse_of svd_of (fill : R) ps triples (st st2 : ls_state (T:=R)) (H : list (list R)) theta k tau,
  ready 6%nat st -> (1 <= length triples)%nat -> sq3 k = 1 -> exact_motion_3d theta k tau ps triples ->
  p2p_estimate ROps inverse_of svd_of fill true 3 ps triples st = Some (st2, H) ->
  exists st1 x,
    p2p_load ROps inverse_of svd_of fill true 3 ps triples st = Some st1 /\
    ls_estimate_svd ROps svd_of st1 = Some (st2, x) /\ H = p2p_scatter ROps 3 x /\
    (svd_contract 6%nat (ls_JtJ ROps st1) (svd_of 6%nat (ls_JtJ ROps st1)) -> svd_all_above svd_of st1 ->
     let n := length triples in
     let z := ls_z st1 (svd_pinv ROps 6%nat (svd_thr svd_of st1) (svd_of 6%nat (ls_JtJ ROps st1))) in
     (forall i, (i < 6)%nat -> vget ROps x i = Rsum 6 (fun l => mget ROps (ls_A st) i l * z l) + vget ROps (ls_b st) i) /\
     Rsum n (fun r => (Rsum 6 (fun a => Jp 3 triples r a * (z a - xtrue3 tau k theta a))) ^ 2)
     <= theta ^ 4 / 4 * Rsum n (fun r => sq3 (vget ROps (tsrc triples r)))).
Proof.
  intros inverse_of svd_of fill ps triples st st2 H theta k tau Hr Hn Hk Hm.
  apply (p2p_estimate_normal_solution inverse_of svd_of fill 3 ps triples (or_intror eq_refl) Hn
           (fun z => Rsum _ (fun r => (Rsum 6 (fun a => Jp 3 triples r a * (z a - xtrue3 tau k theta a))) ^ 2) <= _) st st2 H Hr).
  intros z. now apply (p2p_rotation_second_order_3d theta k tau ps).
Qed.
Print Assumptions C05_p2p_estimate_rotation_second_order_3d.

(* a freshly constructed estimator (Ac = I, Bc = 0): the bound holds for the returned parameters x themselves *)
Theorem C05_p2p_fresh_rotation_second_order_2d :
  forall inverse_of svd_of (fill : R) ps triples (st2 : ls_state (T:=R)) (H : list (list R)) theta tau,
  (1 <= length triples)%nat -> exact_motion_2d theta tau ps triples ->
  p2p_estimate ROps inverse_of svd_of fill true 2 ps triples (p2p_new ROps 2) = Some (st2, H) ->
  exists st1 x,
    p2p_load ROps inverse_of svd_of fill true 2 ps triples (p2p_new ROps 2) = Some st1 /\ H = p2p_scatter ROps 2 x /\
    (svd_contract 3%nat (ls_JtJ ROps st1) (svd_of 3%nat (ls_JtJ ROps st1)) -> svd_all_above svd_of st1 ->
     let n := length triples in
     Rsum n (fun r => (Rsum 3 (fun a => Jp 2 triples r a * (vget ROps x a - xtrue2 tau theta a))) ^ 2)
     <= theta ^ 4 / 4 * Rsum n (fun r => sq2 (vget ROps (tsrc triples r)))).
Proof.
  intros inverse_of svd_of fill ps triples st2 H theta tau Hn Hm.
  apply (p2p_fresh_estimate_bound inverse_of svd_of fill 2 ps triples (or_introl eq_refl) Hn (xtrue2 tau theta)).
  intros z. now apply (p2p_rotation_second_order_2d theta tau ps).
Qed.
Print Assumptions C05_p2p_fresh_rotation_second_order_2d.

Theorem C05_p2p_fresh_rotation_second_order_3d :
  forall inverse_of svd_of (fill : R) ps triples (st2 : ls_state (T:=R)) (H : list (list R)) theta k tau,
  (1 <= length triples)%nat -> sq3 k = 1 -> exact_motion_3d theta k tau ps triples ->
  p2p_estimate ROps inverse_of svd_of fill true 3 ps triples (p2p_new ROps 3) = Some (st2, H) ->
  exists st1 x,
    p2p_load ROps inverse_of svd_of fill true 3 ps triples (p2p_new ROps 3) = Some st1 /\ H = p2p_scatter ROps 3 x /\
    (svd_contract 6%nat (ls_JtJ ROps st1) (svd_of 6%nat (ls_JtJ ROps st1)) -> svd_all_above svd_of st1 ->
     let n := length triples in
     Rsum n (fun r => (Rsum 6 (fun a => Jp 3 triples r a * (vget ROps x a - xtrue3 tau k theta a))) ^ 2)
     <= theta ^ 4 / 4 * Rsum n (fun r => sq3 (vget ROps (tsrc triples r)))).
Proof.
  intros inverse_of svd_of fill ps triples st2 H theta k tau Hn Hk Hm.
  apply (p2p_fresh_estimate_bound inverse_of svd_of fill 3 ps triples (or_intror eq_refl) Hn (xtrue3 tau k theta)).
  intros z. now apply (p2p_rotation_second_order_3d theta k tau ps).
Qed.
Print Assumptions C05_p2p_fresh_rotation_second_order_3d.

(* ---- non-vacuity: a fresh estimator is ready, in 2D and 3D ---- *)
Example C05_fresh_estimator_ready : ready (p2p_k 2) (p2p_new ROps 2) /\ ready (p2p_k 3) (p2p_new ROps 3).
Proof. exact (conj (ready_new1 ROps 3) (ready_new1 ROps 6)). Qed.

(* ---- non-vacuity of the exact-motion hypotheses (every angle theta), 2D with translation (3,-2), 3D about e_z;
        and, for the 2D data, a solution of the normal equations exists (zero-residual z) ---- *)
Example C05_exact_motion_2d_satisfiable : forall theta,
  exact_motion_2d theta (fun c => match c with O => 3 | _ => -2 end) 2
    [(([1; 0], [cos theta + 3; sin theta - 2]), [0; 1]); (([0; 2], [- (2 * sin theta) + 3; 2 * cos theta - 2]), [1; 0])].
Proof.
  intros theta r Hr. cbn [length] in Hr.
  destruct r as [|[|r]]; [| |lia]; (split; [unfold sq2, tnrm, vget; cbn; ring|]);
    (split; [left; reflexivity|]); intros c Hc; destruct c as [|[|c]]; try lia;
    unfold rot2, ttgt, tsrc, vget; cbn; ring.
Qed.

Example C05_exact_motion_2d_normal_equations_satisfiable : forall theta,
  let triples := [(([1; 0], [cos theta + 3; sin theta - 2]), [0; 1]);
                  (([0; 2], [- (2 * sin theta) + 3; 2 * cos theta - 2]), [1; 0])] in
  let z := fun c => match c with O => 3 - 2 * sin theta | S O => sin theta - 2 | _ => 0 end in
  forall i, (i < 3)%nat -> grad (length triples) 3 (Jp 2 triples) (Yp 2 triples) z i = 0.
Proof.
  cbv zeta. intros theta i Hi. unfold grad, Jx, Jp, Yp, tr_rows, tr_ys, p2p_row, p2p_y, vget.
  destruct i as [|[|[|i]]]; [| | |lia]; cbn; ring.
Qed.

Example C05_exact_motion_3d_satisfiable : forall theta,
  let ez := fun i => match i with 2%nat => 1 | _ => 0 end in
  sq3 ez = 1 /\
  exact_motion_3d theta ez (fun _ => 0) 3 [(([1; 0; 5], [cos theta; sin theta; 5]), [0; 1; 0])].
Proof.
  intros theta. cbv zeta. split; [unfold sq3; ring|].
  intros r Hr. cbn [length] in Hr.
  destruct r as [|r]; [|lia]. split; [unfold sq3, tnrm, vget; cbn; ring|].
  split; [left; reflexivity|]. intros c Hc. destruct c as [|[|[|c]]]; try lia;
    unfold rodrigues, cross, ttgt, tsrc, vget; cbn; ring.
Qed.

(* ================================================================================================================
   SYNTACTIC SOURCE TIE.  gen/SrcP2p.v is regenerated on every run by translate/tr_C05_p2p.py from the clang AST of the
   INSTANTIATED members of FindRigidTransformationByLeastSquares<PointType> in the current source (PointType =
   Eigen::Vector2 / Vector3 / HomogeneousCoordinates2 / HomogeneousCoordinates3 = tags V2 / V3 / H2 / H3; the float and the
   double instantiation give the same term): the constructor, setPreconditioner, the two estimate_ overloads (aligned
   arrays / correspondence vector; only the `CARTESIAN_DIM == 2` branch that is taken is executed) and the four public find
   overloads.  In the generated terms the member leastSquares_ is an abstract object of type Ls and the methods called on
   it are the fields, bound by name, of an argument M : LsMethods T Ls (coq/SrcP2pLib.v: F_new, F_setEstimateSize,
   F_setDataSize, F_getJ_set = `J(i, j) = v`, F_getY_set = `Y(i) = v`, F_estimateUsingSVD, F_setPreconditionner).  The
   theorems below hold for EVERY numeric dictionary N — the generated terms and the model perform the same dictionary
   operations in the same order — and instantiate (Ls, M) in three ways (coq/SrcTieC05.v):
     fJY, f_methods N x : Ls = (nat -> nat -> T) * (nat -> T), the coefficients of J and Y as functions of the indexes
             (F_getJ_set / F_getY_set update one coefficient, the solver answers x) — what the row-filling loop writes;
     unit, u_methods x  : the solver plays no role and answers x — what is returned;
     option ls_state, o_methods N svd_of fill svd_fixed : the state of LsModel.v; coefficient writes o_setJ / o_setY (outside
             the buffers: undefined behaviour, None), setDataSize = ls_set_data_size, estimateUsingSVD = ls_estimate_svd
             (svd_fixed = true) / ls_estimate_svd_abs, setEstimateSize, setPreconditionner, LeastSquares() = ls_new0 — the
             whole call; [pack] turns (state, matrix) into the option result of the model.
   dtriple = (([], []), []) is the default triple of the [nth] lookups. *)

(* rows, 2D: for an input the model accepts, after estimate_ (started on ANY coefficients s0) row r of J is p2p_row of the
   r-th triple (the normal is the one of the TARGET index), Y(r) = n_r . (t_r - s_r) over the stored coordinates (2 for
   Vector2, 3 for HomogeneousCoordinates2), for every r below the number of correspondences / points; all other
   rows are untouched.  Correspondence-vector overload and aligned overload. *)
Theorem C05_source_tie_rows_2d :
  forall (T : Type) (N : NumOps T) (src tgt nrm : list (list T)) (corr : list (nat * nat))
         (tr : list ((list T * list T) * list T)) (x : list T) (s0 : fJY (T:=T)),
  let S r := fst (fst (nth r tr dtriple)) in let Tg r := snd (fst (nth r tr dtriple)) in let Nr r := snd (nth r tr dtriple) in
  let spec (ps : nat) (s : fJY (T:=T)) :=
    (forall r, (r < length tr)%nat ->
       (forall c, (c < 3)%nat -> fst s r c = vget N (p2p_row N 2 (S r) (Nr r)) c) /\ snd s r = p2p_y N ps (S r) (Tg r) (Nr r)) /\
    (forall r, (length tr <= r)%nat -> (forall c, fst s r c = fst s0 r c) /\ snd s r = snd s0 r) in
  (triples_of_corr src tgt nrm corr = Some tr ->
     spec 2%nat (fst (src_estimate_corr_V2 N fJY (f_methods N x) src tgt nrm corr s0)) /\
     spec 3%nat (fst (src_estimate_corr_H2 N fJY (f_methods N x) src tgt nrm corr s0))) /\
  (triples_aligned src tgt nrm = Some tr ->
     spec 2%nat (fst (src_estimate_aligned_V2 N fJY (f_methods N x) src tgt nrm s0)) /\
     spec 3%nat (fst (src_estimate_aligned_H2 N fJY (f_methods N x) src tgt nrm s0))).
Proof. exact (fun T N => source_tie_rows_2d N). Qed.
Print Assumptions C05_source_tie_rows_2d.

(* rows, 3D: [n, s x n] in columns 0..5, stored coordinates 3 (Vector3) / 4 (HomogeneousCoordinates3) *)
Theorem C05_source_tie_rows_3d :
  forall (T : Type) (N : NumOps T) (src tgt nrm : list (list T)) (corr : list (nat * nat))
         (tr : list ((list T * list T) * list T)) (x : list T) (s0 : fJY (T:=T)),
  let S r := fst (fst (nth r tr dtriple)) in let Tg r := snd (fst (nth r tr dtriple)) in let Nr r := snd (nth r tr dtriple) in
  let spec (ps : nat) (s : fJY (T:=T)) :=
    (forall r, (r < length tr)%nat ->
       (forall c, (c < 6)%nat -> fst s r c = vget N (p2p_row N 3 (S r) (Nr r)) c) /\ snd s r = p2p_y N ps (S r) (Tg r) (Nr r)) /\
    (forall r, (length tr <= r)%nat -> (forall c, fst s r c = fst s0 r c) /\ snd s r = snd s0 r) in
  (triples_of_corr src tgt nrm corr = Some tr ->
     spec 3%nat (fst (src_estimate_corr_V3 N fJY (f_methods N x) src tgt nrm corr s0)) /\
     spec 4%nat (fst (src_estimate_corr_H3 N fJY (f_methods N x) src tgt nrm corr s0))) /\
  (triples_aligned src tgt nrm = Some tr ->
     spec 3%nat (fst (src_estimate_aligned_V3 N fJY (f_methods N x) src tgt nrm s0)) /\
     spec 4%nat (fst (src_estimate_aligned_H3 N fJY (f_methods N x) src tgt nrm s0))).
Proof. exact (fun T N => source_tie_rows_3d N). Qed.
Print Assumptions C05_source_tie_rows_3d.

(* scatter: whatever vector x the solver returns, the matrix returned by each of the eight estimate_ bodies is p2p_scatter x
   (2D: [1 -x2 x0; x2 1 x1; 0 0 1], 3D: I + [x3 x4 x5]x with translation x0 x1 x2) *)
Theorem C05_source_tie_scatter :
  forall (T : Type) (N : NumOps T) (src tgt nrm : list (list T)) (corr : list (nat * nat)) (x : list T),
  (snd (src_estimate_corr_V2 N unit (u_methods x) src tgt nrm corr tt) = p2p_scatter N 2 x /\
   snd (src_estimate_corr_H2 N unit (u_methods x) src tgt nrm corr tt) = p2p_scatter N 2 x /\
   snd (src_estimate_aligned_V2 N unit (u_methods x) src tgt nrm tt) = p2p_scatter N 2 x /\
   snd (src_estimate_aligned_H2 N unit (u_methods x) src tgt nrm tt) = p2p_scatter N 2 x) /\
  (snd (src_estimate_corr_V3 N unit (u_methods x) src tgt nrm corr tt) = p2p_scatter N 3 x /\
   snd (src_estimate_corr_H3 N unit (u_methods x) src tgt nrm corr tt) = p2p_scatter N 3 x /\
   snd (src_estimate_aligned_V3 N unit (u_methods x) src tgt nrm tt) = p2p_scatter N 3 x /\
   snd (src_estimate_aligned_H3 N unit (u_methods x) src tgt nrm tt) = p2p_scatter N 3 x).
Proof. exact (fun T N => source_tie_scatter N). Qed.
Print Assumptions C05_source_tie_scatter.

(* the whole call: on the LsModel state, from ANY solver state ready for the estimate size, each generated estimate_ IS
   p2p_find_corr / p2p_find_aligned (= p2p_estimate on the model's triples: setDataSize, the row ops, the SVD estimate, the
   scatter) — the function C05_p2p_normal_equations_and_minimiser and the second-order theorems are about *)
Theorem C05_source_tie_estimate :
  forall (T : Type) (N : NumOps T) inverse_of svd_of (fill : T) (svd_fixed : bool)
         (src tgt nrm : list (list T)) (corr : list (nat * nat)) (tr : list ((list T * list T) * list T)) (st : ls_state (T:=T)),
  let om := o_methods N svd_of fill svd_fixed in
  (triples_of_corr src tgt nrm corr = Some tr ->
     (ready 3 st ->
        pack (src_estimate_corr_V2 N (option ls_state) om src tgt nrm corr (Some st))
        = p2p_find_corr N inverse_of svd_of fill svd_fixed 2 2 src tgt nrm corr st /\
        pack (src_estimate_corr_H2 N (option ls_state) om src tgt nrm corr (Some st))
        = p2p_find_corr N inverse_of svd_of fill svd_fixed 2 3 src tgt nrm corr st) /\
     (ready 6 st ->
        pack (src_estimate_corr_V3 N (option ls_state) om src tgt nrm corr (Some st))
        = p2p_find_corr N inverse_of svd_of fill svd_fixed 3 3 src tgt nrm corr st /\
        pack (src_estimate_corr_H3 N (option ls_state) om src tgt nrm corr (Some st))
        = p2p_find_corr N inverse_of svd_of fill svd_fixed 3 4 src tgt nrm corr st)) /\
  (triples_aligned src tgt nrm = Some tr ->
     (ready 3 st ->
        pack (src_estimate_aligned_V2 N (option ls_state) om src tgt nrm (Some st))
        = p2p_find_aligned N inverse_of svd_of fill svd_fixed 2 2 src tgt nrm st /\
        pack (src_estimate_aligned_H2 N (option ls_state) om src tgt nrm (Some st))
        = p2p_find_aligned N inverse_of svd_of fill svd_fixed 2 3 src tgt nrm st) /\
     (ready 6 st ->
        pack (src_estimate_aligned_V3 N (option ls_state) om src tgt nrm (Some st))
        = p2p_find_aligned N inverse_of svd_of fill svd_fixed 3 3 src tgt nrm st /\
        pack (src_estimate_aligned_H3 N (option ls_state) om src tgt nrm (Some st))
        = p2p_find_aligned N inverse_of svd_of fill svd_fixed 3 4 src tgt nrm st)).
Proof. exact (fun T N => source_tie_estimate N). Qed.
Print Assumptions C05_source_tie_estimate.

(* the public find overloads are estimate_ (for any solver object); the PreconditionedPointSet overloads are estimate_ on the
   point sets returned by get() *)
Theorem C05_source_tie_find :
  forall (T : Type) (N : NumOps T) (Ls : Type) (M : LsMethods T Ls) (src tgt nrm : list (list T)) (corr : list (nat * nat)) (ls : Ls),
  (src_find_corr_V2 N Ls M src tgt nrm corr ls = src_estimate_corr_V2 N Ls M src tgt nrm corr ls /\
   src_find_aligned_V2 N Ls M src tgt nrm ls = src_estimate_aligned_V2 N Ls M src tgt nrm ls /\
   src_find_pre_corr_V2 N Ls M nrm corr ls src tgt = src_estimate_corr_V2 N Ls M src tgt nrm corr ls /\
   src_find_pre_aligned_V2 N Ls M nrm ls src tgt = src_estimate_aligned_V2 N Ls M src tgt nrm ls) /\
  (src_find_corr_H2 N Ls M src tgt nrm corr ls = src_estimate_corr_H2 N Ls M src tgt nrm corr ls /\
   src_find_aligned_H2 N Ls M src tgt nrm ls = src_estimate_aligned_H2 N Ls M src tgt nrm ls /\
   src_find_pre_corr_H2 N Ls M nrm corr ls src tgt = src_estimate_corr_H2 N Ls M src tgt nrm corr ls /\
   src_find_pre_aligned_H2 N Ls M nrm ls src tgt = src_estimate_aligned_H2 N Ls M src tgt nrm ls) /\
  (src_find_corr_V3 N Ls M src tgt nrm corr ls = src_estimate_corr_V3 N Ls M src tgt nrm corr ls /\
   src_find_aligned_V3 N Ls M src tgt nrm ls = src_estimate_aligned_V3 N Ls M src tgt nrm ls /\
   src_find_pre_corr_V3 N Ls M nrm corr ls src tgt = src_estimate_corr_V3 N Ls M src tgt nrm corr ls /\
   src_find_pre_aligned_V3 N Ls M nrm ls src tgt = src_estimate_aligned_V3 N Ls M src tgt nrm ls) /\
  (src_find_corr_H3 N Ls M src tgt nrm corr ls = src_estimate_corr_H3 N Ls M src tgt nrm corr ls /\
   src_find_aligned_H3 N Ls M src tgt nrm ls = src_estimate_aligned_H3 N Ls M src tgt nrm ls /\
   src_find_pre_corr_H3 N Ls M nrm corr ls src tgt = src_estimate_corr_H3 N Ls M src tgt nrm corr ls /\
   src_find_pre_aligned_H3 N Ls M nrm ls src tgt = src_estimate_aligned_H3 N Ls M src tgt nrm ls).
Proof. exact (fun T N => source_tie_find N). Qed.
Print Assumptions C05_source_tie_find.

(* constructor (default-constructed solver, estimate size 3 | 6) and setPreconditioner (Ac = Identity with the leading
   d x d block divided by the (0,0) coefficient of the TARGET set's preconditioning matrix, one-argument setPreconditionner) *)
Theorem C05_source_tie_new_and_preconditioner :
  forall (T : Type) (N : NumOps T) svd_of (fill : T) (svd_fixed : bool) (st : ls_state (T:=T)) (P : list (list T)),
  let om := o_methods N svd_of fill svd_fixed in
  (src_new_V2 (option ls_state) om = Some (p2p_new N 2) /\ src_new_H2 (option ls_state) om = Some (p2p_new N 2) /\
   src_new_V3 (option ls_state) om = Some (p2p_new N 3) /\ src_new_H3 (option ls_state) om = Some (p2p_new N 3)) /\
  (src_setPreconditioner_V2 N (option ls_state) om (Some st) P = Some (p2p_set_preconditioner N 2 (mget N P 0 0) st) /\
   src_setPreconditioner_H2 N (option ls_state) om (Some st) P = Some (p2p_set_preconditioner N 2 (mget N P 0 0) st) /\
   src_setPreconditioner_V3 N (option ls_state) om (Some st) P = Some (p2p_set_preconditioner N 3 (mget N P 0 0) st) /\
   src_setPreconditioner_H3 N (option ls_state) om (Some st) P = Some (p2p_set_preconditioner N 3 (mget N P 0 0) st)).
Proof. exact (fun T N svd_of fill svd_fixed st P => conj (tie_new N svd_of fill svd_fixed) (tie_setPreconditioner N svd_of fill svd_fixed st P)). Qed.
Print Assumptions C05_source_tie_new_and_preconditioner.

(* COROLLARY: C05's residual identity (first theorem of this file) stated directly about the coefficients written by the
   generated row-filling loops, real dictionary:  (row r of J) . z - Y(r) = n_r . ((I + [w]x) s_r + tau - t_r), z = (tau, w);
   homogeneous point types under the hypothesis that source and target carry the same last coordinate.
   tsrc / ttgt / tnrm tr r = source / target / normal of the r-th triple. *)
Theorem C05_source_tie_residual_identity_2d :
  forall (src tgt nrm : list (list R)) (corr : list (nat * nat)) tr (x : list R) (s0 : fJY (T:=R)) (z : nat -> R) (r : nat),
  (r < length tr)%nat ->
  let s_ := tsrc tr r in let t_ := ttgt tr r in let n_ := tnrm tr r in
  let res (s : fJY (T:=R)) := Rsum 3 (fun c => fst s r c * z c) - snd s r in
  let lin := vget ROps n_ 0 * ((vget ROps s_ 0 - z 2%nat * vget ROps s_ 1) + z 0%nat - vget ROps t_ 0) +
             vget ROps n_ 1 * ((vget ROps s_ 1 + z 2%nat * vget ROps s_ 0) + z 1%nat - vget ROps t_ 1) in
  let same_w := vget ROps s_ 2 = vget ROps t_ 2 in
  (triples_of_corr src tgt nrm corr = Some tr ->
     res (fst (src_estimate_corr_V2 ROps fJY (f_methods ROps x) src tgt nrm corr s0)) = lin /\
     (same_w -> res (fst (src_estimate_corr_H2 ROps fJY (f_methods ROps x) src tgt nrm corr s0)) = lin)) /\
  (triples_aligned src tgt nrm = Some tr ->
     res (fst (src_estimate_aligned_V2 ROps fJY (f_methods ROps x) src tgt nrm s0)) = lin /\
     (same_w -> res (fst (src_estimate_aligned_H2 ROps fJY (f_methods ROps x) src tgt nrm s0)) = lin)).
Proof.
  intros src tgt nrm corr tr x s0 z r Hr s_ t_ n_ res lin sw.
  exact (rows_residual_identity 2 tr s0 z r lin _ _ _ _ _ _ Hr (p2p_residual_identity_2d s_ t_ n_ z)
           (source_tie_rows_2d ROps src tgt nrm corr tr x s0)).
Qed.
Print Assumptions C05_source_tie_residual_identity_2d.

Theorem C05_source_tie_residual_identity_3d :
  forall (src tgt nrm : list (list R)) (corr : list (nat * nat)) tr (x : list R) (s0 : fJY (T:=R)) (z : nat -> R) (r : nat),
  (r < length tr)%nat ->
  let s_ := tsrc tr r in let t_ := ttgt tr r in let n_ := tnrm tr r in
  let res (s : fJY (T:=R)) := Rsum 6 (fun c => fst s r c * z c) - snd s r in
  let lin := vget ROps n_ 0 * ((vget ROps s_ 0 + (z 4%nat * vget ROps s_ 2 - z 5%nat * vget ROps s_ 1)) + z 0%nat - vget ROps t_ 0) +
             vget ROps n_ 1 * ((vget ROps s_ 1 + (z 5%nat * vget ROps s_ 0 - z 3%nat * vget ROps s_ 2)) + z 1%nat - vget ROps t_ 1) +
             vget ROps n_ 2 * ((vget ROps s_ 2 + (z 3%nat * vget ROps s_ 1 - z 4%nat * vget ROps s_ 0)) + z 2%nat - vget ROps t_ 2) in
  let same_w := vget ROps s_ 3 = vget ROps t_ 3 in
  (triples_of_corr src tgt nrm corr = Some tr ->
     res (fst (src_estimate_corr_V3 ROps fJY (f_methods ROps x) src tgt nrm corr s0)) = lin /\
     (same_w -> res (fst (src_estimate_corr_H3 ROps fJY (f_methods ROps x) src tgt nrm corr s0)) = lin)) /\
  (triples_aligned src tgt nrm = Some tr ->
     res (fst (src_estimate_aligned_V3 ROps fJY (f_methods ROps x) src tgt nrm s0)) = lin /\
     (same_w -> res (fst (src_estimate_aligned_H3 ROps fJY (f_methods ROps x) src tgt nrm s0)) = lin)).
Proof.
  intros src tgt nrm corr tr x s0 z r Hr s_ t_ n_ res lin sw.
  exact (rows_residual_identity 3 tr s0 z r lin _ _ _ _ _ _ Hr (p2p_residual_identity_3d s_ t_ n_ z)
           (source_tie_rows_3d ROps src tgt nrm corr tr x s0)).
Qed.
Print Assumptions C05_source_tie_residual_identity_3d.

(* COROLLARY: the property's main claim (C05_p2p_normal_equations_and_minimiser) stated directly about the GENERATED
   estimate_ bodies run on the LsModel state (repaired SVD path): whenever such a call returns (st2, H), H = scatter x,
   x = Ac z + Bc, and — under the SVD contract with all singular values above the threshold — z satisfies the normal
   equations of the linearised problem of THESE triples, minimises its cost and is the only minimiser. *)
Theorem C05_source_tie_normal_equations_and_minimiser :
  forall inverse_of svd_of (fill : R) (src tgt nrm : list (list R)) (corr : list (nat * nat)) tr (st : ls_state (T:=R)),
  let om := o_methods ROps svd_of fill true in
  let spec (d ps : nat) (res : option (ls_state (T:=R) * list (list R))) :=
    forall st2 H, res = Some (st2, H) ->
    exists st1 x,
      p2p_load ROps inverse_of svd_of fill true d ps tr st = Some st1 /\
      ls_estimate_svd ROps svd_of st1 = Some (st2, x) /\ H = p2p_scatter ROps d x /\
      (svd_contract (p2p_k d) (ls_JtJ ROps st1) (svd_of (p2p_k d) (ls_JtJ ROps st1)) -> svd_all_above svd_of st1 ->
       let n := length tr in let k := p2p_k d in
       let z := ls_z st1 (svd_pinv ROps k (svd_thr svd_of st1) (svd_of k (ls_JtJ ROps st1))) in
       (forall i, (i < k)%nat -> vget ROps x i = Rsum k (fun l => mget ROps (ls_A st) i l * z l) + vget ROps (ls_b st) i) /\
       (forall i, (i < k)%nat -> grad n k (Jp d tr) (Yp ps tr) z i = 0) /\
       (forall y, cost n k (Jp d tr) (Yp ps tr) z <= cost n k (Jp d tr) (Yp ps tr) y) /\
       (forall y, cost n k (Jp d tr) (Yp ps tr) y = cost n k (Jp d tr) (Yp ps tr) z -> forall i, (i < k)%nat -> y i = z i)) in
  (1 <= length tr)%nat ->
  (triples_of_corr src tgt nrm corr = Some tr ->
     (ready 3 st ->
        spec 2%nat 2%nat (pack (src_estimate_corr_V2 ROps (option ls_state) om src tgt nrm corr (Some st))) /\
        spec 2%nat 3%nat (pack (src_estimate_corr_H2 ROps (option ls_state) om src tgt nrm corr (Some st)))) /\
     (ready 6 st ->
        spec 3%nat 3%nat (pack (src_estimate_corr_V3 ROps (option ls_state) om src tgt nrm corr (Some st))) /\
        spec 3%nat 4%nat (pack (src_estimate_corr_H3 ROps (option ls_state) om src tgt nrm corr (Some st))))) /\
  (triples_aligned src tgt nrm = Some tr ->
     (ready 3 st ->
        spec 2%nat 2%nat (pack (src_estimate_aligned_V2 ROps (option ls_state) om src tgt nrm (Some st))) /\
        spec 2%nat 3%nat (pack (src_estimate_aligned_H2 ROps (option ls_state) om src tgt nrm (Some st)))) /\
     (ready 6 st ->
        spec 3%nat 3%nat (pack (src_estimate_aligned_V3 ROps (option ls_state) om src tgt nrm (Some st))) /\
        spec 3%nat 4%nat (pack (src_estimate_aligned_H3 ROps (option ls_state) om src tgt nrm (Some st))))).
Proof.
  intros inverse_of svd_of fill src tgt nrm corr tr st om spec Hn. subst om.
  assert (Hspec : forall d ps, (d = 2 \/ d = 3)%nat -> ready (p2p_k d) st ->
            spec d ps (p2p_estimate ROps inverse_of svd_of fill true d ps tr st)).
  { intros d ps Hd Hr st2 H E. exact (p2p_estimate_correct inverse_of svd_of fill d ps tr st st2 H Hd Hr Hn E). }
  destruct (source_tie_estimate ROps inverse_of svd_of fill true src tgt nrm corr tr st) as [Hc Ha].
  unfold p2p_find_corr, p2p_find_aligned in Hc, Ha.
  split; intros Htr; [destruct (Hc Htr) as [H2 H3]|destruct (Ha Htr) as [H2 H3]]; rewrite Htr in H2, H3;
    (split; intros Hr; [destruct (H2 Hr) as [-> ->]|destruct (H3 Hr) as [-> ->]]; split; apply Hspec; auto).
Qed.
Print Assumptions C05_source_tie_normal_equations_and_minimiser.

(* ---- non-vacuity of the source-tie hypotheses: an accepted correspondence input (the normal of correspondence (1,0) is
        normal 0, the TARGET's) and accepted aligned arrays; a fresh estimator is ready (C05_fresh_estimator_ready) ---- *)
Example C05_source_tie_inputs_accepted :
  triples_of_corr [[1; 2]; [3; 4]] [[5; 6]; [7; 8]] [[0; 1]; [1; 0]] [(1, 0); (0, 1)]%nat
    = Some [(([3; 4], [5; 6]), [0; 1]); (([1; 2], [7; 8]), [1; 0])] /\
  triples_aligned [[1; 2]; [3; 4]] [[5; 6]; [7; 8]] [[0; 1]; [1; 0]]
    = Some [(([1; 2], [5; 6]), [0; 1]); (([3; 4], [7; 8]), [1; 0])].
Proof. split; reflexivity. Qed.
