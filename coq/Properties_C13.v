(* Properties_C13.v — C13: grid index mapping puts each in-range point in the in-bounds cell containing it.
   Per axis; r = resolution, [lo, hi] = extent.  First part: the model instantiated at the reals (exact arithmetic).
   Second part (names ending in _binary64 / _binary32): the SAME model instantiated at the rounded dictionaries
   B64Ops / B32Ops of GridMapFloat.v, i.e. IEEE-754 binary64 / binary32 with round-to-nearest-even after every
   C++ operation. *)
From Coq Require Import Reals ZArith List Lra Lia.
From Flocq Require Import Core.
From Romea Require Import Num NumR GridMapModel GridMapProofs GridMapFloat SrcEigen SrcTieC13.
From Romea.gen Require Import SrcGridMap.
Import ListNotations.
Local Open Scope R_scope.

(* every in-range point is at least half a cell away from the values 0 and n where truncation would leave the
   grid: this margin is why rounding cannot push an in-range point out of bounds *)
Theorem C13_half_cell_margin : forall r lo hi p, 0 < r -> lo <= p <= hi ->
  1 / 2 <= (p - gm_origin ROps r lo) / r <= IZR (gm_ncells ROps r lo hi) - 1 / 2.
Proof. intros r lo hi p Hr. exact (half_cell_margin r lo hi Hr p). Qed.
Print Assumptions C13_half_cell_margin.

Theorem C13_index_in_bounds : forall r lo hi p, 0 < r -> lo <= p <= hi ->
  (0 <= gm_index ROps r (gm_origin ROps r lo) p < gm_ncells ROps r lo hi)%Z.
Proof. intros r lo hi p Hr. exact (index_in_bounds r lo hi Hr p). Qed.

Theorem C13_point_within_half_cell : forall r lo hi p, 0 < r -> lo <= p <= hi ->
  let org := gm_origin ROps r lo in
  Rabs (p - gm_centre ROps r org (gm_index ROps r org p)) <= r / 2.
Proof. intros r lo hi p Hr. exact (point_within_half r lo hi Hr p). Qed.

Theorem C13_centre_maps_to_itself : forall r lo k, 0 < r -> (0 <= k)%Z ->
  let org := gm_origin ROps r lo in gm_index ROps r org (gm_centre ROps r org k) = k.
Proof. intros r lo k Hr. exact (centre_fixed r lo Hr k). Qed.

Theorem C13_centres_spaced_by_r : forall r lo k,
  let org := gm_origin ROps r lo in gm_centre ROps r org (k + 1) - gm_centre ROps r org k = r.
Proof. intros r lo k. exact (centres_spaced r lo k). Qed.

Theorem C13_first_last_cover_bounds : forall r lo hi, 0 < r ->
  let org := gm_origin ROps r lo in
  gm_centre ROps r org 0 - r / 2 <= lo /\ hi <= gm_centre ROps r org (gm_ncells ROps r lo hi - 1) + r / 2.
Proof. intros r lo hi Hr. exact (bounds_covered r lo hi Hr). Qed.

Theorem C13_ncells_positive : forall r lo hi, 0 < r -> lo <= hi -> (1 <= gm_ncells ROps r lo hi)%Z.
Proof. exact ncells_positive. Qed.
Print Assumptions C13_ncells_positive.

(* non-vacuity: the grid of the unit tests, extent [-1, 1], resolution 1: 3 cells, centres -1, 0, 1 *)
Example C13_ex : gm_ncells ROps 1 (-1) 1 = 3%Z.
Proof.
  rewrite (gm_ncells_R 1 (-1) 1). replace (1 / 1) with (IZR 1) by (simpl; lra). replace (-1 / 1) with (IZR (-1)) by (simpl; lra).
  rewrite Flocq.Core.Raux.Zceil_IZR, Flocq.Core.Raux.Zfloor_IZR. reflexivity.
Qed.

(* ====================================================================================================
   Floating point.  [FlOps prec emin] (GridMapFloat.v) is a numeric dictionary over R whose +, -, *, / and
   integer->float are the real operation followed by ONE rounding [round radix2 (FLT_exp emin prec) ZnearestE] (Flocq);
   floor, ceil, truncation, negation are exact on floating-point numbers.
       B64Ops = FlOps 53 (-1074), rnd64 its rounding;   B32Ops = FlOps 24 (-149), rnd32 its rounding.
   [gm_origin B64Ops], [gm_ncells B64Ops], [gm_index B64Ops], [gm_centre B64Ops] are therefore
   GridIndexMapping.cpp:38-65,94-98 with Scalar = double (B32Ops: Scalar = float), one rounding per operation in the
   C++ evaluation order (origin_unf, ncells_unf, index_unf0, centre_unf0 show them unfolded).  The dictionaries used
   for EXECUTION (ocaml/numf.ml: native OCaml doubles; binary32 = binary64 result rounded once more, which is
   innocuous for + - * /) compute the same functions on finite numbers as long as nothing overflows; the
   no_overflow theorems prove that nothing does on the domains.  That identification (hardware arithmetic = Flocq's
   rounding; no x87 excess precision, no FMA contraction) is trusted, not proved; FlOps is not extracted.

   binary64 domain [gmf_domain r lo hi]:    2^-900 <= r <= 2^900,  |lo| <= 2^40 r,  |hi| <= 2^40 r
   binary32 domain [gmf_domain32 r lo hi]:  2^-100 <= r <= 2^100,  |lo| <= 2^20 r,  |hi| <= 2^20 r
   (both bounds at most 2^40, resp. 2^20, cells away from zero).  The boxes 2^-20 <= r <= 2^20, |lo|,|hi| <= 2^20
   (resp. 2^-10 <= r <= 2^10, |lo|,|hi| <= 2^10) lie inside and contain the envelope of the property
   (r in [1e-3,10], bounds in [-1e3,1e3]).
   The inputs are arbitrary reals of the domain; in particular every binary64 (binary32) r, lo, hi, p of the domain
   (representability of the inputs is not needed by the proofs, so it is not assumed).
   ==================================================================================================== *)
Theorem C13_domain_binary64 : forall r lo hi, gmf_domain r lo hi <->
  (bpow radix2 (-900) <= r <= bpow radix2 900 /\ Rabs lo <= bpow radix2 40 * r /\ Rabs hi <= bpow radix2 40 * r).
Proof. intros r lo hi. apply iff_refl. Qed.

Theorem C13_domain_box_binary64 : forall r lo hi,
  bpow radix2 (-20) <= r <= bpow radix2 20 -> Rabs lo <= bpow radix2 20 -> Rabs hi <= bpow radix2 20 ->
  gmf_domain r lo hi.
Proof. intros r lo hi. apply (fl_domain_box 40 (-900) 900 20); lia. Qed.

(* every intermediate result of the constructor, of computeCellIndexes(p), of centre table entry k and of
   computeCellIndexes(centre k) is below 2^1000 in magnitude before rounding: no overflow *)
Theorem C13_no_overflow_binary64 : forall r lo hi p k, gmf_domain r lo hi -> lo <= p <= hi ->
  (0 <= k < gm_ncells B64Ops r lo hi)%Z ->
  let org := gm_origin B64Ops r lo in
  let F := Zfloor (rnd64 (lo / r)) in let C := Zceil (rnd64 (hi / r)) in
  let m := rnd64 ((IZR k + 1 / 2) * r) in let c := gm_centre B64Ops r org k in
  Forall (fun x => Rabs x <= bpow radix2 1000)
    (lo / r :: hi / r :: IZR F - 1 / 2 :: r * (IZR F - 1 / 2) :: IZR C - IZR F :: IZR (C - F) + 1 ::
     p - org :: rnd64 (p - org) / r ::
     IZR k + 1 / 2 :: (IZR k + 1 / 2) * r :: org + m :: c - org :: rnd64 (c - org) / r :: nil).
Proof.
  intros r lo hi p k D Hp Hk. cbv zeta.
  eapply Forall_impl; [|exact (no_overflow_gen _ _ _ _ _ par64 r lo hi D p k Hp Hk)].
  intros x Hx. eapply Rle_trans; [exact Hx|]. apply bpow_le. lia.
Qed.
Print Assumptions C13_no_overflow_binary64.

(* the cell count is computed without any rounding error: ceil(rnd(hi/r)) - floor(rnd(lo/r)) + 1 *)
Theorem C13_ncells_exact_binary64 : forall r lo hi, gmf_domain r lo hi ->
  gm_ncells B64Ops r lo hi = (Zceil (rnd64 (hi / r)) - Zfloor (rnd64 (lo / r)) + 1)%Z.
Proof. exact (ncells_gen _ _ _ _ _ par64). Qed.
Print Assumptions C13_ncells_exact_binary64.

Theorem C13_ncells_positive_binary64 : forall r lo hi, gmf_domain r lo hi -> lo <= hi ->
  (1 <= gm_ncells B64Ops r lo hi)%Z.
Proof. exact (ncells_positive_gen _ _ _ _ _ par64). Qed.
Print Assumptions C13_ncells_positive_binary64.

(* the floating-point index of every point of the extent is in bounds *)
Theorem C13_index_in_bounds_binary64 : forall r lo hi p, gmf_domain r lo hi -> lo <= p <= hi ->
  (0 <= gm_index B64Ops r (gm_origin B64Ops r lo) p < gm_ncells B64Ops r lo hi)%Z.
Proof. intros r lo hi p D. exact (index_in_bounds_b64 r lo hi D p). Qed.
Print Assumptions C13_index_in_bounds_binary64.

(* why: the rounded quotient that gets truncated keeps a quarter-cell margin (half a cell in exact arithmetic) *)
Theorem C13_quarter_cell_margin_binary64 : forall r lo hi p, gmf_domain r lo hi -> lo <= p <= hi ->
  1 / 4 <= rnd64 (rnd64 (p - gm_origin B64Ops r lo) / r) <= IZR (gm_ncells B64Ops r lo hi) - 1 / 4.
Proof.
  intros r lo hi p D Hp. pose proof (margin_gen _ _ _ _ _ par64 r lo hi D p Hp) as M.
  rewrite kap64 in M. unfold rnd64, B64Ops. lra.
Qed.
Print Assumptions C13_quarter_cell_margin_binary64.

(* the point is within half a resolution of the floating-point centre of its cell, up to the rounding slack
   gmf_tol = 2^-49 * max(|lo|,|hi|,r) + 2^-49 * r  (exactly the tolerance the oracle of checks/C13.py allows) *)
Theorem C13_point_near_centre_binary64 : forall r lo hi p, gmf_domain r lo hi -> lo <= p <= hi ->
  let org := gm_origin B64Ops r lo in
  Rabs (p - gm_centre B64Ops r org (gm_index B64Ops r org p))
    <= r / 2 + (bpow radix2 (-49) * Rmax (Rmax (Rabs lo) (Rabs hi)) r + bpow radix2 (-49) * r).
Proof. intros r lo hi p D. exact (point_near_centre_gen _ _ _ _ _ par64 r lo hi D p). Qed.
Print Assumptions C13_point_near_centre_binary64.

(* the same with a slack relative to the cell size *)
Theorem C13_point_near_centre_rel_binary64 : forall r lo hi p, gmf_domain r lo hi -> lo <= p <= hi ->
  let org := gm_origin B64Ops r lo in
  Rabs (p - gm_centre B64Ops r org (gm_index B64Ops r org p)) <= r / 2 + bpow radix2 (-9) * r.
Proof.
  intros r lo hi p D Hp. pose proof (point_near_centre_rel_gen _ _ _ _ _ par64 r lo hi D p Hp) as M.
  rewrite kap64 in M. replace (bpow radix2 (-9)) with (/ 512) by (simpl; lra).
  pose proof (grid_r_pos _ _ _ r lo hi D). unfold B64Ops. lra.
Qed.
Print Assumptions C13_point_near_centre_rel_binary64.

(* centre -> index -> centre is the identity in floating point, for every cell of the grid *)
Theorem C13_centre_maps_to_itself_binary64 : forall r lo hi k, gmf_domain r lo hi ->
  (0 <= k < gm_ncells B64Ops r lo hi)%Z ->
  let org := gm_origin B64Ops r lo in gm_index B64Ops r org (gm_centre B64Ops r org k) = k.
Proof. intros r lo hi k D. exact (centre_index_gen _ _ _ _ _ par64 r lo hi D k). Qed.
Print Assumptions C13_centre_maps_to_itself_binary64.

(* consecutive floating-point centres are r apart up to the same slack *)
Theorem C13_centres_spaced_binary64 : forall r lo hi k, gmf_domain r lo hi ->
  (0 <= k)%Z -> (k + 1 < gm_ncells B64Ops r lo hi)%Z ->
  let org := gm_origin B64Ops r lo in
  Rabs (gm_centre B64Ops r org (k + 1) - gm_centre B64Ops r org k - r) <= gmf_tol r lo hi.
Proof. intros r lo hi k D. exact (centres_spaced_gen _ _ _ _ _ par64 r lo hi D k). Qed.
Print Assumptions C13_centres_spaced_binary64.

(* the first and last floating-point cells cover the bounds, without any slack *)
Theorem C13_first_last_cover_bounds_binary64 : forall r lo hi, gmf_domain r lo hi -> lo <= hi ->
  let org := gm_origin B64Ops r lo in
  gm_centre B64Ops r org 0 - r / 2 <= lo /\ hi <= gm_centre B64Ops r org (gm_ncells B64Ops r lo hi - 1) + r / 2.
Proof. exact (cover_gen _ _ _ _ _ par64). Qed.
Print Assumptions C13_first_last_cover_bounds_binary64.

(* non-vacuity: r = 1/2, extent [-10, 10], p = 3 are binary64 numbers of the domain; the rounded model gives
   origin -10.25, 41 cells, p in cell 26 whose centre is 3 *)
Example C13_binary64_ex_inputs : b64 (1 / 2) /\ b64 (-10) /\ b64 10 /\ b64 3.
Proof. exact (ex_inputs 53 (-1074) ltac:(lia) ltac:(lia)). Qed.
Example C13_binary64_ex_domain : gmf_domain (1 / 2) (-10) 10 /\ -10 <= 3 <= 10.
Proof. split; [apply ex_domain; lia|lra]. Qed.
Example C13_binary64_ex_values :
  gm_origin B64Ops (1 / 2) (-10) = -41 / 4 /\ gm_ncells B64Ops (1 / 2) (-10) 10 = 41%Z /\
  gm_index B64Ops (1 / 2) (gm_origin B64Ops (1 / 2) (-10)) 3 = 26%Z /\
  gm_centre B64Ops (1 / 2) (gm_origin B64Ops (1 / 2) (-10)) 26 = 3.
Proof. exact (ex_values 53 (-1074) ltac:(lia) ltac:(lia)). Qed.

(* ---------------------------------------- binary32 (Scalar = float) ---------------------------------------- *)
Theorem C13_domain_binary32 : forall r lo hi, gmf_domain32 r lo hi <->
  (bpow radix2 (-100) <= r <= bpow radix2 100 /\ Rabs lo <= bpow radix2 20 * r /\ Rabs hi <= bpow radix2 20 * r).
Proof. intros r lo hi. apply iff_refl. Qed.

Theorem C13_domain_box_binary32 : forall r lo hi,
  bpow radix2 (-10) <= r <= bpow radix2 10 -> Rabs lo <= bpow radix2 10 -> Rabs hi <= bpow radix2 10 ->
  gmf_domain32 r lo hi.
Proof. intros r lo hi. apply (fl_domain_box 20 (-100) 100 10); lia. Qed.

(* below 2^122; the largest finite binary32 number is just under 2^128 *)
Theorem C13_no_overflow_binary32 : forall r lo hi p k, gmf_domain32 r lo hi -> lo <= p <= hi ->
  (0 <= k < gm_ncells B32Ops r lo hi)%Z ->
  let org := gm_origin B32Ops r lo in
  let F := Zfloor (rnd32 (lo / r)) in let C := Zceil (rnd32 (hi / r)) in
  let m := rnd32 ((IZR k + 1 / 2) * r) in let c := gm_centre B32Ops r org k in
  Forall (fun x => Rabs x <= bpow radix2 122)
    (lo / r :: hi / r :: IZR F - 1 / 2 :: r * (IZR F - 1 / 2) :: IZR C - IZR F :: IZR (C - F) + 1 ::
     p - org :: rnd32 (p - org) / r ::
     IZR k + 1 / 2 :: (IZR k + 1 / 2) * r :: org + m :: c - org :: rnd32 (c - org) / r :: nil).
Proof. intros r lo hi p k D. exact (no_overflow_gen _ _ _ _ _ par32 r lo hi D p k). Qed.
Print Assumptions C13_no_overflow_binary32.

Theorem C13_ncells_exact_binary32 : forall r lo hi, gmf_domain32 r lo hi ->
  gm_ncells B32Ops r lo hi = (Zceil (rnd32 (hi / r)) - Zfloor (rnd32 (lo / r)) + 1)%Z.
Proof. exact (ncells_gen _ _ _ _ _ par32). Qed.
Print Assumptions C13_ncells_exact_binary32.

Theorem C13_ncells_positive_binary32 : forall r lo hi, gmf_domain32 r lo hi -> lo <= hi ->
  (1 <= gm_ncells B32Ops r lo hi)%Z.
Proof. exact (ncells_positive_gen _ _ _ _ _ par32). Qed.
Print Assumptions C13_ncells_positive_binary32.

Theorem C13_index_in_bounds_binary32 : forall r lo hi p, gmf_domain32 r lo hi -> lo <= p <= hi ->
  (0 <= gm_index B32Ops r (gm_origin B32Ops r lo) p < gm_ncells B32Ops r lo hi)%Z.
Proof. intros r lo hi p D. exact (index_in_bounds_b32 r lo hi D p). Qed.
Print Assumptions C13_index_in_bounds_binary32.

(* in binary32 at 2^20 cells from zero the half-cell margin shrinks to a sixteenth of a cell, but survives *)
Theorem C13_sixteenth_cell_margin_binary32 : forall r lo hi p, gmf_domain32 r lo hi -> lo <= p <= hi ->
  1 / 16 <= rnd32 (rnd32 (p - gm_origin B32Ops r lo) / r) <= IZR (gm_ncells B32Ops r lo hi) - 1 / 16.
Proof.
  intros r lo hi p D Hp. pose proof (margin_gen _ _ _ _ _ par32 r lo hi D p Hp) as M.
  rewrite kap32 in M. unfold rnd32, B32Ops. lra.
Qed.
Print Assumptions C13_sixteenth_cell_margin_binary32.

(* slack 2^-20 * max(|lo|,|hi|,r) + 2^-20 * r: the oracle's tolerance for float (8 eps with eps = 2^-23) *)
Theorem C13_point_near_centre_binary32 : forall r lo hi p, gmf_domain32 r lo hi -> lo <= p <= hi ->
  let org := gm_origin B32Ops r lo in
  Rabs (p - gm_centre B32Ops r org (gm_index B32Ops r org p))
    <= r / 2 + (bpow radix2 (-20) * Rmax (Rmax (Rabs lo) (Rabs hi)) r + bpow radix2 (-20) * r).
Proof. intros r lo hi p D. exact (point_near_centre_gen _ _ _ _ _ par32 r lo hi D p). Qed.
Print Assumptions C13_point_near_centre_binary32.

Theorem C13_centre_maps_to_itself_binary32 : forall r lo hi k, gmf_domain32 r lo hi ->
  (0 <= k < gm_ncells B32Ops r lo hi)%Z ->
  let org := gm_origin B32Ops r lo in gm_index B32Ops r org (gm_centre B32Ops r org k) = k.
Proof. intros r lo hi k D. exact (centre_index_gen _ _ _ _ _ par32 r lo hi D k). Qed.
Print Assumptions C13_centre_maps_to_itself_binary32.

Theorem C13_centres_spaced_binary32 : forall r lo hi k, gmf_domain32 r lo hi ->
  (0 <= k)%Z -> (k + 1 < gm_ncells B32Ops r lo hi)%Z ->
  let org := gm_origin B32Ops r lo in
  Rabs (gm_centre B32Ops r org (k + 1) - gm_centre B32Ops r org k - r) <= gmf_tol32 r lo hi.
Proof. intros r lo hi k D. exact (centres_spaced_gen _ _ _ _ _ par32 r lo hi D k). Qed.
Print Assumptions C13_centres_spaced_binary32.

Theorem C13_first_last_cover_bounds_binary32 : forall r lo hi, gmf_domain32 r lo hi -> lo <= hi ->
  let org := gm_origin B32Ops r lo in
  gm_centre B32Ops r org 0 - r / 2 <= lo /\ hi <= gm_centre B32Ops r org (gm_ncells B32Ops r lo hi - 1) + r / 2.
Proof. exact (cover_gen _ _ _ _ _ par32). Qed.
Print Assumptions C13_first_last_cover_bounds_binary32.

Example C13_binary32_ex_inputs : b32 (1 / 2) /\ b32 (-10) /\ b32 10 /\ b32 3.
Proof. exact (ex_inputs 24 (-149) ltac:(lia) ltac:(lia)). Qed.
Example C13_binary32_ex_domain : gmf_domain32 (1 / 2) (-10) 10 /\ -10 <= 3 <= 10.
Proof. split; [apply ex_domain; lia|lra]. Qed.
Example C13_binary32_ex_values :
  gm_origin B32Ops (1 / 2) (-10) = -41 / 4 /\ gm_ncells B32Ops (1 / 2) (-10) 10 = 41%Z /\
  gm_index B32Ops (1 / 2) (gm_origin B32Ops (1 / 2) (-10)) 3 = 26%Z /\
  gm_centre B32Ops (1 / 2) (gm_origin B32Ops (1 / 2) (-10)) 26 = 3.
Proof. exact (ex_values 24 (-149) ltac:(lia) ltac:(lia)). Qed.

(* ====================================================================================================
   SYNTACTIC SOURCE TIE.  gen/SrcGridMap.v is regenerated on every run from the clang AST of the instantiations
   GridIndexMapping<float|double, 2|3> of the current src/containers/grid/GridIndexMapping.cpp (translate/tr_C13_gridmap.py:
   symbolic execution; Eigen array expressions are read axis by axis; the float and double instantiations must give the
   same term).  The theorems below say that the generated terms ARE gm_origin / gm_ncells / gm_centre / gm_index /
   gm_sym_lo of GridMapModel.v, for every numeric dictionary N reading the literals 0, 1, 0.5 as the model's constants
   (LitOK N) — which ROps, B64Ops and B32Ops do: the object of the theorems over the reals above and of the Flocq theorems
   is the term generated from the source.  Proofs by computation: same operations in the same order.
   ==================================================================================================== *)
Theorem C13_source_tie_dictionaries : LitOK ROps /\ LitOK B64Ops /\ LitOK B32Ops.
Proof. exact (conj LitOK_R (conj LitOK_B64 LitOK_B32)). Qed.

(* the interval constructor: outputs (cell-centre tables as (size, fun n => centre n) per axis, cellResolution_,
   flooredMinimalPositionAlongAxes_, numberOfCellsAlongAxes_) *)
Theorem C13_source_tie_constructor_2d : forall (T : Type) (N : NumOps T), LitOK N -> forall r lo0 lo1 hi0 hi1,
  src_gm_ctor_2 N r lo0 lo1 hi0 hi1
  = ([(gm_ncells N r lo0 hi0, gm_centre N r (gm_origin N r lo0)); (gm_ncells N r lo1 hi1, gm_centre N r (gm_origin N r lo1))],
     r, [gm_origin N r lo0; gm_origin N r lo1], [gm_ncells N r lo0 hi0; gm_ncells N r lo1 hi1]).
Proof. exact @tie_ctor_2. Qed.

Theorem C13_source_tie_constructor_3d : forall (T : Type) (N : NumOps T), LitOK N -> forall r lo0 lo1 lo2 hi0 hi1 hi2,
  src_gm_ctor_3 N r lo0 lo1 lo2 hi0 hi1 hi2
  = ([(gm_ncells N r lo0 hi0, gm_centre N r (gm_origin N r lo0)); (gm_ncells N r lo1 hi1, gm_centre N r (gm_origin N r lo1));
      (gm_ncells N r lo2 hi2, gm_centre N r (gm_origin N r lo2))],
     r, [gm_origin N r lo0; gm_origin N r lo1; gm_origin N r lo2],
     [gm_ncells N r lo0 hi0; gm_ncells N r lo1 hi1; gm_ncells N r lo2 hi2]).
Proof. exact @tie_ctor_3. Qed.
Print Assumptions C13_source_tie_constructor_3d.

(* the (maximalRange, cellResolution) constructor delegates to the interval constructor on [-maximalRange, maximalRange]^DIM *)
Theorem C13_source_tie_symmetric_constructor : forall (T : Type) (N : NumOps T) R r,
  src_gm_symctor_2 N R r = src_gm_ctor_2 N r (gm_sym_lo N R) (gm_sym_lo N R) R R /\
  src_gm_symctor_3 N R r = src_gm_ctor_3 N r (gm_sym_lo N R) (gm_sym_lo N R) (gm_sym_lo N R) R R R.
Proof. intros T N R r. split; reflexivity. Qed.

(* computeCellIndexes *)
Theorem C13_source_tie_index : forall (T : Type) (N : NumOps T) r org0 org1 org2 p0 p1 p2,
  src_gm_index_2 N p0 p1 r org0 org1 = [gm_index N r org0 p0; gm_index N r org1 p1] /\
  src_gm_index_3 N p0 p1 p2 r org0 org1 org2 = [gm_index N r org0 p0; gm_index N r org1 p1; gm_index N r org2 p2].
Proof. intros. split; reflexivity. Qed.

(* computeCellCenterPosition on the tables the constructor built *)
Theorem C13_source_tie_centre_2d : forall (T : Type) (N : NumOps T), LitOK N -> forall r lo0 lo1 hi0 hi1 k0 k1,
  let tabs := tables_of (src_gm_ctor_2 N r lo0 lo1 hi0 hi1) in
  src_gm_centre_2 k0 k1 (snd (nth 0 tabs (0%Z, fun _ => nzero N))) (snd (nth 1 tabs (0%Z, fun _ => nzero N)))
  = [gm_centre N r (gm_origin N r lo0) k0; gm_centre N r (gm_origin N r lo1) k1].
Proof. intros T N L r lo0 lo1 hi0 hi1 k0 k1. cbv zeta. rewrite (tie_ctor_2 N L). reflexivity. Qed.

Theorem C13_source_tie_centre_3d : forall (T : Type) (N : NumOps T), LitOK N -> forall r lo0 lo1 lo2 hi0 hi1 hi2 k0 k1 k2,
  let tabs := tables_of (src_gm_ctor_3 N r lo0 lo1 lo2 hi0 hi1 hi2) in
  src_gm_centre_3 k0 k1 k2 (snd (nth 0 tabs (0%Z, fun _ => nzero N))) (snd (nth 1 tabs (0%Z, fun _ => nzero N)))
                  (snd (nth 2 tabs (0%Z, fun _ => nzero N)))
  = [gm_centre N r (gm_origin N r lo0) k0; gm_centre N r (gm_origin N r lo1) k1; gm_centre N r (gm_origin N r lo2) k2].
Proof. intros T N L r lo0 lo1 lo2 hi0 hi1 hi2 k0 k1 k2. cbv zeta. rewrite (tie_ctor_3 N L). reflexivity. Qed.

(* the property itself, stated on the GENERATED terms in floating point: build the grid with the generated constructor, map a
   point of the extent with the generated computeCellIndexes fed with the constructor's outputs; every index is in bounds *)
Theorem C13_source_index_in_bounds_binary64 : forall r lo0 lo1 lo2 hi0 hi1 hi2 p0 p1 p2,
  gmf_domain r lo0 hi0 -> gmf_domain r lo1 hi1 -> gmf_domain r lo2 hi2 ->
  lo0 <= p0 <= hi0 -> lo1 <= p1 <= hi1 -> lo2 <= p2 <= hi2 ->
  let '(tabs, res, orgs, ns) := src_gm_ctor_3 B64Ops r lo0 lo1 lo2 hi0 hi1 hi2 in
  Forall2 (fun i n => (0 <= i < n)%Z) (src_gm_index_3 B64Ops p0 p1 p2 res (nth 0 orgs 0) (nth 1 orgs 0) (nth 2 orgs 0)) ns.
Proof. intros. apply (src_in_bounds_3 B64Ops LitOK_B64); apply index_in_bounds_b64; assumption. Qed.

Theorem C13_source_index_in_bounds_binary64_2d : forall r lo0 lo1 hi0 hi1 p0 p1,
  gmf_domain r lo0 hi0 -> gmf_domain r lo1 hi1 -> lo0 <= p0 <= hi0 -> lo1 <= p1 <= hi1 ->
  let '(tabs, res, orgs, ns) := src_gm_ctor_2 B64Ops r lo0 lo1 hi0 hi1 in
  Forall2 (fun i n => (0 <= i < n)%Z) (src_gm_index_2 B64Ops p0 p1 res (nth 0 orgs 0) (nth 1 orgs 0)) ns.
Proof. intros. apply (src_in_bounds_2 B64Ops LitOK_B64); apply index_in_bounds_b64; assumption. Qed.

Theorem C13_source_index_in_bounds_binary32 : forall r lo0 lo1 lo2 hi0 hi1 hi2 p0 p1 p2,
  gmf_domain32 r lo0 hi0 -> gmf_domain32 r lo1 hi1 -> gmf_domain32 r lo2 hi2 ->
  lo0 <= p0 <= hi0 -> lo1 <= p1 <= hi1 -> lo2 <= p2 <= hi2 ->
  let '(tabs, res, orgs, ns) := src_gm_ctor_3 B32Ops r lo0 lo1 lo2 hi0 hi1 hi2 in
  Forall2 (fun i n => (0 <= i < n)%Z) (src_gm_index_3 B32Ops p0 p1 p2 res (nth 0 orgs 0) (nth 1 orgs 0) (nth 2 orgs 0)) ns.
Proof. intros. apply (src_in_bounds_3 B32Ops LitOK_B32); apply index_in_bounds_b32; assumption. Qed.

Theorem C13_source_index_in_bounds_binary32_2d : forall r lo0 lo1 hi0 hi1 p0 p1,
  gmf_domain32 r lo0 hi0 -> gmf_domain32 r lo1 hi1 -> lo0 <= p0 <= hi0 -> lo1 <= p1 <= hi1 ->
  let '(tabs, res, orgs, ns) := src_gm_ctor_2 B32Ops r lo0 lo1 hi0 hi1 in
  Forall2 (fun i n => (0 <= i < n)%Z) (src_gm_index_2 B32Ops p0 p1 res (nth 0 orgs 0) (nth 1 orgs 0)) ns.
Proof. intros. apply (src_in_bounds_2 B32Ops LitOK_B32); apply index_in_bounds_b32; assumption. Qed.
Print Assumptions C13_source_index_in_bounds_binary32_2d.
