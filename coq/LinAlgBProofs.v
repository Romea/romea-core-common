(* LinAlgBProofs.v — lemmas about the small linear algebra of LinAlgBModel.v.
   Part 1: structural facts valid for every numeric dictionary (tab / nth / sumn extensionality).
   Part 2: the real-number instance: finite sums, products of matrices given as functions, determinants of
   2x2 / 3x3 products, abstract least squares (normal equations, Pythagoras, uniqueness). *)
From Coq Require Import Reals List Arith Lia Lra Bool Psatz.
From Romea Require Import Num NumR LinAlgBModel.
Import ListNotations.

Section Structural.
Context {T : Type} (N : NumOps T).

Lemma length_tab {A} n (f : nat -> A) : length (tab n f) = n.
Proof. unfold tab. now rewrite map_length, seq_length. Qed.

Lemma nth_tab {A} n (f : nat -> A) i d : (i < n)%nat -> nth i (tab n f) d = f i.
Proof.
  intros H. unfold tab.
  rewrite (nth_indep _ d (f O)) by (rewrite map_length, seq_length; exact H).
  rewrite map_nth. rewrite seq_nth by exact H. reflexivity.
Qed.

Lemma tab_ext {A} n (f g : nat -> A) : (forall i, (i < n)%nat -> f i = g i) -> tab n f = tab n g.
Proof.
  intros H. unfold tab. apply map_ext_in. intros a Ha. apply in_seq in Ha. apply H. lia.
Qed.

Lemma vget_tab n f i : (i < n)%nat -> vget N (tab n f) i = f i.
Proof. intros H. unfold vget. now apply nth_tab. Qed.

Lemma mget_mtab n m f i j : (i < n)%nat -> (j < m)%nat -> mget N (mtab n m f) i j = f i j.
Proof.
  intros Hi Hj. unfold mget, mtab. rewrite nth_tab by exact Hi. now apply nth_tab.
Qed.

Lemma length_mtab n m (f : nat -> nat -> T) : length (mtab n m f) = n.
Proof. apply length_tab. Qed.

Lemma mtab_ext n m (f g : nat -> nat -> T) :
  (forall i j, (i < n)%nat -> (j < m)%nat -> f i j = g i j) -> mtab n m f = mtab n m g.
Proof. intros H. unfold mtab. apply tab_ext. intros i Hi. apply tab_ext. intros j Hj. now apply H. Qed.

Lemma sumn_ext n f g : (forall i, (i < n)%nat -> f i = g i) -> sumn N n f = sumn N n g.
Proof.
  induction n as [|n IH]; intros H; [reflexivity|]. cbn [sumn].
  rewrite IH by (intros; apply H; lia). rewrite H by lia. reflexivity.
Qed.

End Structural.

Local Open Scope R_scope.

Lemma nth_map_lt {A B} (g : A -> B) l i d d' : (i < length l)%nat -> nth i (map g l) d' = g (nth i l d).
Proof. intros H. rewrite (nth_indep _ d' (g d)) by (now rewrite map_length). apply map_nth. Qed.

Notation Rsum := (sumn ROps).
Ltac rsimpl := cbn [nadd nsub nmul ndiv nneg nzero n_one nabs nsqrt nltb nleb neqb nepsilon nofZ ROps] in *.

Lemma Rsum_S n f : Rsum (S n) f = Rsum n f + f n.
Proof. reflexivity. Qed.
Lemma Rsum_O f : Rsum O f = 0.
Proof. reflexivity. Qed.

Lemma Rsum_ext n f g : (forall i, (i < n)%nat -> f i = g i) -> Rsum n f = Rsum n g.
Proof. apply sumn_ext. Qed.

Lemma Rsum_0 n : Rsum n (fun _ => 0) = 0.
Proof. induction n; [reflexivity|]. rewrite Rsum_S, IHn. lra. Qed.

Lemma Rsum_zero n f : (forall i, (i < n)%nat -> f i = 0) -> Rsum n f = 0.
Proof. intros H. rewrite (Rsum_ext n f (fun _ => 0)) by exact H. apply Rsum_0. Qed.

Lemma Rsum_plus n f g : Rsum n (fun i => f i + g i) = Rsum n f + Rsum n g.
Proof. induction n; [rewrite !Rsum_O; lra|]. rewrite !Rsum_S, IHn. lra. Qed.

Lemma Rsum_minus n f g : Rsum n (fun i => f i - g i) = Rsum n f - Rsum n g.
Proof. induction n; [rewrite !Rsum_O; lra|]. rewrite !Rsum_S, IHn. lra. Qed.

Lemma Rsum_scal_l c n f : Rsum n (fun i => c * f i) = c * Rsum n f.
Proof. induction n; [rewrite !Rsum_O; lra|]. rewrite !Rsum_S, IHn. lra. Qed.

Lemma Rsum_scal_r c n f : Rsum n (fun i => f i * c) = Rsum n f * c.
Proof. induction n; [rewrite !Rsum_O; lra|]. rewrite !Rsum_S, IHn. lra. Qed.

Lemma Rsum_opp n f : Rsum n (fun i => - f i) = - Rsum n f.
Proof. induction n; [rewrite !Rsum_O; lra|]. rewrite !Rsum_S, IHn. lra. Qed.

Lemma Rsum_swap n m (f : nat -> nat -> R) :
  Rsum n (fun i => Rsum m (fun j => f i j)) = Rsum m (fun j => Rsum n (fun i => f i j)).
Proof.
  induction n.
  - rewrite Rsum_O. symmetry. apply Rsum_zero. intros; apply Rsum_O.
  - rewrite Rsum_S, IHn. rewrite <- Rsum_plus. apply Rsum_ext. intros j _. now rewrite Rsum_S.
Qed.

Definition delta (i j : nat) : R := if Nat.eqb i j then 1 else 0.

Lemma fid_delta i j : fid ROps i j = delta i j.
Proof. reflexivity. Qed.

Lemma delta_sym i j : delta i j = delta j i.
Proof. unfold delta. now rewrite Nat.eqb_sym. Qed.

Lemma delta_same i : delta i i = 1.
Proof. unfold delta. now rewrite Nat.eqb_refl. Qed.

Lemma delta_diff i j : i <> j -> delta i j = 0.
Proof. intros H. unfold delta. apply Nat.eqb_neq in H. now rewrite H. Qed.

Lemma Rsum_delta_l n j f : (j < n)%nat -> Rsum n (fun i => delta i j * f i) = f j.
Proof.
  induction n; intros H; [lia|]. rewrite Rsum_S.
  destruct (Nat.eq_dec j n) as [->|Hne].
  - rewrite delta_same. rewrite Rsum_zero; [lra|]. intros i Hi. rewrite delta_diff by lia. lra.
  - rewrite IHn by lia. rewrite (delta_diff n j) by lia. lra.
Qed.

Lemma Rsum_delta_r n j f : (j < n)%nat -> Rsum n (fun i => f i * delta i j) = f j.
Proof.
  intros H. rewrite <- (Rsum_delta_l n j f H). apply Rsum_ext. intros; lra.
Qed.

Lemma Rsum_delta_l' n j f : (j < n)%nat -> Rsum n (fun i => delta j i * f i) = f j.
Proof.
  intros H. rewrite <- (Rsum_delta_l n j f H). apply Rsum_ext. intros. now rewrite delta_sym.
Qed.

Lemma Rsum_delta_r' n j f : (j < n)%nat -> Rsum n (fun i => f i * delta j i) = f j.
Proof.
  intros H. rewrite <- (Rsum_delta_l n j f H). apply Rsum_ext. intros. rewrite delta_sym. lra.
Qed.

Lemma Rsum_nonneg n f : (forall i, (i < n)%nat -> 0 <= f i) -> 0 <= Rsum n f.
Proof.
  induction n; intros H; [rewrite Rsum_O; lra|]. rewrite Rsum_S.
  assert (0 <= Rsum n f) by (apply IHn; intros; apply H; lia). assert (0 <= f n) by (apply H; lia). lra.
Qed.

Lemma Rsum_le n f g : (forall i, (i < n)%nat -> f i <= g i) -> Rsum n f <= Rsum n g.
Proof.
  intros H. assert (0 <= Rsum n (fun i => g i - f i)).
  { apply Rsum_nonneg. intros i Hi. specialize (H i Hi). lra. }
  rewrite Rsum_minus in H0. lra.
Qed.

Lemma Rsum_nonneg_zero n f : (forall i, (i < n)%nat -> 0 <= f i) -> Rsum n f = 0 ->
  forall i, (i < n)%nat -> f i = 0.
Proof.
  induction n; intros Hp Hs i Hi; [lia|]. rewrite Rsum_S in Hs.
  assert (0 <= Rsum n f) by (apply Rsum_nonneg; intros; apply Hp; lia).
  assert (0 <= f n) by (apply Hp; lia).
  destruct (Nat.eq_dec i n) as [->|Hne]; [lra|].
  apply IHn; [intros; apply Hp; lia|lra|lia].
Qed.

Lemma Rsum_sq_zero n f : Rsum n (fun i => f i * f i) = 0 -> forall i, (i < n)%nat -> f i = 0.
Proof.
  intros H i Hi.
  assert (f i * f i = 0).
  { apply (Rsum_nonneg_zero n (fun i => f i * f i)); [intros; nra|exact H|exact Hi]. }
  nra.
Qed.

(* abstract least squares over R: J is n x k, Y has n entries, inv is a right inverse of J^T J *)
Section LeastSquaresR.
Variables (n k : nat) (J : nat -> nat -> R) (Y : nat -> R).

Definition nM (i j : nat) : R := Rsum n (fun r => J r i * J r j).
Definition nv (i : nat) : R := Rsum n (fun r => J r i * Y r).
Definition Jx (x : nat -> R) (r : nat) : R := Rsum k (fun c => J r c * x c).
Definition cost (x : nat -> R) : R := Rsum n (fun r => (Jx x r - Y r) * (Jx x r - Y r)).
Definition grad (x : nat -> R) (i : nat) : R := Rsum n (fun r => J r i * (Jx x r - Y r)).   (* (J^T (J x - Y))_i *)

Lemma nM_sym i j : nM i j = nM j i.
Proof. unfold nM. apply Rsum_ext. intros; lra. Qed.

Lemma grad_normal x i : grad x i = Rsum k (fun c => nM i c * x c) - nv i.
Proof.
  unfold grad, nM, nv, Jx.
  rewrite (Rsum_ext n _ (fun r => J r i * Rsum k (fun c => J r c * x c) - J r i * Y r)) by (intros; lra).
  rewrite Rsum_minus. f_equal.
  rewrite (Rsum_ext k (fun c => Rsum n (fun r => J r i * J r c) * x c)
                      (fun c => Rsum n (fun r => J r i * J r c * x c)))
    by (intros; now rewrite Rsum_scal_r).
  rewrite Rsum_swap. apply Rsum_ext. intros r _.
  rewrite <- Rsum_scal_l. apply Rsum_ext. intros; lra.
Qed.

(* Pythagoras at any solution z of the normal equations J^T (J z - Y) = 0:  |Jx - Y|^2 = |Jz - Y|^2 + |J (x - z)|^2 *)
Lemma pythagoras_normal z : (forall i, (i < k)%nat -> grad z i = 0) ->
  forall x, cost x = cost z + Rsum n (fun r => Jx (fun c => x c - z c) r * Jx (fun c => x c - z c) r).
Proof.
  intros Hz x. unfold cost.
  assert (Hlin : forall r, Jx x r - Y r = (Jx z r - Y r) + Jx (fun c => x c - z c) r).
  { intros r. unfold Jx. rewrite (Rsum_ext k (fun c => J r c * (x c - z c)) (fun c => J r c * x c - J r c * z c))
      by (intros; lra). rewrite Rsum_minus. lra. }
  rewrite (Rsum_ext n _ (fun r => (Jx z r - Y r) * (Jx z r - Y r)
                                  + Jx (fun c => x c - z c) r * Jx (fun c => x c - z c) r
                                  + 2 * ((Jx z r - Y r) * Jx (fun c => x c - z c) r)))
    by (intros r _; rewrite Hlin; ring).
  rewrite !Rsum_plus. rewrite Rsum_scal_l.
  (* the cross term is (x - z) . J^T (J z - Y) *)
  assert (Hcross : Rsum n (fun r => (Jx z r - Y r) * Jx (fun c => x c - z c) r) = 0).
  { unfold Jx at 2.
    rewrite (Rsum_ext n _ (fun r => Rsum k (fun c => (x c - z c) * (J r c * (Jx z r - Y r)))))
      by (intros; rewrite <- Rsum_scal_l; apply Rsum_ext; intros; lra).
    rewrite Rsum_swap. apply Rsum_zero. intros c Hc. rewrite Rsum_scal_l.
    fold (grad z c). rewrite Hz by exact Hc. lra. }
  rewrite Hcross. lra.
Qed.

(* hence every solution of the normal equations is a global minimiser *)
Lemma minimiser_of_normal z : (forall i, (i < k)%nat -> grad z i = 0) -> forall x, cost z <= cost x.
Proof.
  intros Hz x. rewrite (pythagoras_normal z Hz x).
  assert (0 <= Rsum n (fun r => Jx (fun c => x c - z c) r * Jx (fun c => x c - z c) r))
    by (apply Rsum_nonneg; intros; nra).
  lra.
Qed.

Variable inv : nat -> nat -> R.
Hypothesis Hinv : forall i j, (i < k)%nat -> (j < k)%nat -> Rsum k (fun l => nM i l * inv l j) = delta i j.

Definition x0 (i : nat) : R := Rsum k (fun l => inv i l * nv l).

Lemma normal_system i : (i < k)%nat -> Rsum k (fun j => nM i j * x0 j) = nv i.
Proof.
  intros Hi. unfold x0.
  rewrite (Rsum_ext k _ (fun j => Rsum k (fun l => nM i j * inv j l * nv l)))
    by (intros; rewrite <- Rsum_scal_l; apply Rsum_ext; intros; lra).
  rewrite Rsum_swap.
  rewrite (Rsum_ext k _ (fun l => delta i l * nv l)).
  - now apply Rsum_delta_l'.
  - intros l Hl. rewrite Rsum_scal_r. now rewrite Hinv.
Qed.

(* the normal equations: J^T (J x0 - Y) = 0 *)
Lemma normal_equations i : (i < k)%nat -> grad x0 i = 0.
Proof. intros Hi. rewrite grad_normal, normal_system by exact Hi. lra. Qed.

Lemma pythagoras x :
  cost x = cost x0 + Rsum n (fun r => Jx (fun c => x c - x0 c) r * Jx (fun c => x c - x0 c) r).
Proof. exact (pythagoras_normal x0 normal_equations x). Qed.

Lemma minimiser x : cost x0 <= cost x.
Proof. exact (minimiser_of_normal x0 normal_equations x). Qed.

(* J^T J z = 0 -> z = 0 on the first k components (uses symmetry of J^T J and the right inverse) *)
Lemma normal_matrix_injective z : (forall i, (i < k)%nat -> Rsum k (fun j => nM i j * z j) = 0) ->
  forall j, (j < k)%nat -> z j = 0.
Proof.
  intros H j Hj.
  rewrite <- (Rsum_delta_r' k j z Hj).
  rewrite (Rsum_ext k _ (fun i => Rsum k (fun l => z i * (nM i l * inv l j))))
    by (intros i Hi; rewrite Rsum_scal_l, Hinv by assumption; rewrite delta_sym; reflexivity).
  rewrite Rsum_swap. apply Rsum_zero. intros l Hl.
  rewrite (Rsum_ext k _ (fun i => (nM l i * z i) * inv l j)) by (intros i Hi; rewrite (nM_sym l i); lra).
  rewrite Rsum_scal_r, H by exact Hl. lra.
Qed.

Lemma Jz_zero_Mz_zero z : (forall r, (r < n)%nat -> Jx z r = 0) -> forall i, (i < k)%nat -> Rsum k (fun j => nM i j * z j) = 0.
Proof.
  intros H i Hi. unfold nM.
  rewrite (Rsum_ext k _ (fun j => Rsum n (fun r => J r i * (J r j * z j))))
    by (intros; rewrite <- Rsum_scal_r; apply Rsum_ext; intros; lra).
  rewrite Rsum_swap. apply Rsum_zero. intros r Hr. rewrite Rsum_scal_l.
  fold (Jx z r). rewrite H by exact Hr. lra.
Qed.

Lemma full_rank z : (forall r, (r < n)%nat -> Jx z r = 0) -> forall j, (j < k)%nat -> z j = 0.
Proof. intros H. apply normal_matrix_injective. now apply Jz_zero_Mz_zero. Qed.

Lemma unique_minimiser x : cost x = cost x0 -> forall i, (i < k)%nat -> x i = x0 i.
Proof.
  intros Hc i Hi. rewrite (pythagoras x) in Hc.
  assert (Hz : Rsum n (fun r => Jx (fun c => x c - x0 c) r * Jx (fun c => x c - x0 c) r) = 0) by lra.
  pose proof (Rsum_sq_zero n _ Hz) as Hr.
  pose proof (full_rank (fun c => x c - x0 c) Hr i Hi) as E. cbv beta in E. lra.
Qed.

(* every solution of the normal equations is x0 *)
Lemma normal_solution_unique x : (forall i, (i < k)%nat -> Rsum k (fun j => nM i j * x j) = nv i) ->
  forall i, (i < k)%nat -> x i = x0 i.
Proof.
  intros H i Hi.
  assert (E : (fun c => x c - x0 c) i = 0).
  { apply (normal_matrix_injective (fun c => x c - x0 c)); [|exact Hi]. intros a Ha.
    rewrite (Rsum_ext k _ (fun j => nM a j * x j - nM a j * x0 j)) by (intros; lra).
    rewrite Rsum_minus, H, normal_system by exact Ha. lra. }
  cbv beta in E. lra.
Qed.

End LeastSquaresR.

(* cost, gradient and normal matrix only read the first n rows *)
Lemma Jx_ext n k J1 J2 x r : (forall r c, (r < n)%nat -> J1 r c = J2 r c) -> (r < n)%nat -> Jx k J1 x r = Jx k J2 x r.
Proof. intros HJ Hr. unfold Jx. apply Rsum_ext. intros c _. now rewrite HJ. Qed.

Lemma grad_ext n k J1 Y1 J2 Y2 z i :
  (forall r c, (r < n)%nat -> J1 r c = J2 r c) -> (forall r, (r < n)%nat -> Y1 r = Y2 r) ->
  grad n k J1 Y1 z i = grad n k J2 Y2 z i.
Proof. intros HJ HY. unfold grad. apply Rsum_ext. intros r Hr. now rewrite (Jx_ext n k J1 J2), HY, HJ. Qed.

Lemma cost_ext n k J1 Y1 J2 Y2 z :
  (forall r c, (r < n)%nat -> J1 r c = J2 r c) -> (forall r, (r < n)%nat -> Y1 r = Y2 r) ->
  cost n k J1 Y1 z = cost n k J2 Y2 z.
Proof. intros HJ HY. unfold cost. apply Rsum_ext. intros r Hr. now rewrite (Jx_ext n k J1 J2), HY. Qed.

Lemma nM_ext n J1 J2 i j : (forall r c, (r < n)%nat -> J1 r c = J2 r c) -> nM n J1 i j = nM n J2 i j.
Proof. intros HJ. unfold nM. apply Rsum_ext. intros r Hr. now rewrite !HJ. Qed.

Lemma fmmul_R q A B i j : fmmul ROps q A B i j = Rsum q (fun l => A i l * B l j).
Proof. reflexivity. Qed.

Lemma fmmul_assoc p q (A B C : nat -> nat -> R) i j :
  Rsum p (fun l => Rsum q (fun m => A i m * B m l) * C l j) = Rsum q (fun m => A i m * Rsum p (fun l => B m l * C l j)).
Proof.
  rewrite (Rsum_ext p _ (fun l => Rsum q (fun m => A i m * B m l * C l j))) by (intros; now rewrite Rsum_scal_r).
  rewrite Rsum_swap. apply Rsum_ext. intros m _. rewrite <- Rsum_scal_l. apply Rsum_ext. intros; lra.
Qed.

(* determinant of a product, dimensions 2 and 3 (explicit sums) *)
Lemma fdet2_mul (A B : nat -> nat -> R) :
  fdet2 ROps (fun i j => Rsum 2 (fun l => A i l * B l j)) = fdet2 ROps A * fdet2 ROps B.
Proof. unfold fdet2. cbn [sumn]. rsimpl. ring. Qed.

Lemma fdet3_mul (A B : nat -> nat -> R) :
  fdet3 ROps (fun i j => Rsum 3 (fun l => A i l * B l j)) = fdet3 ROps A * fdet3 ROps B.
Proof. unfold fdet3. cbn [sumn]. rsimpl. ring. Qed.

Lemma fdet2_tr (A : nat -> nat -> R) : fdet2 ROps (fun i j => A j i) = fdet2 ROps A.
Proof. unfold fdet2. rsimpl. ring. Qed.
Lemma fdet3_tr (A : nat -> nat -> R) : fdet3 ROps (fun i j => A j i) = fdet3 ROps A.
Proof. unfold fdet3. rsimpl. ring. Qed.

Lemma fdet2_ext (A B : nat -> nat -> R) : (forall i j, (i < 2)%nat -> (j < 2)%nat -> A i j = B i j) -> fdet2 ROps A = fdet2 ROps B.
Proof. intros H. unfold fdet2. rewrite !H by lia. reflexivity. Qed.
Lemma fdet3_ext (A B : nat -> nat -> R) : (forall i j, (i < 3)%nat -> (j < 3)%nat -> A i j = B i j) -> fdet3 ROps A = fdet3 ROps B.
Proof. intros H. unfold fdet3. rewrite !H by lia. reflexivity. Qed.
