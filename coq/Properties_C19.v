(* Properties_C19.v — C19: shared variables, statistics and check-ups are safe under concurrent use (partial). *)
From Coq Require Import List String Bool.
From Romea Require Import Conc ConcSerial ConcModel ConcProofs.
From Romea.gen Require Import ConcFacts.
Import ListNotations.

(* Lock discipline implies data-race freedom, for ANY number of threads, each performing ANY sequence of operations
   of the class, in EVERY interleaving (small-step semantics at access granularity). *)
Theorem C19_well_locked_no_race : forall c progs, class_ok c = true -> (forall l, In l progs -> thread_of c l) ->
  forall st, reach {| holder := None; todo := progs |} st -> ~ race st.
Proof.
  intros c progs Hok Hth. apply well_locked_no_race. intros l Hl. exact (thread_guarded c l Hok (Hth l Hl)).
Qed.
Print Assumptions C19_well_locked_no_race.

(* Generated obligation, re-proved on every run against the facts regenerated from the current sources: every
   operation named by the property, of every class, keeps all plain shared accesses inside the critical section. *)
Theorem C19_all_classes_well_locked : forallb class_ok all_classes = true.
Proof. vm_compute. reflexivity. Qed.

Theorem C19_no_race_in_any_class : forall c, In c all_classes -> forall progs, (forall l, In l progs -> thread_of c l) ->
  forall st, reach {| holder := None; todo := progs |} st -> ~ race st.
Proof.
  intros c Hc progs. apply C19_well_locked_no_race. exact (proj1 (forallb_forall _ _) C19_all_classes_well_locked c Hc).
Qed.
Print Assumptions C19_no_race_in_any_class.

Theorem C19_shared_variable_loads_last_store : forall (V : Type) (pre : list (svop (V:=V))) s,
  sv_run s (pre ++ [SvLoad]) = sv_run s pre ++ [Some (last_store s pre)].
Proof.
  intros V. induction pre as [|o pre IH]; intros s; cbn; [reflexivity|]. destruct o as [v|]; cbn; rewrite IH; reflexivity.
Qed.

Theorem C19_shared_variable_reads_a_stored_value : forall (V : Type) (ops : list (svop (V:=V))) s x,
  In (Some x) (sv_run s ops) -> x = s \/ In x (stores_sv ops).
Proof.
  intros V. induction ops as [|o ops IH]; intros s x H; cbn in *; [contradiction|]. destruct o as [v|]; cbn in H.
  - destruct H as [H|H]; [discriminate|]. destruct (IH v x H) as [->|H']; [right; left; reflexivity|right; right; exact H'].
  - destruct H as [H|H]; [left; congruence|]. exact (IH s x H).
Qed.

Theorem C19_optional_exactly_once_in_order : forall (V : Type) (ops : list (soop (V:=V))), NoDup (stores ops) ->
  subseq (consumed (so_run None ops)) (stores ops) /\ NoDup (consumed (so_run None ops)).
Proof.
  intros V ops N. pose proof (so_consumed_subseq ops None) as S. split; [exact S|exact (subseq_nodup _ _ S N)].
Qed.
Print Assumptions C19_optional_exactly_once_in_order.

(* Serialisability at critical-section granularity: while a thread holds the lock NO other thread can take any step
   (each of its pending actions is a Lock or lies inside a section it does not own), so every execution trace of a
   well-locked class is a sequence of uninterrupted critical sections — the interleaved run IS a sequential ordering of
   the calls, in lock-acquisition order ([serial_trace]; actions carry no values, so nothing is said about values). *)
Theorem C19_only_the_holder_moves : forall st t a st', inv st -> lstep st (t, a) st' ->
  match holder st with Some h => h = t /\ a <> Lock | None => a = Lock end.
Proof.
  intros st t a st' I S. inversion S as [t0 r st0 H Hh|t0 r st0 H Hh|t0 f r st0 H|t0 f r st0 H]; subst.
  - rewrite Hh. reflexivity.
  - rewrite Hh. split; [reflexivity|discriminate].
  - rewrite (access_holds _ _ _ _ _ I H eq_refl). split; [reflexivity|discriminate].
  - rewrite (access_holds _ _ _ _ _ I H eq_refl). split; [reflexivity|discriminate].
Qed.

Theorem C19_well_locked_traces_serial : forall c progs, class_ok c = true -> (forall l, In l progs -> thread_of c l) ->
  forall tr st, run {| holder := None; todo := progs |} tr st -> serial_trace None tr = true.
Proof.
  intros c progs Hok Hth tr st. apply (run_serial {| holder := None; todo := progs |}).
  apply inv_init. intros l Hl. exact (thread_guarded c l Hok (Hth l Hl)).
Qed.
Print Assumptions C19_well_locked_traces_serial.

Theorem C19_every_class_runs_serially : forall c, In c all_classes -> forall progs, (forall l, In l progs -> thread_of c l) ->
  forall tr st, run {| holder := None; todo := progs |} tr st -> serial_trace None tr = true.
Proof.
  intros c Hc progs. apply C19_well_locked_traces_serial. exact (proj1 (forallb_forall _ _) C19_all_classes_well_locked c Hc).
Qed.

(* NOT PROVED: the C++ memory model (std::mutex is assumed to give mutual exclusion and happens-before, atomics to be
   sequentially consistent), the fidelity of the AST analysis (cross-validated by ThreadSanitizer on every run), and
   operations that are not a single critical section at this level of abstraction (an operation whose body is empty
   here — RateMonitoring::getRate reads an atomic — is treated as an atomic read).  The serial specifications above and
   C18_report_consistent apply to the serial order given by C19_well_locked_traces_serial. *)

Example C19_ex_thread : thread_of cls_SharedVariable_int ([Lock; Wr 0; Unlock] ++ [Lock; Rd 0; Unlock] ++ []).
Proof. apply (t_call _ "store"%string); [cbn; auto|]. apply (t_call _ "load"%string); [cbn; auto|]. constructor. Qed.
