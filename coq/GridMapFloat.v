(* GridMapFloat.v — the rounding model of all the *Float.v files (the dictionary FlOps and, before Section Analysis, what
   one rounding does in any format: monotone, exact on the format, its error, which numbers are representable), and
   C13 at the floating-point level (IEEE-754 binary64 and binary32).
   The SAME generic model (GridMapModel.v) is instantiated at a dictionary [FlOps prec emin : NumOps R] whose
   arithmetic operations are the real operations followed by ONE rounding to nearest-even in the format with [prec]
   significand bits and smallest exponent [emin] (Flocq: [round radix2 (FLT_exp emin prec) ZnearestE]);
   floor/ceil/truncation of a floating-point number are exact.
     binary64 = FlOps 53 (-1074)  (B64Ops),   binary32 = FlOps 24 (-149)  (B32Ops).
   The format has no largest exponent: the no-overflow theorems show that on the stated domains every intermediate
   stays far below the overflow threshold, so the unbounded-exponent model coincides with IEEE-754 there.
   The error analysis is done once, for any precision, with K = 2^eK the largest allowed |lo/r|, |hi/r| and
   kap = 2^-prec * K <= 1/16 the resulting relative error scale (2^-13 for binary64 with K = 2^40,
   2^-4 for binary32 with K = 2^20). *)
From Coq Require Import Reals ZArith List Lra Lia.
From Flocq Require Import Core Relative.
From Romea Require Import Num NumR GridMapModel.
Local Open Scope R_scope.

Lemma div_le_l a b c : 0 < c -> a <= b * c -> a / c <= b.
Proof.
  intros Hc H. apply Rmult_le_reg_r with c; [exact Hc|].
  unfold Rdiv. rewrite Rmult_assoc, Rinv_l by lra. lra.
Qed.

Lemma div_ge_l a b c : 0 < c -> b * c <= a -> b <= a / c.
Proof.
  intros Hc H. apply Rmult_le_reg_r with c; [exact Hc|].
  unfold Rdiv. rewrite Rmult_assoc, Rinv_l by lra. lra.
Qed.

Lemma Rabs_div_le x c B : 0 < c -> Rabs x <= B * c -> Rabs (x / c) <= B.
Proof.
  intros Hc H. apply Rabs_le_inv in H. apply Rabs_le. split; [apply div_ge_l|apply div_le_l]; lra.
Qed.

Section Format.
Variables prec emin : Z.
Context {prec_gt_0_ : Prec_gt_0 prec}.

Definition frnd (x : R) : R := round radix2 (FLT_exp emin prec) ZnearestE x.
Definition ffmt (x : R) : Prop := generic_format radix2 (FLT_exp emin prec) x.

Definition fl_add (a b : R) : R := frnd (a + b).
Definition fl_sub (a b : R) : R := frnd (a - b).
Definition fl_mul (a b : R) : R := frnd (a * b).
Definition fl_div (a b : R) : R := frnd (a / b).

(* the numeric dictionary: +,-,*,/ and integer->float round once; negation, |.|, floor, ceil, truncation and the
   comparisons are exact on floating-point numbers; the transcendental entries (not used by the grid model) are
   idealised as correctly rounded *)
Definition FlOps : NumOps R := {|
  nzero := 0; n_one := 1;
  nadd := fl_add; nsub := fl_sub; nmul := fl_mul; ndiv := fl_div;
  nneg := Ropp; nabs := Rabs; nsqrt := fun x => frnd (sqrt x);
  nsin := fun x => frnd (sin x); ncos := fun x => frnd (cos x); ntan := fun x => frnd (sin x / cos x);
  natan := fun x => frnd (atan x); nasin := fun x => frnd (asin x); nacos := fun x => frnd (acos x);
  nexp := fun x => frnd (exp x); nln := fun x => frnd (ln x);
  natan2 := fun y x => frnd (Ratan2 y x); npow := fun x y => frnd (Rpower x y); nfmod := Rfmod;
  nfloor := fun x => IZR (Zfloor x); nceil := fun x => IZR (Zceil x);
  ntruncZ := Ztrunc; nofZ := fun k => frnd (IZR k);
  nofDec := fun m e => frnd (IZR m * powerRZ 10 e);
  npi := frnd PI;
  nmaxval := (1 - bpow radix2 (- prec)) * bpow radix2 (3 - emin - prec);
  nminpos := bpow radix2 (emin + prec - 1);
  nepsilon := bpow radix2 (1 - prec);
  nltb := Rltb; nleb := Rleb; neqb := Reqb
|}.

Definition fl_F (r lo : R) : Z := Zfloor (fl_div lo r).     (* floor(lower / r), as an integer *)
Definition fl_C (r hi : R) : Z := Zceil (fl_div hi r).      (* ceil(upper / r) *)

Local Notation rnd := frnd.
Local Notation fmt := ffmt.
Local Notation Ops := FlOps.

Definition fl_u : R := bpow radix2 (- prec).          (* the unit roundoff *)
Definition fl_eta : R := bpow radix2 (emin - 1).      (* half the smallest subnormal *)
Local Notation u := fl_u.
Local Notation eta := fl_eta.

Lemma u_val : / 2 * bpow radix2 (- prec + 1) = u.
Proof.
  unfold fl_u. change (/ 2) with (bpow radix2 (-1)). rewrite <- bpow_plus. f_equal. lia.
Qed.

Lemma eta_val : / 2 * bpow radix2 emin = eta.
Proof.
  unfold fl_eta. change (/ 2) with (bpow radix2 (-1)). rewrite <- bpow_plus. f_equal. lia.
Qed.

Lemma u_pos : 0 < u.
Proof. apply bpow_gt_0. Qed.

Lemma eta_pos : 0 < eta.
Proof. apply bpow_gt_0. Qed.

Lemma rnd_le x y : x <= y -> rnd x <= rnd y.
Proof. unfold frnd. apply round_le; auto with typeclass_instances. Qed.

Lemma rnd_id x : fmt x -> rnd x = x.
Proof. unfold frnd, ffmt. apply round_generic; auto with typeclass_instances. Qed.

Lemma fmt_rnd x : fmt (rnd x).
Proof. unfold frnd, ffmt. apply generic_format_round; auto with typeclass_instances. Qed.

Lemma rnd_0 : rnd 0 = 0.
Proof. unfold frnd. apply round_0. auto with typeclass_instances. Qed.

Lemma rnd_le_fmt x y : fmt y -> x <= y -> rnd x <= y.
Proof. intros Fy H. rewrite <- (rnd_id y Fy). apply rnd_le, H. Qed.

Lemma rnd_ge_fmt x y : fmt y -> y <= x -> y <= rnd x.
Proof. intros Fy H. rewrite <- (rnd_id y Fy). apply rnd_le, H. Qed.

Lemma rnd_abs_le x y : fmt y -> Rabs x <= y -> Rabs (rnd x) <= y.
Proof. unfold frnd, ffmt. apply abs_round_le_generic; auto with typeclass_instances. Qed.

Lemma rnd_abs_ge x y : fmt y -> y <= Rabs x -> y <= Rabs (rnd x).
Proof. unfold frnd, ffmt. apply abs_round_ge_generic; auto with typeclass_instances. Qed.

Lemma rnd_err x : Rabs (rnd x - x) <= u * Rabs x + eta.
Proof.
  destruct (error_N_FLT radix2 emin prec prec_gt_0_ (fun z => negb (Z.even z)) x) as (eps & et & He & Ht & _ & Hx).
  rewrite u_val in He. rewrite eta_val in Ht.
  assert (Hx' : rnd x = x * (1 + eps) + et) by exact Hx. rewrite Hx'.
  replace (x * (1 + eps) + et - x) with (x * eps + et) by ring.
  eapply Rle_trans; [apply Rabs_triang|]. rewrite Rabs_mult.
  pose proof (Rabs_pos x). nra.
Qed.

Lemma err_bound x B : Rabs x <= B -> - (u * B + eta) <= rnd x - x <= u * B + eta.
Proof.
  intros H. pose proof (rnd_err x) as E. apply Rabs_le_inv.
  eapply Rle_trans; [exact E|]. pose proof u_pos. nra.
Qed.

(* one more rounding: if z is within D of a target t, then rnd z is within D + u (|t| + D) + eta of it *)
Lemma rnd_err_step z t M D : Rabs t <= M -> Rabs (z - t) <= D -> Rabs (rnd z - t) <= D + (u * (M + D) + eta).
Proof.
  intros Ht Hz. apply Rabs_le_inv in Ht, Hz.
  assert (Hb : Rabs z <= M + D) by (apply Rabs_le; lra).
  apply err_bound in Hb. apply Rabs_le. lra.
Qed.

Lemma rnd_rel x : x = 0 \/ bpow radix2 (emin + prec - 1) <= Rabs x -> Rabs (rnd x - x) <= u * Rabs x.
Proof.
  intros [->|H].
  - rewrite rnd_0, Rminus_0_r, Rabs_R0. lra.
  - rewrite <- u_val. exact (relative_error_N_FLT radix2 emin prec prec_gt_0_ (fun z => negb (Z.even z)) x H).
Qed.

Lemma rnd_rel_ex x : bpow radix2 (emin + prec - 1) <= Rabs x -> exists e, Rabs e <= u /\ rnd x = x * (1 + e).
Proof.
  intros H. rewrite <- u_val. exact (relative_error_N_FLT_ex radix2 emin prec prec_gt_0_ (fun z => negb (Z.even z)) x H).
Qed.

Lemma div_err_bound r x B : 0 < r -> Rabs x <= B ->
  - (u * B + eta * r) <= r * rnd (x / r) - x <= u * B + eta * r.
Proof.
  intros Hr H. assert (Hq : Rabs (x / r) <= B / r).
  { apply Rabs_div_le; [exact Hr|]. replace (B / r * r) with B by (field; lra). exact H. }
  pose proof (err_bound _ _ Hq) as E.
  replace (r * rnd (x / r) - x) with (r * (rnd (x / r) - x / r)) by (field; lra).
  replace (u * B + eta * r) with (r * (u * (B / r) + eta)) by (field; lra).
  split; [rewrite Ropp_mult_distr_r|]; apply Rmult_le_compat_l; lra.
Qed.

Lemma fmt_dyadic x m e : x = IZR m * bpow radix2 e -> (Z.abs m < 2 ^ prec)%Z -> (emin <= e)%Z -> fmt x.
Proof.
  intros Hx Hm He. rewrite Hx. apply generic_format_FLT.
  exists (Float radix2 m e); [reflexivity|exact Hm|exact He].
Qed.

Lemma rnd_dyadic x m e : x = IZR m * bpow radix2 e -> (Z.abs m < 2 ^ prec)%Z -> (emin <= e)%Z -> rnd x = x.
Proof. intros Hx Hm He. apply rnd_id. exact (fmt_dyadic x m e Hx Hm He). Qed.

Lemma fmt_bpow e : (emin <= e)%Z -> fmt (bpow radix2 e).
Proof. apply generic_format_FLT_bpow, prec_gt_0_. Qed.

Lemma fmt_double x : fmt x -> fmt (2 * x).
Proof.
  unfold ffmt. intros F. apply FLT_format_generic in F; [|exact prec_gt_0_].
  destruct F as [f Hx Hm He]. apply generic_format_FLT.
  exists (Float radix2 (Fnum f) (Fexp f + 1)); [|exact Hm|cbn [Fexp]; lia].
  rewrite Hx. unfold F2R. cbn [Fnum Fexp]. rewrite bpow_plus. change (bpow radix2 1) with 2. ring.
Qed.

Lemma fmt_int k : (emin <= 0)%Z -> (Z.abs k < 2 ^ prec)%Z -> fmt (IZR k).
Proof. intros He H. apply (fmt_dyadic _ k 0); [simpl; ring|exact H|exact He]. Qed.

Lemma fmt_int_half k : (emin <= -1)%Z -> (Z.abs (2 * k + 1) < 2 ^ prec)%Z -> fmt (IZR k + 1 / 2).
Proof.
  intros He H. apply (fmt_dyadic _ (2 * k + 1) (-1)); [|exact H|exact He].
  change (bpow radix2 (-1)) with (/ 2). rewrite plus_IZR, mult_IZR. lra.
Qed.

Lemma fmt_int_mhalf k : (emin <= -1)%Z -> (Z.abs (2 * k - 1) < 2 ^ prec)%Z -> fmt (IZR k - 1 / 2).
Proof.
  intros He H. replace (IZR k - 1 / 2) with (IZR (k - 1) + 1 / 2) by (rewrite minus_IZR; lra).
  apply fmt_int_half; [exact He|]. replace (2 * (k - 1) + 1)%Z with (2 * k - 1)%Z by lia. exact H.
Qed.

Lemma cexp_binade x e : bpow radix2 (e - 1) <= Rabs x < bpow radix2 e -> (emin <= e - prec)%Z ->
  cexp radix2 (FLT_exp emin prec) x = (e - prec)%Z.
Proof. intros H He. unfold cexp. rewrite (mag_unique radix2 x e H). unfold FLT_exp. lia. Qed.

Lemma ulp_binade x e : bpow radix2 (e - 1) <= Rabs x < bpow radix2 e -> (emin <= e - prec)%Z ->
  ulp radix2 (FLT_exp emin prec) x = bpow radix2 (e - prec).
Proof.
  intros H He. rewrite ulp_neq_0.
  - f_equal. apply cexp_binade; assumption.
  - intros ->. rewrite Rabs_R0 in H. pose proof (bpow_gt_0 radix2 (e - 1)). lra.
Qed.

(* x within half a unit in the last place of m * 2^e (and in that binade) rounds to it *)
Lemma rnd_near x m e : bpow radix2 (e + prec - 1) <= Rabs x < bpow radix2 (e + prec) -> (emin <= e)%Z ->
  Rabs (x * bpow radix2 (- e) - IZR m) < / 2 -> rnd x = IZR m * bpow radix2 e.
Proof.
  intros H He Hm. unfold frnd, round, F2R, scaled_mantissa. cbn [Fnum Fexp].
  rewrite (cexp_binade x (e + prec) H) by lia. replace (e + prec - prec)%Z with e by lia.
  rewrite (Znearest_imp _ _ m Hm). reflexivity.
Qed.

(* everything strictly between the two midpoints around 1 rounds to 1 *)
Lemma rnd_to_1 v : (emin <= - prec)%Z -> 1 - u / 2 < v < 1 + u -> rnd v = 1.
Proof.
  intros He [L U]. pose proof prec_gt_0_ as Hp. unfold Prec_gt_0 in Hp.
  assert (F1 : fmt 1) by (apply (fmt_bpow 0); lia).
  assert (S1 : succ radix2 (FLT_exp emin prec) 1 = 1 + 2 * u).
  { rewrite succ_eq_pos by lra. f_equal. rewrite (ulp_bpow radix2 _ 0). unfold fl_u.
    replace (FLT_exp emin prec (0 + 1)) with (1 + - prec)%Z by (unfold FLT_exp; lia). rewrite bpow_plus. reflexivity. }
  assert (P1 : pred radix2 (FLT_exp emin prec) 1 = 1 - u).
  { rewrite (pred_bpow radix2 _ 0). unfold fl_u. replace (FLT_exp emin prec 0) with (- prec)%Z by (unfold FLT_exp; lia).
    reflexivity. }
  apply Rle_antisym; unfold frnd.
  - apply round_N_le_midp; auto with typeclass_instances. rewrite S1. lra.
  - apply round_N_ge_midp; auto with typeclass_instances. rewrite P1. lra.
Qed.

Lemma pow_prec_ge n : (0 <= n <= prec)%Z -> (2 ^ n <= 2 ^ prec)%Z.
Proof. intros H. apply Z.pow_le_mono_r; lia. Qed.

Lemma nhalf_fl : (2 <= prec)%Z -> (emin <= -1)%Z -> nhalf Ops = 1 / 2.
Proof.
  intros Hp He. unfold nhalf, ntwo. cbn [ndiv nadd n_one FlOps]. unfold fl_div, fl_add.
  assert (4 <= 2 ^ prec)%Z by (apply (pow_prec_ge 2); lia).
  replace (1 + 1) with (IZR 2) by (simpl; lra). rewrite (rnd_id (IZR 2)) by (apply fmt_int; lia).
  replace (1 / IZR 2) with (IZR 0 + 1 / 2) by (simpl; lra). apply rnd_id. apply fmt_int_half; lia.
Qed.

(* the model, unfolded: one rounding per C++ operation, C++ evaluation order *)
Lemma origin_unf r lo : (2 <= prec)%Z -> (emin <= -1)%Z ->
  gm_origin Ops r lo = rnd (r * rnd (IZR (fl_F r lo) - 1 / 2)).
Proof. intros Hp He. unfold gm_origin. rewrite (nhalf_fl Hp He). reflexivity. Qed.

Lemma ncells_unf r lo hi :
  gm_ncells Ops r lo hi = Ztrunc (rnd (rnd (IZR (fl_C r hi) - IZR (fl_F r lo)) + 1)).
Proof. reflexivity. Qed.

Lemma index_unf0 r org p : gm_index Ops r org p = Ztrunc (rnd (rnd (p - org) / r)).
Proof. reflexivity. Qed.

Lemma centre_unf0 r org k : (2 <= prec)%Z -> (emin <= -1)%Z ->
  gm_centre Ops r org k = rnd (org + rnd (rnd (rnd (IZR k) + 1 / 2) * r)).
Proof. intros Hp He. unfold gm_centre. rewrite (nhalf_fl Hp He). reflexivity. Qed.

(* error analysis, any precision.  K = 2^eK bounds |lo/r| and |hi/r|;  2^elo <= r <= 2^ehi.
   eK + 4 <= prec makes kap <= 1/16; 10 <= eK lets the terms in u*r vanish against kap*r; emin + prec + 9 <= elo (and <= 0)
   puts the absolute error eta of a subnormal result below u*r/1024 (u/1024); 0 <= ehi is for the overflow bound *)
Definition fl_par (eK elo ehi : Z) : Prop :=
  (10 <= eK /\ eK + 4 <= prec /\ emin + prec + 9 <= 0 /\ emin + prec + 9 <= elo /\ 0 <= ehi)%Z.

Section Analysis.
Variables eK elo ehi : Z.
Hypothesis Hpar : fl_par eK elo ehi.

Definition fl_K : R := bpow radix2 eK.
Definition fl_kap : R := bpow radix2 (eK - prec).
Local Notation K := fl_K.
Local Notation kap := fl_kap.

Lemma fl_u_K : u * K = kap.
Proof. unfold fl_u, fl_K, fl_kap. rewrite <- bpow_plus. f_equal. lia. Qed.

Lemma kap_le : kap <= / 16.
Proof. unfold fl_par in Hpar. replace (/ 16) with (bpow radix2 (-4)) by (simpl; lra). apply bpow_le. lia. Qed.

Lemma kap_pos : 0 < kap.
Proof. apply bpow_gt_0. Qed.

Lemma fl_K_ge : 1024 <= K.
Proof. unfold fl_par in Hpar. replace 1024 with (bpow radix2 10) by (simpl; lra). apply bpow_le. lia. Qed.

Lemma u1024 : 1024 * u <= kap.
Proof. rewrite <- fl_u_K. pose proof fl_K_ge. pose proof u_pos. nra. Qed.

Lemma eta1024 : 1024 * eta <= u.
Proof.
  unfold fl_par in Hpar. replace 1024 with (bpow radix2 10) by (simpl; lra). unfold fl_eta, fl_u. rewrite <- bpow_plus.
  apply bpow_le. lia.
Qed.

Lemma fmt_K : fmt K.
Proof. unfold fl_par in Hpar. apply fmt_bpow. lia. Qed.

Lemma K_IZR : IZR (2 ^ eK) = K.
Proof. unfold fl_par in Hpar. unfold fl_K. rewrite <- (IZR_Zpower radix2) by lia. reflexivity. Qed.

Lemma pow_facts : (1024 <= 2 ^ eK)%Z /\ (16 * 2 ^ eK <= 2 ^ prec)%Z.
Proof.
  unfold fl_par in Hpar. split.
  - change 1024%Z with (2 ^ 10)%Z. apply Z.pow_le_mono_r; lia.
  - replace (16 * 2 ^ eK)%Z with (2 ^ (eK + 4))%Z by (rewrite Z.pow_add_r by lia; lia).
    apply Z.pow_le_mono_r; lia.
Qed.

Lemma box_R z : (- 2 ^ eK <= z <= 2 ^ eK)%Z -> - K <= IZR z <= K.
Proof. intros [H1 H2]. apply IZR_le in H1, H2. rewrite opp_IZR in H1. rewrite K_IZR in *. lra. Qed.

(* the domain: resolution between 2^elo and 2^ehi, both bounds at most K = 2^eK cells away from zero *)
Definition fl_domain (r lo hi : R) : Prop :=
  bpow radix2 elo <= r <= bpow radix2 ehi /\
  Rabs lo <= bpow radix2 eK * r /\ Rabs hi <= bpow radix2 eK * r.

(* the rounding slack of the centre statements: 16 u * max(|lo|,|hi|,r) + 16 u * r, i.e.
   8 eps * max(|lo|,|hi|,r) + 8 eps * r with eps = 2 u the machine epsilon: the tolerance of the oracle in checks/C13.py *)
Definition fl_tol (r lo hi : R) : R :=
  bpow radix2 (4 - prec) * Rmax (Rmax (Rabs lo) (Rabs hi)) r + bpow radix2 (4 - prec) * r.

Section Axis.
Variables r lo hi : R.
Hypothesis D : fl_domain r lo hi.

Local Notation A := (Rmax (Rabs lo) (Rabs hi)).
Local Notation F := (fl_F r lo).
Local Notation C := (fl_C r hi).
Local Notation ql := (rnd (lo / r)).
Local Notation qh := (rnd (hi / r)).
Local Notation org := (gm_origin Ops r lo).
Local Notation n := (gm_ncells Ops r lo hi).
Local Notation centre := (gm_centre Ops r org).

Lemma grid_r_pos : 0 < r.
Proof. eapply Rlt_le_trans; [apply (bpow_gt_0 radix2 elo)|apply D]. Qed.

Lemma eta_r : 1024 * eta <= u * r.
Proof.
  unfold fl_par in Hpar. apply Rle_trans with (u * bpow radix2 elo).
  - replace 1024 with (bpow radix2 10) by (simpl; lra). unfold fl_eta, fl_u. rewrite <- !bpow_plus.
    apply bpow_le. lia.
  - apply Rmult_le_compat_l; [left; exact u_pos|apply D].
Qed.

Lemma A_nonneg : 0 <= A.
Proof. eapply Rle_trans; [apply (Rabs_pos lo)|apply Rmax_l]. Qed.

Lemma lo_box : - A <= lo <= A.
Proof. apply Rabs_le_inv, Rmax_l. Qed.

Lemma hi_box : - A <= hi <= A.
Proof. apply Rabs_le_inv, Rmax_r. Qed.

Lemma A_le : A <= K * r.
Proof. apply Rmax_lub; apply D. Qed.

Lemma Kr_ge : 1024 * r <= K * r.
Proof. pose proof fl_K_ge. pose proof grid_r_pos. nra. Qed.

(* the error monomials against each other: eta and eta*r are below u*r/1024, u*A and 1024*u*r are below kap*r, and
   kap*r is at most r/16 *)
Lemma err_scales : 1024 * eta <= u * r /\ 1024 * (eta * r) <= u * r /\ 0 <= u * A <= kap * r /\
  0 < 1024 * (u * r) <= kap * r /\ 16 * (kap * r) <= r.
Proof.
  pose proof grid_r_pos as Hr. pose proof u_pos as Hu. pose proof A_le as HA. pose proof eta_r.
  assert (1024 * (eta * r) <= u * r) by (pose proof eta1024; nra).
  assert (0 <= u * A <= kap * r).
  { rewrite <- fl_u_K, Rmult_assoc. split; [apply Rmult_le_pos; [lra|exact A_nonneg]|apply Rmult_le_compat_l; lra]. }
  assert (0 < u * r) by (apply Rmult_lt_0_compat; assumption).
  assert (1024 * (u * r) <= kap * r) by (pose proof u1024; nra).
  assert (16 * (kap * r) <= r) by (pose proof kap_le; nra).
  repeat split; lra.
Qed.

Lemma r_floor x : r * IZR (Zfloor x) <= r * x < r * IZR (Zfloor x) + r.
Proof. pose proof grid_r_pos. pose proof (Zfloor_lb x). pose proof (Zfloor_ub x). nra. Qed.

Lemma r_ceil x : r * IZR (Zceil x) - r < r * x <= r * IZR (Zceil x).
Proof. pose proof grid_r_pos. pose proof (Zceil_ub x). pose proof (Zceil_lb x). nra. Qed.

Lemma r_cancel a b : r * a <= r * b -> a <= b.
Proof. apply Rmult_le_reg_l, grid_r_pos. Qed.

Lemma tol_ge c1 c2 : 0 <= c1 <= 16 -> 0 <= c2 <= 32 - c1 -> u * (c1 * A + c2 * r) <= fl_tol r lo hi.
Proof.
  intros H1 H2. unfold fl_tol. replace (bpow radix2 (4 - prec)) with (16 * u).
  2:{ unfold fl_u. replace (4 - prec)%Z with (4 + - prec)%Z by lia. rewrite bpow_plus. simpl. lra. }
  pose proof grid_r_pos as Hr. pose proof A_nonneg as HA. pose proof u_pos.
  pose proof (Rmax_l A r) as M1. pose proof (Rmax_r A r) as M2. set (M := Rmax A r) in *.
  assert (c1 * A + c2 * r <= 16 * M + 16 * r); [|nra].
  destruct (Rle_or_lt A r); nra.
Qed.

Lemma quot_abs x : Rabs x <= A -> Rabs (rnd (x / r)) <= K.
Proof.
  intros Hx. apply rnd_abs_le; [exact fmt_K|]. apply Rabs_div_le; [exact grid_r_pos|].
  exact (Rle_trans _ _ _ Hx A_le).
Qed.

Lemma F_box : (- 2 ^ eK <= F <= 2 ^ eK)%Z.
Proof.
  pose proof (quot_abs lo (Rmax_l _ _)) as H. apply Rabs_le_inv in H. rewrite <- K_IZR in H. unfold fl_F, fl_div. split.
  - apply Zfloor_lub. rewrite opp_IZR. lra.
  - apply le_IZR. pose proof (Zfloor_lb ql). lra.
Qed.

Lemma C_box : (- 2 ^ eK <= C <= 2 ^ eK)%Z.
Proof.
  pose proof (quot_abs hi (Rmax_r _ _)) as H. apply Rabs_le_inv in H. rewrite <- K_IZR in H. unfold fl_C, fl_div. split.
  - apply le_IZR. pose proof (Zceil_ub qh). rewrite opp_IZR. lra.
  - apply Zceil_glb. lra.
Qed.

Lemma F_le_C : lo <= hi -> (F <= C)%Z.
Proof.
  intros Hlh. unfold fl_F, fl_C, fl_div. apply le_IZR.
  pose proof (Zfloor_lb ql). pose proof (Zceil_ub qh).
  assert (ql <= qh); [|lra]. apply rnd_le. pose proof grid_r_pos.
  apply Rmult_le_compat_r; [left; apply Rinv_0_lt_compat; assumption|exact Hlh].
Qed.

(* r*F and r*C against the bounds *)
Lemma rF_bounds : lo - (u * A + eta * r) - r <= r * IZR F <= lo + (u * A + eta * r).
Proof.
  pose proof (div_err_bound r lo A grid_r_pos (Rmax_l _ _)). pose proof (r_floor ql). unfold fl_F, fl_div. lra.
Qed.

Lemma rC_bounds : hi - (u * A + eta * r) <= r * IZR C <= hi + (u * A + eta * r) + r.
Proof.
  pose proof (div_err_bound r hi A grid_r_pos (Rmax_r _ _)). pose proof (r_ceil qh). unfold fl_C, fl_div. lra.
Qed.

(* floor(lo/r) - 0.5 is computed exactly *)
Lemma Fh_exact : rnd (IZR F - 1 / 2) = IZR F - 1 / 2.
Proof. unfold fl_par in Hpar. pose proof F_box. pose proof pow_facts. apply rnd_id, fmt_int_mhalf; lia. Qed.

Lemma org_unf : org = rnd (r * (IZR F - 1 / 2)).
Proof. unfold fl_par in Hpar. rewrite origin_unf, Fh_exact by lia. reflexivity. Qed.

Lemma org_err :
  - (u * (A + 2 * r) + eta) <= org - (r * IZR F - r / 2) <= u * (A + 2 * r) + eta.
Proof.
  pose proof err_scales. pose proof lo_box.
  rewrite org_unf.
  replace (r * IZR F - r / 2) with (r * (IZR F - 1 / 2)) by field.
  apply err_bound. pose proof rF_bounds. apply Rabs_le. split; lra.
Qed.

(* magnitudes: every exact result is at most 2^(ehi + eK + 2) *)
Lemma sum_no_overflow x : Rabs x <= 2 * A + 5 * r -> Rabs x <= bpow radix2 (ehi + eK + 2).
Proof.
  intros H. eapply Rle_trans; [exact H|].
  replace (ehi + eK + 2)%Z with (2 + eK + ehi)%Z by lia. rewrite !bpow_plus.
  replace (bpow radix2 2) with 4 by (simpl; lra). fold K.
  pose proof grid_r_pos. pose proof fl_K_ge. pose proof A_le. pose proof Kr_ge.
  assert (K * r <= K * bpow radix2 ehi) by (apply Rmult_le_compat_l; [lra|apply D]).
  lra.
Qed.

Lemma ratio_no_overflow x : Rabs x <= 4 * K -> Rabs x <= bpow radix2 (ehi + eK + 2).
Proof.
  unfold fl_par in Hpar. intros H. eapply Rle_trans; [exact H|].
  replace (4 * K) with (bpow radix2 (eK + 2)).
  - apply bpow_le. lia.
  - rewrite bpow_plus. fold K. simpl. lra.
Qed.

Lemma ratio_bound x : Rabs x <= 2 * A + 5 * r -> Rabs (x / r) <= 4 * K.
Proof.
  intros H. apply Rabs_div_le; [exact grid_r_pos|]. pose proof grid_r_pos. pose proof A_le. pose proof Kr_ge. lra.
Qed.

(* the cell count is computed exactly *)
Theorem ncells_gen : n = (C - F + 1)%Z.
Proof.
  unfold fl_par in Hpar. rewrite ncells_unf. pose proof F_box. pose proof C_box. pose proof pow_facts.
  rewrite <- minus_IZR, (rnd_id (IZR (C - F))) by (apply fmt_int; lia).
  rewrite <- (plus_IZR _ 1), (rnd_id (IZR (C - F + 1))) by (apply fmt_int; lia).
  apply Ztrunc_IZR.
Qed.

Theorem ncells_positive_gen : lo <= hi -> (1 <= n)%Z.
Proof. intros Hlh. rewrite ncells_gen. pose proof (F_le_C Hlh). lia. Qed.

Section Centre.
Variable k : Z.
Hypothesis Hk : (0 <= k < n)%Z.

Local Notation m := (rnd ((IZR k + 1 / 2) * r)).
Local Notation c := (centre k).

Lemma centre_k_box : (0 <= k <= C - F)%Z.
Proof. pose proof Hk as H. rewrite ncells_gen in H. lia. Qed.

Lemma kh_exact : rnd (rnd (IZR k) + 1 / 2) = IZR k + 1 / 2.
Proof.
  unfold fl_par in Hpar. pose proof centre_k_box. pose proof F_box. pose proof C_box. pose proof pow_facts.
  rewrite (rnd_id (IZR k)) by (apply fmt_int; lia). apply rnd_id, fmt_int_half; lia.
Qed.

Lemma rk_bounds : 0 <= r * IZR k <= r * IZR C - r * IZR F.
Proof.
  pose proof grid_r_pos as Hr. destruct centre_k_box as [H0 H1]. apply IZR_le in H0, H1. rewrite minus_IZR in H1. split.
  - apply Rmult_le_pos; lra.
  - replace (r * IZR C - r * IZR F) with (r * (IZR C - IZR F)) by ring. apply Rmult_le_compat_l; lra.
Qed.

Lemma centre_mul_err :
  - (u * (2 * A + 3 * r) + eta) <= m - (r * IZR k + r / 2) <= u * (2 * A + 3 * r) + eta.
Proof.
  pose proof err_scales. pose proof lo_box. pose proof hi_box.
  replace (r * IZR k + r / 2) with ((IZR k + 1 / 2) * r) by field.
  apply err_bound. pose proof rk_bounds. pose proof rF_bounds. pose proof rC_bounds.
  apply Rabs_le. split; lra.
Qed.

Lemma centre_unf : c = rnd (org + m).
Proof. unfold fl_par in Hpar. rewrite centre_unf0, kh_exact by lia. reflexivity. Qed.

Lemma centre_add_err : - (u * (A + 2 * r) + eta) <= c - (org + m) <= u * (A + 2 * r) + eta.
Proof.
  pose proof err_scales. pose proof lo_box. pose proof hi_box.
  rewrite centre_unf. apply err_bound.
  pose proof rk_bounds. pose proof rF_bounds. pose proof rC_bounds. pose proof org_err. pose proof centre_mul_err.
  apply Rabs_le. split; lra.
Qed.

(* centre(k) against the exact value org + (k + 1/2) r *)
Lemma centre_err :
  - (u * (3 * A + 5 * r) + 2 * eta) <= c - (org + r * IZR k + r / 2) <= u * (3 * A + 5 * r) + 2 * eta.
Proof. pose proof centre_mul_err. pose proof centre_add_err. split; lra. Qed.

(* centre -> index -> centre: the quotient stays 1/2 - 15/2 kap away from the integers *)
Lemma centre_quot :
  IZR k + 1 / 2 - 15 / 2 * kap <= rnd (rnd (c - org) / r) <= IZR k + 1 / 2 + 15 / 2 * kap.
Proof.
  pose proof err_scales. pose proof lo_box. pose proof hi_box.
  pose proof rk_bounds as Rk. pose proof rF_bounds as RF. pose proof rC_bounds as RC. pose proof centre_err as CE.
  assert (Bd : Rabs (c - org) <= 2 * A + 4 * r) by (apply Rabs_le; split; lra).
  pose proof (err_bound _ _ Bd) as E.
  assert (Bq : Rabs (rnd (c - org)) <= 2 * A + 5 * r) by (apply Rabs_le; split; lra).
  pose proof (div_err_bound r _ _ grid_r_pos Bq) as Q.
  split; apply r_cancel.
  - replace (r * (IZR k + 1 / 2 - 15 / 2 * kap)) with (r * IZR k + r / 2 - 15 / 2 * (kap * r)) by field. lra.
  - replace (r * (IZR k + 1 / 2 + 15 / 2 * kap)) with (r * IZR k + r / 2 + 15 / 2 * (kap * r)) by field. lra.
Qed.

Theorem centre_index_gen : gm_index Ops r org c = k.
Proof.
  rewrite index_unf0. pose proof centre_quot as [Q1 Q2]. pose proof kap_le. pose proof kap_pos.
  assert (0 <= IZR k) by (apply IZR_le; lia).
  rewrite Ztrunc_floor by lra. apply Zfloor_imp. rewrite plus_IZR. lra.
Qed.

End Centre.

(* consecutive centres are r apart up to four roundings *)
Theorem centres_spaced_gen k : (0 <= k)%Z -> (k + 1 < n)%Z ->
  Rabs (centre (k + 1) - centre k - r) <= fl_tol r lo hi.
Proof.
  pose proof err_scales.
  intros Hk0 Hk1.
  pose proof (centre_err k ltac:(lia)) as E1. pose proof (centre_err (k + 1) ltac:(lia)) as E2.
  rewrite plus_IZR in E2.
  apply Rle_trans with (u * (6 * A + 11 * r)); [|apply tol_ge; lra].
  pose proof u_pos. apply Rabs_le. split; lra.
Qed.

(* the first and last cells cover the bounds: no slack needed *)
Theorem cover_gen : lo <= hi -> centre 0 - r / 2 <= lo /\ hi <= centre (n - 1) + r / 2.
Proof.
  pose proof err_scales.
  intros Hlh. pose proof (ncells_positive_gen Hlh). pose proof org_err. pose proof rF_bounds. pose proof rC_bounds.
  pose proof (centre_err 0 ltac:(lia)) as E0. pose proof (centre_err (n - 1) ltac:(lia)) as E1.
  replace (IZR (n - 1)) with (IZR C - IZR F) in E1 by (rewrite ncells_gen, <- minus_IZR; f_equal; lia).
  replace (r * (IZR C - IZR F)) with (r * IZR C - r * IZR F) in E1 by ring.
  replace (r * IZR 0) with 0 in E0 by (simpl; ring). split; lra.
Qed.

Section Point.
Variable p : R.
Hypothesis Hp : lo <= p <= hi.

Local Notation d := (rnd (p - org)).
Local Notation q := (rnd (d / r)).

Lemma point_sub_err : - (u * (2 * A + 3 * r) + eta) <= d - (p - org) <= u * (2 * A + 3 * r) + eta.
Proof.
  pose proof err_scales. pose proof lo_box. pose proof hi_box.
  apply err_bound. pose proof rF_bounds. pose proof org_err. apply Rabs_le. split; lra.
Qed.

Lemma point_div_err : - (u * (2 * A + 4 * r) + eta * r) <= r * q - d <= u * (2 * A + 4 * r) + eta * r.
Proof.
  pose proof err_scales. pose proof lo_box. pose proof hi_box.
  apply div_err_bound; [exact grid_r_pos|].
  pose proof rF_bounds. pose proof org_err. pose proof point_sub_err. apply Rabs_le. split; lra.
Qed.

(* r*q against the exact value p - r*F + r/2: three roundings *)
Lemma rq_err :
  - (u * (5 * A + 9 * r) + 2 * eta + eta * r) <= r * q - (p - r * IZR F + r / 2)
    <= u * (5 * A + 9 * r) + 2 * eta + eta * r.
Proof. pose proof org_err. pose proof point_sub_err. pose proof point_div_err. split; lra. Qed.

(* the half-cell margin of the real-number analysis survives rounding, reduced by 7 kap *)
Theorem margin_gen : 1 / 2 - 7 * kap <= q <= IZR n - 1 / 2 + 7 * kap.
Proof.
  pose proof err_scales.
  rewrite ncells_gen, plus_IZR, minus_IZR.
  pose proof rq_err. pose proof rF_bounds. pose proof rC_bounds. split; apply r_cancel.
  - replace (r * (1 / 2 - 7 * kap)) with (r / 2 - 7 * (kap * r)) by field. lra.
  - replace (r * (IZR C - IZR F + 1 / 2 + 7 * kap)) with (r * IZR C - r * IZR F + r / 2 + 7 * (kap * r)) by field. lra.
Qed.

Lemma index_unf : gm_index Ops r org p = Zfloor q.
Proof. rewrite index_unf0. apply Ztrunc_floor. pose proof margin_gen. pose proof kap_le. lra. Qed.

Theorem index_in_bounds_gen : (0 <= gm_index Ops r org p < n)%Z.
Proof.
  rewrite index_unf. pose proof margin_gen as [Q1 Q2]. pose proof kap_le. split.
  - apply Zfloor_lub. lra.
  - apply lt_IZR. pose proof (Zfloor_lb q). lra.
Qed.

Lemma point_near_centre_fl :
  Rabs (p - centre (gm_index Ops r org p)) <= r / 2 + u * (9 * A + 17 * r).
Proof.
  pose proof err_scales.
  pose proof (centre_err _ index_in_bounds_gen) as CE. revert CE. rewrite index_unf.
  intros CE. pose proof rq_err. pose proof org_err. pose proof (r_floor q).
  apply Rabs_le. split; lra.
Qed.

Theorem point_near_centre_gen : Rabs (p - centre (gm_index Ops r org p)) <= r / 2 + fl_tol r lo hi.
Proof.
  eapply Rle_trans; [exact point_near_centre_fl|]. apply Rplus_le_compat_l. apply tol_ge; lra.
Qed.

(* the same in relative terms *)
Theorem point_near_centre_rel_gen : Rabs (p - centre (gm_index Ops r org p)) <= r / 2 + 10 * kap * r.
Proof. pose proof err_scales. eapply Rle_trans; [exact point_near_centre_fl|]. lra. Qed.

End Point.

(* no overflow: the exact result of every arithmetic operation of the constructor, of computeCellIndexes(p), of the
   centre table entry k and of computeCellIndexes(centre k) is at most 2^(ehi+eK+2) in magnitude *)
Theorem no_overflow_gen p k : lo <= p <= hi -> (0 <= k < n)%Z ->
  let F := fl_F r lo in let C := fl_C r hi in
  let m := rnd ((IZR k + 1 / 2) * r) in let c := centre k in
  Forall (fun x => Rabs x <= bpow radix2 (ehi + eK + 2))
    (lo / r :: hi / r :: IZR F - 1 / 2 :: r * (IZR F - 1 / 2) :: IZR C - IZR F :: IZR (C - F) + 1 ::
     p - org :: rnd (p - org) / r ::
     IZR k + 1 / 2 :: (IZR k + 1 / 2) * r :: org + m :: c - org :: rnd (c - org) / r :: nil).
Proof.
  pose proof err_scales. pose proof lo_box. pose proof hi_box.
  intros Hp Hk. cbv zeta.
  pose proof (box_R _ F_box) as HF. pose proof (box_R _ C_box) as HC. pose proof fl_K_ge.
  pose proof rF_bounds. pose proof rC_bounds. pose proof org_err. pose proof (point_sub_err p Hp).
  pose proof (rk_bounds k Hk). pose proof (centre_mul_err k Hk). pose proof (centre_err k Hk).
  assert (Bd : Rabs (centre k - org) <= 2 * A + 4 * r) by (apply Rabs_le; split; lra).
  pose proof (err_bound _ _ Bd).
  assert (0 <= IZR k <= 2 * K).
  { destruct (centre_k_box k Hk) as [Hk0 Hk1]. apply IZR_le in Hk0, Hk1. rewrite minus_IZR in Hk1. lra. }
  repeat apply Forall_cons.
  - apply ratio_no_overflow, ratio_bound, Rabs_le. lra.
  - apply ratio_no_overflow, ratio_bound, Rabs_le. lra.
  - apply ratio_no_overflow, Rabs_le. lra.
  - apply sum_no_overflow, Rabs_le. split; lra.
  - apply ratio_no_overflow, Rabs_le. lra.
  - rewrite minus_IZR. apply ratio_no_overflow, Rabs_le. lra.
  - apply sum_no_overflow, Rabs_le. split; lra.
  - apply ratio_no_overflow, ratio_bound, Rabs_le. split; lra.
  - apply ratio_no_overflow, Rabs_le. lra.
  - apply sum_no_overflow, Rabs_le. split; lra.
  - apply sum_no_overflow, Rabs_le. split; lra.
  - apply sum_no_overflow. lra.
  - apply ratio_no_overflow, ratio_bound, Rabs_le. split; lra.
  - apply Forall_nil.
Qed.
End Axis.
End Analysis.
End Format.

(* binary64: prec = 53, emin = -1074;  binary32: prec = 24, emin = -149 *)
Local Instance prec53 : Prec_gt_0 53.
Proof. now unfold Prec_gt_0. Qed.
Local Instance prec24 : Prec_gt_0 24.
Proof. now unfold Prec_gt_0. Qed.
#[export] Existing Instances prec53 prec24.

Definition rnd64 : R -> R := frnd 53 (-1074).
Definition b64 : R -> Prop := ffmt 53 (-1074).
Definition B64Ops : NumOps R := FlOps 53 (-1074).
Definition rnd32 : R -> R := frnd 24 (-149).
Definition b32 : R -> Prop := ffmt 24 (-149).
Definition B32Ops : NumOps R := FlOps 24 (-149).

(* [rnd64] and [b64] do not unfold under [rewrite] and [lra]: the facts most often used that way, at binary64 *)
Lemma rnd64_id x : b64 x -> rnd64 x = x.
Proof. exact (rnd_id 53 (-1074) x). Qed.

Lemma rnd64_mono x y : x <= y -> rnd64 x <= rnd64 y.
Proof. exact (rnd_le 53 (-1074) x y). Qed.

Lemma rnd64_le x y : b64 y -> x <= y -> rnd64 x <= y.
Proof. exact (rnd_le_fmt 53 (-1074) x y). Qed.

Lemma rnd64_ge x y : b64 y -> y <= x -> y <= rnd64 x.
Proof. exact (rnd_ge_fmt 53 (-1074) x y). Qed.

Lemma b64_int k : (Z.abs k < 2 ^ 53)%Z -> b64 (IZR k).
Proof. apply fmt_int. lia. Qed.

Lemma b64_1 : b64 1.
Proof. apply (b64_int 1). lia. Qed.

Lemma rnd64_to_1 v : 1 - bpow radix2 (-54) < v < 1 + bpow radix2 (-53) -> rnd64 v = 1.
Proof. intros H. apply (rnd_to_1 53 (-1074)); [lia|]. unfold fl_u. simpl in *. lra. Qed.

(* binary64 domain.  Why these numbers: with |lo/r|, |hi/r| <= 2^40 each of the six roundings between the inputs and
   the truncated quotient moves it by at most about 2^-53 * 2^41 cells, far below the half-cell margin of the exact
   analysis; r >= 2^-900 keeps the absolute error of a possibly subnormal result (2^-1075) negligible against r;
   r <= 2^900 keeps every intermediate below 2^942 (no overflow). *)
Definition gmf_domain (r lo hi : R) : Prop := fl_domain 40 (-900) 900 r lo hi.
Definition gmf_tol (r lo hi : R) : R := fl_tol 53 r lo hi.
(* binary32 domain: |lo/r|, |hi/r| <= 2^20 (the error scale is then 2^-24 * 2^20 = 1/16 of a cell per rounding:
   the half-cell margin shrinks to 1/16 but survives) *)
Definition gmf_domain32 (r lo hi : R) : Prop := fl_domain 20 (-100) 100 r lo hi.
Definition gmf_tol32 (r lo hi : R) : R := fl_tol 24 r lo hi.

Lemma par64 : fl_par 53 (-1074) 40 (-900) 900.
Proof. unfold fl_par. lia. Qed.
Lemma par32 : fl_par 24 (-149) 20 (-100) 100.
Proof. unfold fl_par. lia. Qed.

Lemma kap64 : fl_kap 53 40 = / 8192.
Proof. unfold fl_kap. simpl. lra. Qed.
Lemma kap32 : fl_kap 24 20 = / 16.
Proof. unfold fl_kap. simpl. lra. Qed.

Theorem index_in_bounds_b64 r lo hi : gmf_domain r lo hi -> forall p, lo <= p <= hi ->
  (0 <= gm_index B64Ops r (gm_origin B64Ops r lo) p < gm_ncells B64Ops r lo hi)%Z.
Proof. exact (index_in_bounds_gen _ _ _ _ _ par64 r lo hi). Qed.

Theorem index_in_bounds_b32 r lo hi : gmf_domain32 r lo hi -> forall p, lo <= p <= hi ->
  (0 <= gm_index B32Ops r (gm_origin B32Ops r lo) p < gm_ncells B32Ops r lo hi)%Z.
Proof. exact (index_in_bounds_gen _ _ _ _ _ par32 r lo hi). Qed.

(* boxes that are easy to check: resolution and bounds between 2^-e and 2^e; those with e = 20 (binary64) and e = 10
   (binary32) contain the envelope of the property (r in [1e-3, 10], bounds in [-1e3, 1e3]) *)
Lemma fl_domain_box eK elo ehi e r lo hi : (elo <= - e)%Z -> (e <= ehi)%Z -> (2 * e <= eK)%Z ->
  bpow radix2 (- e) <= r <= bpow radix2 e -> Rabs lo <= bpow radix2 e -> Rabs hi <= bpow radix2 e ->
  fl_domain eK elo ehi r lo hi.
Proof.
  intros Hlo Hhi HK [R1 R2] L H.
  assert (B : bpow radix2 e <= bpow radix2 eK * r).
  { apply Rle_trans with (bpow radix2 eK * bpow radix2 (- e)).
    - rewrite <- bpow_plus. apply bpow_le. lia.
    - apply Rmult_le_compat_l; [apply bpow_ge_0|exact R1]. }
  repeat split; try lra.
  - eapply Rle_trans; [|exact R1]. apply bpow_le. lia.
  - eapply Rle_trans; [exact R2|]. apply bpow_le. lia.
Qed.

(* a concrete grid: r = 1/2, extent [-10, 10], point 3 *)
Lemma ex_domain eK elo ehi : (elo <= -4)%Z -> (4 <= ehi)%Z -> (8 <= eK)%Z -> fl_domain eK elo ehi (1 / 2) (-10) 10.
Proof.
  intros Hlo Hhi HK. apply (fl_domain_box eK elo ehi 4); try lia.
  - simpl. lra.
  - rewrite Rabs_left by lra. simpl. lra.
  - rewrite Rabs_pos_eq by lra. simpl. lra.
Qed.

(* for any precision >= 8 bits the inputs are representable and the values are: origin -10.25, 41 cells, point 3 in
   cell 26, whose centre is 3 *)
Section ExValues.
Variables prec emin : Z.
Hypothesis Hp : (8 <= prec)%Z.
Hypothesis He : (emin <= -2)%Z.
Local Notation rnd := (frnd prec emin).
Local Notation fmt := (ffmt prec emin).
Local Notation Ops := (FlOps prec emin).

Lemma ex_pow : (256 <= 2 ^ prec)%Z.
Proof. change 256%Z with (2 ^ 8)%Z. apply Z.pow_le_mono_r; lia. Qed.

Lemma ex_inputs : fmt (1 / 2) /\ fmt (-10) /\ fmt 10 /\ fmt 3.
Proof.
  pose proof ex_pow. repeat split.
  - apply (fmt_dyadic prec emin _ 1 (-1)); [simpl; lra|lia|lia].
  - apply (fmt_int prec emin (-10)); lia.
  - apply (fmt_int prec emin 10); lia.
  - apply (fmt_int prec emin 3); lia.
Qed.

Lemma ex_dy x m e : x = IZR m * bpow radix2 e -> (Z.abs m < 256)%Z -> (-2 <= e)%Z -> rnd x = x.
Proof. intros Hx Hm Hee. pose proof ex_pow. apply (rnd_dyadic prec emin x m e Hx); lia. Qed.

Lemma ex_F : fl_F prec emin (1 / 2) (-10) = (-20)%Z.
Proof.
  unfold fl_F, fl_div. replace (-10 / (1 / 2)) with (IZR (-20)) by lra.
  rewrite (ex_dy (IZR (-20)) (-20) 0) by (simpl; lra || lia). apply Zfloor_IZR.
Qed.

Lemma ex_C : fl_C prec emin (1 / 2) 10 = 20%Z.
Proof.
  unfold fl_C, fl_div. replace (10 / (1 / 2)) with (IZR 20) by lra.
  rewrite (ex_dy (IZR 20) 20 0) by (simpl; lra || lia). apply Zceil_IZR.
Qed.

Lemma ex_origin : gm_origin Ops (1 / 2) (-10) = -41 / 4.
Proof.
  rewrite origin_unf by lia. rewrite ex_F.
  rewrite (ex_dy (IZR (-20) - 1 / 2) (-41) (-1)) by (simpl; lra || lia).
  replace (1 / 2 * (IZR (-20) - 1 / 2)) with (-41 / 4) by lra.
  apply (ex_dy _ (-41) (-2)); simpl; lra || lia.
Qed.

Lemma ex_ncells : gm_ncells Ops (1 / 2) (-10) 10 = 41%Z.
Proof.
  rewrite ncells_unf, ex_F, ex_C. replace (IZR 20 - IZR (-20)) with (IZR 40) by lra.
  rewrite (ex_dy (IZR 40) 40 0) by (simpl; lra || lia).
  replace (IZR 40 + 1) with (IZR 41) by lra.
  rewrite (ex_dy (IZR 41) 41 0) by (simpl; lra || lia). apply Ztrunc_IZR.
Qed.

Lemma ex_index : gm_index Ops (1 / 2) (gm_origin Ops (1 / 2) (-10)) 3 = 26%Z.
Proof.
  rewrite ex_origin, index_unf0.
  replace (3 - -41 / 4) with (53 / 4) by lra.
  rewrite (ex_dy (53 / 4) 53 (-2)) by (simpl; lra || lia).
  replace (53 / 4 / (1 / 2)) with (53 / 2) by lra.
  rewrite (ex_dy (53 / 2) 53 (-1)) by (simpl; lra || lia).
  rewrite Ztrunc_floor by lra. apply Zfloor_imp. simpl. lra.
Qed.

Lemma ex_centre : gm_centre Ops (1 / 2) (gm_origin Ops (1 / 2) (-10)) 26 = 3.
Proof.
  rewrite ex_origin. rewrite centre_unf0 by lia.
  rewrite (ex_dy (IZR 26) 26 0) by (simpl; lra || lia).
  rewrite (ex_dy (IZR 26 + 1 / 2) 53 (-1)) by (simpl; lra || lia).
  replace ((IZR 26 + 1 / 2) * (1 / 2)) with (53 / 4) by lra.
  rewrite (ex_dy (53 / 4) 53 (-2)) by (simpl; lra || lia).
  replace (-41 / 4 + 53 / 4) with (IZR 3) by lra. apply (ex_dy _ 3 0); simpl; lra || lia.
Qed.

Lemma ex_values :
  gm_origin Ops (1 / 2) (-10) = -41 / 4 /\ gm_ncells Ops (1 / 2) (-10) 10 = 41%Z /\
  gm_index Ops (1 / 2) (gm_origin Ops (1 / 2) (-10)) 3 = 26%Z /\
  gm_centre Ops (1 / 2) (gm_origin Ops (1 / 2) (-10)) 26 = 3.
Proof. exact (conj ex_origin (conj ex_ncells (conj ex_index ex_centre))). Qed.
End ExValues.
