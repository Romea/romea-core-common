(* Properties_C06.v — C06: ICP + RANSAC recover every small displacement of the reference scan.   PARTIAL.
   Each theorem is followed by Print Assumptions; the Examples show that the hypotheses are satisfiable.

   What is proved (for all inputs / all update, draw and iteration sequences, about the models in
   coq/RansacModel.v and coq/IcpModel.v, which the source tie at the end of this file (the C06_source_tie theorems) and the
   correspondence run tie to the code):
     iterations_monotone, iterations_formula, estimate_logic, inliers_are_3sigma_filter,
     best_consensus_invariant, success_error_below_sigma, outliers_no_influence, one_to_one_filter,
     icp_returns_true_iff_break, icp_best_is_min_rmse,
     zero_displacement_estimate_identity, zero_displacement_icp_identity ("with zero displacement it returns the identity").

   What NO theorem here covers:
     * that FindRigidTransformationByICP::find converges to within 0.015 (Frobenius) of the true motion for every
       displacement |tx|,|ty| <= 0.2 m, |theta| <= 0.05 rad of test/data/scan2d.txt.  That depends on the data
       file, kd-tree matching, normal estimation, the least-squares estimator and floating-point dynamics; the
       per-iteration outcome is an abstract argument of the ICP model.  It is SAMPLED by the check (grid incl.
       corners and zero, random interior points; groups named "(testing)" in the evidence).  The sampling found
       a corner of the envelope where find() returns false (known_findings.d/C06.json).
     * that RANSAC's random draws DO hit an outlier-free minimal sample (the luck of the draws): the theorems
       below hold for every draw sequence and say what follows IF no drawn model puts an outlier inside the gate;
       success on the synthetic outlier sets is sampled.
     * the rigid estimators (SVD / least squares), Eigen and <random>. *)
From Coq Require Import Reals ZArith List Bool Lra Lia Sorted Permutation.
From Flocq Require Import Core.Raux.
From Romea Require Import Num NumR RansacModel IcpModel RansacProofs EstimateProofs RigidProofs IcpProofs RansacProbability.
From Romea Require Import LinAlgBModel LinAlgBProofs LsModel LsProofs LsHistoryProofs P2pModel P2pProofs ZeroDispProofs ZeroDispRansac.
From Romea Require Import SrcTieC06.
From Romea.gen Require Import RepoConstants SrcRansac.
Import ListNotations.

(* For every numeric dictionary (so also for the executed binary64 instance), every (points, p, max, draw size) and
   every sequence of updates: the successive values of get() never increase, start at the configured maximum and
   never exceed it. *)
Theorem C06_iterations_monotone : forall (T : Type) (N : NumOps T) (npoints : Z) (p : T) (maxit sdraw : Z) (ks : list Z),
  let bounds := iters_run N (iters_init N npoints p maxit) sdraw ks in
  StronglySorted Z.ge bounds /\ Forall (fun b => (b <= maxit)%Z) bounds /\ hd 0%Z bounds = maxit /\
  last bounds 0%Z = iters_get (iters_fold N (iters_init N npoints p maxit) sdraw ks).
Proof.
  intros T N npoints p maxit sdraw ks. exact (iters_run_spec N ks (iters_init N npoints p maxit) sdraw).
Qed.
Print Assumptions C06_iterations_monotone.

(* Over the reals: after update(k inliers) the bound is min(previous, floor(ln(1-p) / ln q)) where q is
   1 - (k/n)^s clamped to [EPSILON, 1 - EPSILON]; the quotient is positive (so the size_t conversion is a floor). *)
Theorem C06_iterations_formula : forall (s : iters R) (npoints : Z) (p : R) (k sdraw : Z),
  it_logopp s = ln (1 - p) -> it_oneovern s = (/ IZR npoints)%R ->
  (0 < p < 1)%R -> (1 <= npoints)%Z -> (1 <= k)%Z -> (0 <= sdraw)%Z ->
  let w := (IZR k / IZR npoints)%R in
  let q := Rmin (1 - Reps) (Rmax Reps (1 - w ^ Z.to_nat sdraw)) in
  (0 < ln (1 - p) / ln q)%R /\
  iters_get (iters_update ROps s k sdraw) = Z.min (iters_get s) (Zfloor (ln (1 - p) / ln q)).
Proof. exact iters_formula_R. Qed.
Print Assumptions C06_iterations_formula.

(* no clamp active: the textbook bound floor(ln(1-p)/ln(1-w^s)) *)
Theorem C06_iterations_formula_unclamped : forall (w : R) (sd : nat),
  (Reps <= 1 - w ^ sd <= 1 - Reps)%R -> q_clamped w sd = (1 - w ^ sd)%R.
Proof. exact q_clamped_inactive. Qed.
Print Assumptions C06_iterations_formula_unclamped.

(* the constructor establishes the hypotheses of the formula, every update keeps them, and the bound stays >= 0 *)
Theorem C06_iterations_reachable : forall npoints p maxit sdraw ks,
  let s := iters_fold ROps (iters_init ROps npoints p maxit) sdraw ks in
  it_logopp s = ln (1 - p) /\ it_oneovern s = (/ IZR npoints)%R /\
  ((0 < p < 1)%R -> (1 <= npoints)%Z -> (0 <= sdraw)%Z -> (0 <= maxit)%Z -> Forall (fun k => (1 <= k)%Z) ks ->
   (0 <= iters_get s)%Z).
Proof.
  intros npoints p maxit sdraw ks s. unfold s.
  destruct (iters_fold_fields ROps ks (iters_init ROps npoints p maxit) sdraw) as [A B].
  destruct (iters_init_R npoints p maxit) as (A' & B' & _).
  split; [rewrite A; exact A'|]. split; [rewrite B; exact B'|]. apply iters_fold_nonneg.
Qed.
Print Assumptions C06_iterations_reachable.

(* What the bound means (pure real analysis about the formula; independence of the draws is the textbook idealisation):
   with q the probability that a draw is contaminated and p the requested confidence, the kept count K = floor(L),
   L = ln(1-p)/ln q, satisfies  q^(K+1) < 1-p <= q^K : after K draws the probability that every draw was contaminated is
   still at least 1-p (the confidence reached is 1 - q^K, in (1-(1-p)/q, p]); one more draw would reach p.  The size_t
   conversion truncates where the textbook rule rounds up. *)
Theorem C06_iterations_probability_bracket : forall q p : R,
  (0 < q < 1)%R -> (0 < p < 1)%R ->
  let L := (ln (1 - p) / ln q)%R in
  let K := Z.to_nat (Zfloor L) in
  (0 < L)%R /\ (q ^ (S K) < 1 - p <= q ^ K)%R.
Proof. exact iterations_bracket. Qed.
Print Assumptions C06_iterations_probability_bracket.

(* the same for the count RansacIterations::update stores, whenever the update lowers it *)
Theorem C06_iterations_update_probability : forall (s : iters R) (npoints : Z) (p : R) (k sdraw : Z),
  it_logopp s = ln (1 - p) -> it_oneovern s = (/ IZR npoints)%R ->
  (0 < p < 1)%R -> (1 <= npoints)%Z -> (1 <= k)%Z -> (0 <= sdraw)%Z ->
  let q := q_clamped (IZR k / IZR npoints) (Z.to_nat sdraw) in
  (iters_get (iters_update ROps s k sdraw) < iters_get s)%Z ->
  let K := Z.to_nat (iters_get (iters_update ROps s k sdraw)) in
  (q ^ (S K) < 1 - p <= q ^ K)%R.
Proof.
  intros s npoints p k sdraw Ho Hn Hp Hnp Hk Hsd q Hlt K.
  destruct (iters_formula_R s npoints p k sdraw Ho Hn Hp Hnp Hk Hsd) as [_ Hget]. fold q in Hget. cbv zeta in Hget.
  pose proof (q_clamped_range (IZR k / IZR npoints) (Z.to_nat sdraw)) as Hq. fold q in Hq. pose proof Reps_bounds as He.
  destruct (iterations_bracket q p ltac:(lra) Hp) as [_ Hb]. cbv zeta in Hb.
  unfold K, iters_get in *. rewrite Hget in *. rewrite Z.min_r by lia. exact Hb.
Qed.
Print Assumptions C06_iterations_update_probability.

Example C06_iterations_example :
  iters_run ROps (iters_init ROps 100 (99/100)%R 1000) 3 [] = [1000%Z] /\ (0 < 99/100 < 1)%R.
Proof. split; [reflexivity | lra]. Qed.

(* Fewer points than the minimal number of inliers: false, and the model object is not touched. *)
Theorem C06_estimate_too_few_points : forall (T : Type) (N : NumOps T) (S : Type) draw count refine sdraw
    npoints mininl (p : T) maxit (s : S),
  (npoints < mininl)%Z ->
  estimate N draw count refine sdraw npoints mininl p maxit s = Some (mkEst false 0 0 None [] s).
Proof. intros. apply estimate_too_few. assumption. Qed.
Print Assumptions C06_estimate_too_few_points.

(* Otherwise, for every model object (any draw / countInliers / refine behaviour), the run ends within the
   configured maximum of draws; the result is true iff the largest value countInliers returned (as seen through the
   float variable) exceeds the draw size; refine is called exactly once, as the very last call, iff the result is
   true, and never otherwise. *)
Theorem C06_estimate_logic : forall (T : Type) (N : NumOps T) (S : Type) (draw : S -> S * bool) (count : S -> S * Z)
    (refine : S -> S) sdraw npoints mininl (p : T) maxit (s : S),
  (forall s, 0 <= snd (count s))%Z -> (mininl <= npoints)%Z -> (0 <= maxit)%Z ->
  exists r loop_calls s_loop,
    estimate N draw count refine sdraw npoints mininl p maxit s = Some r /\
    ~ In EvRefine loop_calls /\
    er_best r = max_rounded 0 (counts_of loop_calls) /\
    (er_ok r = true <-> (sdraw < er_best r)%Z) /\
    er_events r = loop_calls ++ (if er_ok r then [EvRefine] else []) /\
    er_state r = (if er_ok r then refine s_loop else s_loop) /\
    er_iters r = draws_of loop_calls /\ (er_iters r <= maxit)%Z.
Proof. intros. apply estimate_logic_lemma; assumption. Qed.
Print Assumptions C06_estimate_logic.

(* max_rounded is the maximum: it dominates every returned count and is attained (or is 0) *)
Theorem C06_estimate_best_is_max : forall cs,
  (forall c, In c cs -> (f32round c <= max_rounded 0 cs)%Z) /\
  (max_rounded 0 cs = 0%Z \/ exists c, In c cs /\ max_rounded 0 cs = f32round c) /\
  (forall c, (c < 2 ^ 24)%Z -> f32round c = c).
Proof.
  intros cs. split; [intros c H; apply max_rounded_all; exact H|]. split; [apply max_rounded_in | exact f32round_small].
Qed.
Print Assumptions C06_estimate_best_is_max.

Example C06_estimate_example :
  exists r, estimate ROps (fun s : unit => (s, true)) (fun s => (s, 7%Z)) (fun s => s) 3 10 6 (99/100)%R 1 tt = Some r /\
            er_ok r = true /\ er_events r = [EvDraw; EvCount 7; EvRefine] /\ er_iters r = 1%Z.
Proof.
  unfold estimate. change (10 <? 6)%Z with false. change (Z.to_nat 1) with 1%nat.
  rewrite est_loop_eq. cbn [iters_init it_n]. change (0 <? 1)%Z with true.
  cbv beta iota zeta delta [est_pass]. change (f32round 0 <? f32round 7)%Z with true. cbv iota.
  change (f32round 7) with 7%Z. rewrite est_loop_eq.
  pose proof (iters_update_le ROps (iters_init ROps 10 (99/100)%R 1) 7 3) as H. cbn [iters_init it_n] in H.
  destruct (Z.ltb_spec (0 + 1) (it_n (iters_update ROps (iters_init ROps 10 (99/100)%R 1) 7 3))); [lia|].
  eexists. split; [reflexivity|]. cbn. auto.
Qed.

(* The factor in the source is 9 (checked against the regenerated constant): the consensus candidates are exactly
   the correspondences whose residual distance is below 3 sigma, in sorted order. *)
Theorem C06_inliers_are_3sigma_filter : forall hom dim M src tgt (sigma : R) sorted,
  (0 < sigma)%R ->
  inliers ROps hom dim M src tgt sigma sorted =
    filter (fun c => Rltb (sqrt (c_sq c)) (3 * sigma)) (with_residuals ROps hom dim M src tgt sorted) /\
  (forall c, In c (with_residuals ROps hom dim M src tgt sorted) ->
     exists c0, In c0 sorted /\ c_src c = c_src c0 /\ c_tgt c = c_tgt c0 /\
                c_sq c = residual ROps hom dim M src tgt c0 /\ (0 <= c_sq c)%R).
Proof.
  intros hom dim M src tgt sigma sorted Hs. split.
  - apply inliers_3sigma; [reflexivity | exact Hs].
  - intros c Hc. destruct (with_residuals_sq _ _ _ _ _ _ _ Hc) as (c0 & A & B & C & D).
    exists c0. repeat split; try assumption. rewrite D. apply residual_nonneg.
Qed.
Print Assumptions C06_inliers_are_3sigma_filter.

(* std::unique's result is discarded in countInliers: the consensus vector keeps the size of the filter output, only
   contains filter outputs, and is the filter output itself when no two neighbours share a target index (always the
   case for the one-to-one correspondences ICP and the property's synthetic sets hand over). *)
Theorem C06_consensus_is_filter_output : forall hom dim M src tgt (sigma : R) sorted,
  let inl := inliers ROps hom dim M src tgt sigma sorted in
  let cs := consensus ROps hom dim M src tgt sigma sorted in
  length cs = length inl /\ (forall c, In c cs -> In c inl) /\
  ((forall pre x y post, inl = pre ++ x :: y :: post -> eq_tgt x y = false) -> cs = inl).
Proof.
  intros hom dim M src tgt sigma sorted inl cs. unfold cs, consensus. fold inl.
  split; [apply unique_inplace_length|]. split; [intros c; apply unique_inplace_incl | apply unique_inplace_id].
Qed.
Print Assumptions C06_consensus_is_filter_output.

(* For every sequence of candidate matrices applied to a fresh model object: either no candidate passes the two
   gates (size >= minimum, rmse < sigma) and the object is still in its initial state, or the stored consensus is
   one of the candidates, passes both gates, and no passing candidate is better in the code's order
   (more inliers, or as many and a strictly lower rmse). *)
Theorem C06_best_consensus_invariant : forall hom dim mininl src tgt (sigma : R) sorted (Ms : list (list (list R))),
  (1 <= mininl)%Z ->
  let cands := map (cand_of_matrix hom dim src tgt sigma sorted) Ms in
  let final := rigid_fold ROps hom dim mininl src tgt sigma sorted Ms (rigid_init ROps) in
  (final = rigid_init ROps /\ forall c, In c cands -> ~ passes mininl sigma c) \/
  (In (cand_of final) cands /\ passes mininl sigma (cand_of final) /\
   forall c, In c cands -> passes mininl sigma c -> ~ beats c (cand_of final)).
Proof.
  intros hom dim mininl src tgt sigma sorted Ms Hm cands final.
  apply (rigid_fold_inv hom dim mininl src tgt sigma sorted Ms (rigid_init ROps) [] Hm).
  left. split; [reflexivity | intros c []].
Qed.
Print Assumptions C06_best_consensus_invariant.

(* the hypothesis 1 <= mininl holds for the constants of the sources (2 x draw size, draw size 3 / 4) *)
Example C06_min_inliers_positive : (1 <= rigid_min_inliers 2)%Z /\ (1 <= rigid_min_inliers 3)%Z.
Proof. vm_compute. split; discriminate. Qed.

(* The real Ransac::estimateModel driving the rigid model object, for every script of drawn candidates: if it
   returns true, the reported consensus error is below sigma, the consensus has at least the minimal size, and the
   refit was given exactly the stored consensus.  (The reported error is that of the drawn candidate which
   produced the consensus, not of the refitted transformation: that is what the code reports.) *)
Theorem C06_success_error_below_sigma : forall hom dim src tgt (sigma : R) corrs npoints p maxit script r,
  estimate_rigid ROps hom dim src tgt sigma corrs npoints p maxit script = Some r ->
  er_ok r = true ->
  (rs_rmse (ro_st (er_state r)) < sigma)%R /\
  (rigid_min_inliers (Z.of_nat dim) <= Z.of_nat (length (rs_best (ro_st (er_state r)))))%Z.
Proof. exact success_error_lemma. Qed.
Print Assumptions C06_success_error_below_sigma.

(* [keep s t] marks the pairs that are not outliers.  If no drawn model puts an outlier inside the gate, then for the
   same sequence of drawn models the object evolves exactly as on the outlier-free input, and the consensus handed
   to the refit contains no outlier.  (Stated on the sorted correspondence list the object holds; the number of
   draws Ransac makes additionally depends on numberOfPoints, which is a separate argument of loadCorrespondences.) *)
Theorem C06_outliers_no_influence : forall hom dim src tgt (sigma : R) mininl (keep : Z -> Z -> bool)
    (Ms : list (list (list R))) (sorted : list (corr R)),
  (forall M c, In M Ms -> In c sorted -> keepc keep c = false -> outside_gate hom dim src tgt sigma M c) ->
  rigid_fold ROps hom dim mininl src tgt sigma sorted Ms (rigid_init ROps) =
    rigid_fold ROps hom dim mininl src tgt sigma (filter (keepc keep) sorted) Ms (rigid_init ROps) /\
  Forall (fun c => keepc keep c = true)
    (rs_best (rigid_fold ROps hom dim mininl src tgt sigma sorted Ms (rigid_init ROps))).
Proof.
  intros. apply rigid_fold_keep; [assumption | constructor].
Qed.
Print Assumptions C06_outliers_no_influence.

(* For ANY arrangement std::sort may return (a permutation of the matches in which no later element precedes an
   earlier one under sortBySourceIndexAndDistancePredicate), std::unique on the source index keeps every source
   index exactly once, keeps only matches that were there, and the kept match of a source has a minimal distance. *)
Theorem C06_one_to_one_filter : forall (l l' : list (corr R)),
  Permutation l l' -> sorted_by_src_dist l' ->
  let u := unique_by (eq_src (T:=R)) l' in
  NoDup (map c_src u) /\
  (forall c, In c l -> exists y, In y u /\ c_src y = c_src c) /\
  (forall y, In y u -> In y l /\ forall c, In c l -> c_src c = c_src y -> (c_sq y <= c_sq c)%R).
Proof. exact one_to_one_lemma. Qed.
Print Assumptions C06_one_to_one_filter.

(* ... in particular for the filter exactly as the model executes it in the correspondence run *)
Theorem C06_one_to_one_filter_model : forall (l : list (corr R)),
  let u := one_to_one ROps l in
  NoDup (map c_src u) /\
  (forall c, In c l -> exists y, In y u /\ c_src y = c_src c) /\
  (forall y, In y u -> In y l /\ forall c, In c l -> c_src c = c_src y -> (c_sq y <= c_sq c)%R).
Proof.
  intros l. exact (one_to_one_lemma l _ (sort_by_perm _ l) (sort_by_sorted _ le_sd_trans lt_sd_le l)).
Qed.
Print Assumptions C06_one_to_one_filter_model.

Example C06_one_to_one_example :
  let a := mkCorr 1 5 (1/4)%R in let b := mkCorr 1 7 (1/2)%R in let c := mkCorr 2 6 0%R in
  Permutation [b; c; a] [a; b; c] /\ sorted_by_src_dist [a; b; c] /\
  unique_by (eq_src (T:=R)) [a; b; c] = [a; c].
Proof.
  cbv zeta. split; [|split].
  - apply Permutation_sym. apply (Permutation_cons_app [_; _] [] _). apply Permutation_refl.
  - repeat constructor; apply le_sd_iff; cbn; try (left; lia); right; split; [reflexivity | lra].
  - reflexivity.
Qed.

(* For every sequence of per-iteration outcomes (RANSAC success, rmse, matrix): find() returns true iff some
   iteration k < maximalNumberOfIterations succeeded with a matrix whose entrywise L1 distance to the previous
   successful matrix (identity at the start) is below epsilon; the loop counter at exit is the first such k, no
   earlier iteration met the test, and it is the configured maximum when the result is false. *)
Theorem C06_icp_returns_true_iff_break : forall (eps : R) maxit id (os : list (icp_outcome R)) r,
  (0 <= maxit)%Z -> icp_run ROps eps maxit id os = Some r ->
  (ir_found r = true <->
     exists pre o post, os = pre ++ o :: post /\ (Z.of_nat (length pre) < maxit)%Z /\ breaks eps id pre o) /\
  (ir_found r = true ->
     exists pre o post, os = pre ++ o :: post /\ ir_n r = Z.of_nat (length pre) /\ (ir_n r < maxit)%Z /\
       breaks eps id pre o /\ forall pre1 o1 post1, pre = pre1 ++ o1 :: post1 -> ~ breaks eps id pre1 o1) /\
  (ir_found r = false -> ir_n r = maxit).
Proof. exact icp_run_spec. Qed.
Print Assumptions C06_icp_returns_true_iff_break.

(* The best estimate kept by the loop (used to project the target points) has the minimal consensus rmse among the
   successful iterations that ran (all iterations up to and including the breaking one, or all of them). *)
Theorem C06_icp_best_is_min_rmse : forall (eps : R) maxit id (os : list (icp_outcome R)) r,
  icp_run ROps eps maxit id os = Some r ->
  exists ran rest, os = ran ++ rest /\
    Z.of_nat (length ran) = (if ir_found r then ir_n r + 1 else ir_n r)%Z /\
    (forall o, In o ran -> io_ok o = true -> (is_best_rmse (ir_state r) <= io_rmse o)%R) /\
    match is_best (ir_state r) with
    | None => is_best_rmse (ir_state r) = nmaxval ROps
    | Some k => exists o, nth_error ran (Z.to_nat k) = Some o /\ io_ok o = true /\ io_rmse o = is_best_rmse (ir_state r)
    end.
Proof.
  intros eps maxit id os r H. destruct (icp_run_ran eps maxit id os r H) as (ran & rest & E & [Hb1 Hb2] & Hcase).
  exists ran, rest. repeat split; try assumption. destruct (ir_found r).
  - destruct Hcase as (pre & o & -> & _ & Hn & _). rewrite app_length. cbn [length]. lia.
  - destruct Hcase as (_ & Hn & _). lia.
Qed.
Print Assumptions C06_icp_best_is_min_rmse.

Example C06_icp_example :
  let o := mkOutcome true (1/10)%R [1; 0; 0; 1]%R in
  exists r, icp_run ROps (1/1000)%R 10 [1; 0; 0; 1]%R [o] = Some r /\ ir_found r = true /\ ir_n r = 0%Z.
Proof.
  cbv zeta. unfold icp_run. change (Z.to_nat 10) with 10%nat. cbn [icp_loop io_ok].
  unfold icp_step. cbn [io_M io_rmse icp_init is_prev is_best_rmse is_best].
  rewrite mat_absdiff_same. cbn [nltb ROps].
  replace (Rltb 0 (1 / 1000)) with true by (symmetry; apply Rltb_true; lra).
  eexists. split; [reflexivity|]. split; reflexivity.
Qed.

(* "with zero displacement it returns the identity" — the point-to-plane estimator (P2pModel.v on LsModel.v, the models
   of C05 / C07), over the reals, for ANY LDLT / SVD oracle (no contract is needed: J^T Y = 0 makes the answer Bc whatever
   matrix the oracle returns), for both SVD thresholds ([svd_fixed]), 2D and 3D, Cartesian and homogeneous points
   ([ps] = number of stored coordinates), from any state of the estimator object the code can configure
   ([p2p_configured]: the constructor, any setPreconditioner, any earlier find).
   If every correspondence pairs a target point with an identical source point (any normals; any subset, order or
   multiplicity of correspondences) then estimate_ returns EXACTLY the identity matrix — and it does return. *)
Theorem C06_zero_displacement_estimate_identity :
  forall inverse_of svd_of (fill : R) (svd_fixed : bool) d ps,
  (d = 2 \/ d = 3)%nat ->
  (* estimate_ on the triples (source, target, normal) *)
  (forall triples st, p2p_configured d st -> (1 <= length triples)%nat -> zero_disp triples ->
     exists st2, p2p_estimate ROps inverse_of svd_of fill svd_fixed d ps triples st = Some (st2, midentity ROps (S d)) /\
                 p2p_configured d st2) /\
  (* find(source, target, normals, correspondences) *)
  (forall src tgt nrm corr st tr, p2p_configured d st -> (1 <= length corr)%nat -> corr_zero_disp src tgt corr ->
     triples_of_corr src tgt nrm corr = Some tr ->
     exists st2, p2p_find_corr ROps inverse_of svd_of fill svd_fixed d ps src tgt nrm corr st = Some (st2, midentity ROps (S d)) /\
                 p2p_configured d st2) /\
  (* find(points, points, normals) *)
  (forall pts nrm st, p2p_configured d st -> (1 <= length pts)%nat -> (length pts <= length nrm)%nat ->
     exists st2, p2p_find_aligned ROps inverse_of svd_of fill svd_fixed d ps pts pts nrm st = Some (st2, midentity ROps (S d)) /\
                 p2p_configured d st2).
Proof.
  intros inv svd fill fx d ps Hd. split; [|split].
  - intros. now apply zero_disp_estimate_identity.
  - intros. now apply (zero_disp_find_corr_identity inv svd fill fx d ps src tgt nrm corr st tr).
  - intros. now apply zero_disp_find_aligned_identity.
Qed.
Print Assumptions C06_zero_displacement_estimate_identity.

(* every estimator path of the solver on the loaded zero-displacement problem (Cholesky, repaired SVD, original SVD)
   returns the parameter vector 0; the un-preconditioned solution inv * J^T Y is 0 for every matrix inv; and under the
   right-inverse contract of C07 the normal equations J^T J z = 0 have no other solution *)
Theorem C06_zero_displacement_all_solver_paths :
  forall inverse_of svd_of (fill : R) (svd_fixed : bool) d ps triples st st1,
  (d = 2 \/ d = 3)%nat -> p2p_configured d st -> (1 <= length triples)%nat -> zero_disp triples ->
  p2p_load ROps inverse_of svd_of fill svd_fixed d ps triples st = Some st1 ->
  (exists st2 x, ls_estimate_chol ROps inverse_of st1 = Some (st2, x) /\ forall i, (i < p2p_k d)%nat -> vget ROps x i = 0%R) /\
  (exists st2 x, ls_estimate_svd ROps svd_of st1 = Some (st2, x) /\ forall i, (i < p2p_k d)%nat -> vget ROps x i = 0%R) /\
  (exists st2 x, ls_estimate_svd_abs ROps svd_of st1 = Some (st2, x) /\ forall i, (i < p2p_k d)%nat -> vget ROps x i = 0%R) /\
  (forall inv i, ls_z st1 inv i = 0%R) /\
  (forall inv z, inv_contract (ls_k st1) (ls_JtJ ROps st1) inv ->
     (forall i, (i < p2p_k d)%nat -> grad (ls_n st1) (p2p_k d) (Jf st1) (Yf st1) z i = 0%R) ->
     forall i, (i < p2p_k d)%nat -> z i = 0%R).
Proof.
  intros inv_of svd fill fx d ps triples st st1 Hd Hc Hn Hz Hl.
  pose proof (loaded_apply_zero inv_of svd fill fx d ps triples st st1 Hd Hc Hn Hz Hl) as Hx.
  destruct (loaded_rhs_zero inv_of svd fill fx d ps triples st st1 Hd (proj1 Hc) Hn Hz Hl) as (Hok & Ek & _ & _ & HY).
  destruct (ls_estimate_paths inv_of svd st1 Hok) as (i1 & i2 & i3 & -> & -> & ->).
  repeat (split; [eexists _, _; split; [reflexivity | apply Hx]|]). split.
  - intros inv i. now apply ls_z_zero_rhs.
  - intros inv z Hi Hg i Hlt. rewrite <- Ek in Hlt.
    apply (normal_equations_zero_rhs_unique st1 inv z Hi HY); [|exact Hlt].
    intros a Ha. rewrite Ek in *. now apply Hg.
Qed.
Print Assumptions C06_zero_displacement_all_solver_paths.

(* the configured states: the constructor's, and closed under setPreconditioner with any scale (the theorem above closes
   them under estimate_ / find); identical points stay identical under the preconditioned overloads *)
Theorem C06_zero_displacement_configurations : forall d, (d = 2 \/ d = 3)%nat ->
  p2p_configured d (p2p_new ROps d) /\
  (forall scale st, p2p_configured d st -> p2p_configured d (p2p_set_preconditioner ROps d scale st)) /\
  (forall c src tgt corr,
     Forall (fun p : nat * nat => (fst p < length src)%nat /\ (snd p < length tgt)%nat) corr ->
     corr_zero_disp src tgt corr -> corr_zero_disp (p2p_precondition ROps c src) (p2p_precondition ROps c tgt) corr).
Proof.
  intros d Hd. split; [now apply p2p_configured_new|]. split.
  - intros. now apply p2p_configured_set_preconditioner.
  - exact corr_zero_disp_precondition.
Qed.
Print Assumptions C06_zero_displacement_configurations.

(* non-vacuity: a 2D zero-displacement problem with two correspondences of one point pair and one of another *)
Example C06_zero_displacement_example :
  corr_zero_disp [[1; 2]; [3; 5]]%R [[3; 5]; [1; 2]]%R [(0, 1); (1, 0); (0, 1)]%nat /\
  triples_of_corr [[1; 2]; [3; 5]]%R [[3; 5]; [1; 2]]%R [[0; 1]; [1; 0]]%R [(0, 1); (1, 0); (0, 1)]%nat <> None.
Proof. split; [repeat constructor | discriminate]. Qed.

(* The ICP loop model: if the transformation of every iteration in which RANSAC succeeds is the identity (which the
   theorem above gives for the refit on zero-displacement matches: [concat (midentity (d+1))] are the entries), then
   find() reports success iff RANSAC succeeds in one of the iterations it may run; it stops AT the first such iteration
   — the first one whose step-difference test is evaluated — and the transformation it hands out is the identity.
   For every positive epsilon (the source's 0.001 included) and every sequence of outcomes. *)
Theorem C06_zero_displacement_icp_identity : forall (eps : R) maxit id (os : list (icp_outcome R)) r,
  (0 < eps)%R -> (0 <= maxit)%Z ->
  (forall o, In o os -> io_ok o = true -> io_M o = id) ->
  icp_run ROps eps maxit id os = Some r ->
  (ir_found r = true <-> exists o, In o (firstn (Z.to_nat maxit) os) /\ io_ok o = true) /\
  (ir_found r = true ->
     exists pre o post, os = pre ++ o :: post /\ ir_n r = Z.of_nat (length pre) /\ (ir_n r < maxit)%Z /\
       Forall (fun o' => io_ok o' = false) pre /\ io_ok o = true /\
       icp_returned_iteration r = Some (ir_n r) /\ nth_error os (Z.to_nat (ir_n r)) = Some o /\ io_M o = id) /\
  (forall o rest, os = o :: rest -> io_ok o = true -> (1 <= maxit)%Z -> ir_found r = true /\ ir_n r = 0%Z).
Proof. exact zero_disp_icp_identity. Qed.
Print Assumptions C06_zero_displacement_icp_identity.

(* the two statements meet: the row-major entries of the estimator's identity are the loop model's identity, and the
   source's epsilon is positive *)
Example C06_zero_displacement_glue :
  (forall n, concat (midentity ROps n) = identity_entries ROps n) /\ (0 < icp_epsilon ROps)%R /\ (1 <= icp_maxit)%Z.
Proof.
  split; [exact concat_midentity|]. split.
  - unfold icp_epsilon, icp_transformation_epsilon_m, icp_transformation_epsilon_e. cbn [nofDec ROps].
    apply Rmult_lt_0_compat; [apply IZR_lt; reflexivity | apply powerRZ_lt; lra].
  - vm_compute. discriminate.
Qed.

(* The RANSAC rigid-motion model at zero displacement.  [pair_zero]: the correspondence pairs a target point with an
   identical source point (dim stored coordinates, + 1 for homogeneous types).  With the identity as drawn candidate (what
   the estimator returns on any sample of such pairs, C06_zero_displacement_estimate_identity): every residual is 0, the
   consensus countInliers builds has as many entries as there are correspondences, all with residual 0, its rmse is 0,
   check_ accepts the sample, and countInliers returns the number of correspondences (fresh object: stores the
   consensus; an object that already holds it: unchanged). *)
Theorem C06_zero_displacement_rigid_consensus : forall hom dim src tgt (sigma : R) sorted sample mininl,
  (dim = 2 \/ dim = 3)%nat -> (0 < sigma)%R ->
  Forall (pair_zero hom dim src tgt) sorted -> Forall (pair_zero hom dim src tgt) sample ->
  let Id := midentity ROps (S dim) in
  let cs := consensus ROps hom dim Id src tgt sigma sorted in
  (forall c, In c sorted -> residual ROps hom dim Id src tgt c = 0%R) /\
  length cs = length sorted /\ Forall (fun c => c_sq c = 0%R) cs /\ rmse_of ROps cs = 0%R /\
  check_sample ROps hom dim Id src tgt sigma sample = true /\
  ((1 <= mininl <= Z.of_nat (length sorted))%Z ->
   let r := rigid_count ROps hom dim mininl src tgt sigma sorted Id (rigid_init ROps) in
   snd r = Z.of_nat (length sorted) /\ rs_best (fst r) = cs /\ rs_rmse (fst r) = 0%R).
Proof.
  intros hom dim src tgt sigma sorted sample mininl Hd Hs Hz Hsm Id cs.
  destruct (consensus_all hom dim src tgt sigma Hd Hs sorted Hz) as (A & B & C). cbv zeta in A, B, C.
  split; [intros c Hc; apply residual_zero; [exact Hd | rewrite Forall_forall in Hz; now apply Hz]|].
  split; [exact A|]. split; [exact B|]. split; [exact C|].
  split; [now apply check_sample_zero|].
  intros Hm r.
  destruct (rigid_count_zero hom dim src tgt sigma Hd Hs mininl sorted (rigid_init ROps) Hz Hm (or_introl eq_refl)) as (X1 & _ & X3 & X4).
  split; [exact X1|]. split; [now apply X4 | exact X3].
Qed.
Print Assumptions C06_zero_displacement_rigid_consensus.

(* ... and driven by Ransac::estimateModel (the model C06_source_tie_estimateModel below is about): if every drawn candidate is the
   identity and every sample consists of such pairs, with at least the minimal number of correspondences (2 x draw size)
   and fewer than 2^24, estimateModel returns TRUE whatever the number of further draws; the reported consensus error is 0,
   the consensus has the size of the correspondence list and is what refine() hands to the estimator — whose answer is
   again the identity (C06_zero_displacement_estimate_identity), which the ICP loop then returns at its first iteration
   (C06_zero_displacement_icp_identity).  What stays outside: that the kd-tree pairs every point with itself (C08). *)
Theorem C06_zero_displacement_ransac_succeeds : forall hom dim src tgt (sigma : R) corrs npoints p maxit sample script,
  (dim = 2 \/ dim = 3)%nat -> (0 < sigma)%R ->
  Forall (pair_zero hom dim src tgt) corrs -> Forall (pair_zero hom dim src tgt) sample ->
  Forall (fun e : list (list R) * list (corr R) => fst e = midentity ROps (S dim) /\ Forall (pair_zero hom dim src tgt) (snd e)) script ->
  (rigid_min_inliers (Z.of_nat dim) <= npoints)%Z ->
  (rigid_min_inliers (Z.of_nat dim) <= Z.of_nat (length corrs) < 2 ^ 24)%Z -> (1 <= maxit)%Z ->
  exists r, estimate_rigid ROps hom dim src tgt sigma corrs npoints p maxit ((midentity ROps (S dim), sample) :: script) = Some r /\
    er_ok r = true /\ rs_rmse (ro_st (er_state r)) = 0%R /\
    length (rs_best (ro_st (er_state r))) = length corrs /\
    ro_refit (er_state r) = Some (rs_best (ro_st (er_state r))).
Proof. intros hom dim src tgt sigma corrs npoints p maxit sample script Hd Hs. now apply zero_disp_ransac_succeeds. Qed.
Print Assumptions C06_zero_displacement_ransac_succeeds.

Example C06_zero_displacement_ransac_example :
  let pts := [[0; 0]; [1; 0]; [0; 1]; [1; 1]; [2; 0]; [0; 2]]%R in
  let corrs := map (fun i => mkCorr i i 0%R) [0; 1; 2; 3; 4; 5]%Z in
  Forall (pair_zero false 2 pts pts) corrs /\ (rigid_min_inliers 2 <= Z.of_nat (length corrs) < 2 ^ 24)%Z.
Proof. cbv zeta. split; [repeat constructor | vm_compute; split; [discriminate | reflexivity]]. Qed.

(* coq/gen/SrcRansac.v is regenerated on every run by translate/tr_C06_ransac.py from the clang AST of
   RansacIterations.cpp, Ransac.cpp and FindRigidTransformationByICP.cpp; the theorems below say that the regenerated
   terms ARE the models the theorems above talk about.  An edit of the C++ that changes the meaning makes them unprovable. *)

(* RansacIterations — constructor, get, update — for EVERY numeric dictionary (by conversion: the same term is what the
   binary64 instance executes).  The object is the tuple of its three members; the model keeps the iteration bound as the
   integer the double holds ([iters_rep]).  update: same EPSILON clamps, same quotient, truncation (ntruncZ), std::min. *)
Theorem C06_source_tie_iterations : forall (T : Type) (N : NumOps T) (s : iters T) (npoints : Z) (p : T) (maxit k sdraw : Z),
  src_iters_init N npoints p maxit = iters_rep N (iters_init N npoints p maxit) /\
  src_iters_get N (iters_rep N s) = nofZ N (iters_get s) /\
  src_iters_update N (iters_rep N s) k sdraw =
    (it_logopp s, it_oneovern s, nmin2 N (nofZ N (it_n s)) (nofZ N (ntruncZ N (iters_ratio N s k sdraw)))) /\
  (int_order_embedding N -> src_iters_update N (iters_rep N s) k sdraw = iters_rep N (iters_update N s k sdraw)).
Proof.
  intros. split; [apply tie_iters_init|]. split; [apply tie_iters_get|]. split; [apply tie_iters_update_raw|].
  intros H. now apply tie_iters_update.
Qed.
Print Assumptions C06_source_tie_iterations.

(* the hypothesis of the last clause holds for the reals (and for binary64 on |integers| <= 2^53) *)
Theorem C06_source_tie_iterations_R : forall (s : iters R) (k sdraw : Z),
  int_order_embedding ROps /\
  src_iters_update ROps (iters_rep ROps s) k sdraw = iters_rep ROps (iters_update ROps s k sdraw).
Proof. intros. split; [exact int_order_embedding_R | apply tie_iters_update; exact int_order_embedding_R]. Qed.
Print Assumptions C06_source_tie_iterations_R.

(* Ransac::estimateModel — the regenerated program over an abstract RansacModel (every virtual call on ransacModel_ is an
   argument; the model object is a state threaded through them) run with the source's own maximum as fuel returns exactly
   what RansacModel.estimate returns: the boolean and the final model object.  Every dictionary whose integer -> scalar
   conversion is order preserving (needed only for `iteration < ransacIterations.get()` and std::min). *)
Theorem C06_source_tie_estimateModel : forall (T : Type) (N : NumOps T), int_order_embedding N ->
  forall (S : Type) (draw : T -> S -> S * bool) (countInliers : T -> S -> S * Z) (refine : S -> S)
         (getNumberOfPoints getNumberOfPointsToDrawModel getMinimalNumberOfInliers : S -> Z) (p sigma : T) (s : S),
  src_estimateModel N draw countInliers refine getNumberOfPoints getNumberOfPointsToDrawModel getMinimalNumberOfInliers
                    (Z.to_nat ransac_maxit) p sigma s =
  match estimate N (draw sigma) (countInliers sigma) refine (getNumberOfPointsToDrawModel s)
                 (getNumberOfPoints s) (getMinimalNumberOfInliers s) p ransac_maxit s with
  | None => None
  | Some r => Some (er_ok r, er_state r)
  end.
Proof. intros T N H S. exact (tie_estimateModel N H). Qed.
Print Assumptions C06_source_tie_estimateModel.

(* ... hence C06_estimate_logic holds of the regenerated program itself (reals): it terminates within the source's
   maximum, returns true iff the largest count seen through the float variable exceeds the draw size, and the object it
   leaves is refine(...) of the loop's object iff it returns true *)
Theorem C06_source_estimateModel_logic : forall (S : Type) (draw : R -> S -> S * bool) (countInliers : R -> S -> S * Z)
    (refine : S -> S) (gnp gsd gmi : S -> Z) (p sigma : R) (s : S),
  (forall x, 0 <= snd (countInliers sigma x))%Z -> (gmi s <= gnp s)%Z ->
  exists (ok : bool) (s_loop : S) (loop_calls : list rcall),
    src_estimateModel ROps draw countInliers refine gnp gsd gmi (Z.to_nat ransac_maxit) p sigma s =
      Some (ok, if ok then refine s_loop else s_loop) /\
    (ok = true <-> (gsd s < max_rounded 0 (counts_of loop_calls))%Z) /\ (draws_of loop_calls <= ransac_maxit)%Z.
Proof.
  intros S draw cnt refine gnp gsd gmi p sigma s Hc Hm.
  rewrite (tie_estimateModel ROps int_order_embedding_R).
  destruct (C06_estimate_logic R ROps S (draw sigma) (cnt sigma) refine (gsd s) (gnp s) (gmi s) p ransac_maxit s Hc Hm)
    as (r & calls & sl & E & _ & Hb & Hok & _ & Hst & Hit & Hle); [vm_compute; discriminate|].
  rewrite E. exists (er_ok r), sl, calls. rewrite Hst. split; [reflexivity|]. rewrite <- Hb. split; [exact Hok | lia].
Qed.
Print Assumptions C06_source_estimateModel_logic.

(* FindRigidTransformationByICP::find — the block run when ransac_.estimateModel() succeeded (difference with the
   PREVIOUS estimate, best-estimate backup, break test, previous := current) is icp_step, for every dictionary; the
   model's is_best names the iteration whose matrix bestRigidTransformation then holds.  Loop header and return
   statement: n < max, n + 1, n != max. *)
Theorem C06_source_tie_icp_exit : forall (T : Type) (N : NumOps T) (eps : T) (n : Z) (st : icp_state T) (o : icp_outcome T)
    (bestM : list T) (maxit : Z),
  (src_icp_block N (io_rmse o) (io_M o) eps (is_best_rmse st) bestM (is_prev st) =
     (let st' := fst (icp_step N eps n st o) in
      (is_best_rmse st', (if nltb N (io_rmse o) (is_best_rmse st) then io_M o else bestM), is_prev st'),
      snd (icp_step N eps n st o)) /\
   is_best (fst (icp_step N eps n st o)) = (if nltb N (io_rmse o) (is_best_rmse st) then Some n else is_best st)) /\
  src_icp_continue maxit n = (n <? maxit)%Z /\ src_icp_next n = (n + 1)%Z /\ src_icp_return maxit n = negb (n =? maxit)%Z.
Proof. intros. split; [apply tie_icp_block | apply tie_icp_header]. Qed.
Print Assumptions C06_source_tie_icp_exit.

(* the for loop assembled from those regenerated pieces (SrcTieC06.src_icp_loop: skip when RANSAC failed, else the block;
   leave on break; the source's continuation test, increment and return expression) computes icp_run: same return value,
   same loop counter, same rmse / previous matrix, and bestRigidTransformation is the matrix of iteration is_best *)
Theorem C06_source_tie_icp_loop : forall (T : Type) (N : NumOps T) (eps : T) (maxit : Z) (identity : list T)
    (os : list (icp_outcome T)), (0 <= maxit)%Z ->
  match icp_run N eps maxit identity os with
  | None => src_icp_loop N eps maxit (S (Z.to_nat maxit)) 0 (nmaxval N) identity identity os = None
  | Some r =>
    src_icp_loop N eps maxit (S (Z.to_nat maxit)) 0 (nmaxval N) identity identity os =
    Some (ir_found r, ir_n r, (is_best_rmse (ir_state r), best_matrix identity os (is_best (ir_state r)), is_prev (ir_state r)))
  end.
Proof.
  intros T N eps maxit identity os Hm. unfold icp_run.
  pose proof (tie_icp_loop N eps maxit identity os (Z.to_nat maxit) [] os (icp_init N identity) identity eq_refl
                ltac:(cbn [length]; lia) eq_refl) as E. cbn [length Z.of_nat] in E.
  revert E. destruct (icp_loop N eps (Z.to_nat maxit) 0 (icp_init N identity) os); intros E; exact E.
Qed.
Print Assumptions C06_source_tie_icp_loop.

(* obligations on the constants regenerated from the sources that the statements above rely on *)
Example C06_constants :
  rigid_gate_factor = 9%Z /\ (0 <= ransac_maxit)%Z /\ (0 <= icp_maxit)%Z /\
  (0 <= rigid_draw_size 2)%Z /\ (0 <= rigid_draw_size 3)%Z.
Proof. vm_compute. repeat split; discriminate. Qed.
