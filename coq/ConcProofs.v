(* ConcProofs.v — what the serial specifications of the shared variables (C19) are stated with, and the
   subsequence lemmas behind exactly-once-in-order. *)
From Coq Require Import List ZArith Lia.
From Romea Require Import ConcModel.
Import ListNotations.

Section P.
Context {V : Type}.

(* SharedVariable: the most recently stored value (or the initial one) *)
Fixpoint last_store (s : V) (ops : list (svop (V:=V))) : V :=
  match ops with [] => s | SvStore v :: r => last_store v r | SvLoad :: r => last_store s r end.

Fixpoint stores_sv (ops : list (svop (V:=V))) : list V :=
  match ops with [] => [] | SvStore v :: r => v :: stores_sv r | SvLoad :: r => stores_sv r end.

(* SharedOptionalVariable: consumed values form a subsequence of the stored values *)
Inductive subseq : list V -> list V -> Prop :=
| ss_nil l : subseq [] l
| ss_take x a b : subseq a b -> subseq (x :: a) (x :: b)
| ss_skip x a b : subseq a b -> subseq a (x :: b).

Fixpoint stores (ops : list (soop (V:=V))) : list V :=
  match ops with [] => [] | SoStore v :: r => v :: stores r | SoConsume :: r => stores r end.

Fixpoint consumed (outs : list (option (option V))) : list V :=
  match outs with [] => [] | Some (Some v) :: r => v :: consumed r | _ :: r => consumed r end.

Definition pending (s : option V) : list V := match s with Some v => [v] | None => [] end.

Lemma subseq_app_skip a b c : subseq a b -> subseq a (c ++ b).
Proof. induction c as [|x c IH]; intros H; cbn; [exact H|apply ss_skip, IH, H]. Qed.

Lemma subseq_pending s a b : subseq a b -> subseq (pending s ++ a) (pending s ++ b).
Proof. destruct s; cbn; intros H; [apply ss_take|]; exact H. Qed.

Lemma so_consumed_subseq : forall ops s, subseq (consumed (so_run s ops)) (pending s ++ stores ops).
Proof.
  induction ops as [|o ops IH]; intros s; cbn [so_run consumed stores]; [constructor|].
  destruct o as [v|]; cbn [so_step consumed].
  - (* store: an unconsumed pending value is dropped; v becomes pending *)
    specialize (IH (Some v)). cbn [pending app] in IH. apply subseq_app_skip. exact IH.
  - specialize (IH None). cbn [pending app] in IH.
    destruct s as [x|]; cbn [consumed pending app]; [apply ss_take|]; exact IH.
Qed.

(* a subsequence of a duplicate-free list is duplicate-free: with distinct stored values, every consumed value was
   stored exactly once and is handed out at most once, in store order *)
Lemma subseq_in a b x : subseq a b -> In x a -> In x b.
Proof. induction 1 as [l|y a b S IH|y a b S IH]; intros Hin; cbn in *; [contradiction|destruct Hin; auto|right; auto]. Qed.

Lemma subseq_nodup a b : subseq a b -> NoDup b -> NoDup a.
Proof.
  induction 1 as [l|x a b H IH|x a b H IH]; intros N; [constructor| |].
  - inversion N; subst. constructor; [|apply IH; assumption]. intros Hin. apply (subseq_in _ _ _ H) in Hin. contradiction.
  - inversion N; subst. apply IH. assumption.
Qed.

End P.
