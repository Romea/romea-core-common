(* OnlineStatsModel.v — executable model for C16:
     src/monitoring/OnlineAverage.cpp, src/monitoring/OnlineVariance.cpp,
     include/romea_core_common/containers/Eigen/RingOfEigenVector.hpp
   Definitions only.  Integers are exact (Z / nat): the property bounds |value|/precision by 1e8 and the
   window by 64 so the 64-bit sums cannot overflow (OnlineStatsProofs.sums_le, Properties_C16.C16_sums_fit_64_bits);
   the size_t arithmetic of the ring index IS modelled with its 2^64 wrap because the property is about it. *)
From Coq Require Import ZArith List Bool Arith.
From Romea Require Import Num.
Import ListNotations.

(* ------------------------------------------------------------ a ring of capacity [cap] written at position p *)
Section Ring.
Context {A : Type}.

Fixpoint replace_nth (p : nat) (x : A) (l : list A) : list A :=
  match l, p with
  | [], _ => []
  | _ :: r, O => x :: r
  | a :: r, S p' => a :: replace_nth p' x r
  end.

(* std::vector used as a ring: push_back until it holds cap items, then overwrite slot p *)
Definition ring_write (cap : nat) (data : list A) (p : nat) (x : A) : list A :=
  if Nat.eqb (length data) cap then replace_nth p x data else data ++ [x].

(* logical content, oldest first *)
Definition ring_logical (cap : nat) (data : list A) (p : nat) : list A :=
  if Nat.eqb (length data) cap then skipn p data ++ firstn p data else data.
End Ring.

(* ------------------------------------------------------------ OnlineAverage / OnlineVariance, integer core *)
Record ostate := {
  o_index : nat;          (* index_  *)
  o_W : nat;              (* windowSize_ *)
  o_data : list Z;        (* data_ : truncated samples *)
  o_sum : Z;              (* sumOfData_ *)
  o_sq : list Z;          (* squaredData_ (OnlineVariance) *)
  o_sumsq : Z             (* sumOfSquaredData_ *)
}.

Definition o_init (W : nat) : ostate :=
  {| o_index := 0; o_W := W; o_data := []; o_sum := 0; o_sq := []; o_sumsq := 0 |}.

(* update with the already truncated sample x = static_cast<long long>(value * multiplier_) *)
Definition o_update (s : ostate) (x : Z) : ostate :=
  let full := Nat.eqb (length (o_data s)) (o_W s) in
  let old := if full then nth (o_index s) (o_data s) 0%Z else 0%Z in
  let oldsq := if full then nth (o_index s) (o_sq s) 0%Z else 0%Z in
  {| o_index := (o_index s + 1) mod (o_W s);
     o_W := o_W s;
     o_data := ring_write (o_W s) (o_data s) (o_index s) x;
     o_sum := (o_sum s + x - old)%Z;
     o_sq := ring_write (o_W s) (o_sq s) (o_index s) (x * x)%Z;
     o_sumsq := (o_sumsq s + x * x - oldsq)%Z |}.

(* reset(): clears the data and the sums and restarts the ring position *)
Definition o_reset (s : ostate) : ostate :=
  {| o_index := 0; o_W := o_W s; o_data := []; o_sum := 0; o_sq := []; o_sumsq := 0 |}.

Definition o_available (s : ostate) : bool := Nat.eqb (length (o_data s)) (o_W s).

Inductive oop {T : Type} := OUpdate (v : T) | OReset.
Arguments oop : clear implicits.

Section Float.
Context {T : Type} (N : NumOps T).

(* multiplier_ = static_cast<int>(1 / averagePrecision) *)
Definition o_multiplier (precision : T) : Z := ntruncZ N (ndiv N (n_one N) precision).

(* static_cast<long long>(value * multiplier_) *)
Definition o_trunc (mult : Z) (v : T) : Z := ntruncZ N (nmul N v (nofZ N mult)).

(* average_ : NaN (None) while no sample is held, else sumOfData_ / (double(multiplier_) * data_.size()) *)
Definition o_average (mult : Z) (s : ostate) : option T :=
  match o_data s with
  | [] => None
  | _ => Some (ndiv N (nofZ N (o_sum s)) (nmul N (nofZ N mult) (nofZ N (Z.of_nat (length (o_data s))))))
  end.

(* variance_ : (sumSq / squaredMultiplier - n * average^2) / (windowSize - 1) *)
Definition o_variance (mult : Z) (s : ostate) : option T :=
  match o_average mult s with
  | None => None
  | Some avg =>
      let sqavg := ndiv N (nofZ N (o_sumsq s)) (nofZ N (mult * mult)%Z) in
      let n := nofZ N (Z.of_nat (length (o_data s))) in
      Some (ndiv N (nsub N sqavg (nmul N (nmul N n avg) avg)) (nofZ N (Z.of_nat (o_W s) - 1)%Z))
  end.

Definition o_step (mult : Z) (s : ostate) (o : oop T) : ostate :=
  match o with OUpdate v => o_update s (o_trunc mult v) | OReset => o_reset s end.

(* run a history; after every op report (available, average, variance, truncated window oldest-first) *)
Fixpoint o_run (mult : Z) (s : ostate) (ops : list (oop T)) : list (bool * option T * option T) :=
  match ops with
  | [] => []
  | o :: r => let s' := o_step mult s o in
              (o_available s', o_average mult s', o_variance mult s') :: o_run mult s' r
  end.
End Float.

(* ------------------------------------------------------------ RingOfEigenVector *)
Definition two64 : Z := 18446744073709551616%Z.

Record rstate {A : Type} := { r_cap : nat; r_index : Z (* size_t ringIndex_ *); r_ring : list A }.
Arguments rstate : clear implicits.

Definition r_init {A} (cap : nat) : rstate A :=
  {| r_cap := cap; r_index := (two64 - 1)%Z (* size_t(-1) *); r_ring := [] |}.

(* ringIndex_ = (ringIndex_ + 1) % ringSize_;  overwrite or push_back *)
Definition r_append {A} (s : rstate A) (x : A) : rstate A :=
  let idx := (((r_index s + 1) mod two64) mod Z.of_nat (r_cap s))%Z in
  {| r_cap := r_cap s; r_index := idx;
     r_ring := if Nat.eqb (length (r_ring s)) (r_cap s) then replace_nth (Z.to_nat idx) x (r_ring s)
               else r_ring s ++ [x] |}.

(* clear(): empties the ring and rewinds the index to its initial value *)
Definition r_clear {A} (s : rstate A) : rstate A :=
  {| r_cap := r_cap s; r_index := (two64 - 1)%Z; r_ring := [] |}.

Definition r_size {A} (s : rstate A) : nat := length (r_ring s).

(* operator[](n) : ring_[(ringIndex_ + ring_.size() - n) % ring_.size()]   (size_t arithmetic) *)
Definition r_get {A} (s : rstate A) (n : nat) : option A :=
  match r_ring s with
  | [] => None     (* modulo by zero in C++: outside the contract *)
  | _ => let sz := Z.of_nat (length (r_ring s)) in
         nth_error (r_ring s) (Z.to_nat ((((r_index s + sz) mod two64 - Z.of_nat n) mod two64) mod sz)%Z)
  end.

Inductive rop {A : Type} := RAppend (x : A) | RClear.
Arguments rop : clear implicits.

Definition r_step {A} (s : rstate A) (o : rop A) : rstate A :=
  match o with RAppend x => r_append s x | RClear => r_clear s end.

(* after each op: size and all entries [0..size) *)
Fixpoint r_run {A} (s : rstate A) (ops : list (rop A)) : list (nat * list (option A)) :=
  match ops with
  | [] => []
  | o :: r => let s' := r_step s o in
              (r_size s', map (r_get s') (seq 0 (r_size s'))) :: r_run s' r
  end.

(* ------------------------------------------------------------ the code as it was before the repairs (kept only
   for the refutation theorems that document the defects; not used by the checks' correspondence run) *)
Definition o_reset_legacy (s : ostate) : ostate :=    (* reset() kept index_ *)
  {| o_index := o_index s; o_W := o_W s; o_data := []; o_sum := 0; o_sq := []; o_sumsq := 0 |}.

Definition r_get_legacy {A} (s : rstate A) (n : nat) : option A :=   (* (ringIndex_ - n) % ring_.size() *)
  match r_ring s with
  | [] => None
  | _ => nth_error (r_ring s) (Z.to_nat (((r_index s - Z.of_nat n) mod two64) mod Z.of_nat (length (r_ring s)))%Z)
  end.

Definition r_clear_legacy {A} (s : rstate A) : rstate A :=   (* clear() kept ringIndex_ *)
  {| r_cap := r_cap s; r_index := r_index s; r_ring := [] |}.

(* int squaredMultiplier_ = multiplier_ * multiplier_  wrapped to 32-bit two's complement *)
Definition wrap32 (z : Z) : Z := ((z + 2147483648) mod 4294967296 - 2147483648)%Z.
